(* Proofs/C28.v — the scanner over a built WWW-Authenticate header. A header is
   the scheme word, a space, one name="value" and then , name="value" segments;
   names hold no quote, '=', space or comma, so the scanner stands at a boundary
   before every name and [parse_param] is [lookup] by first match on the name
   ([scan_segs] for the segments, [parse_build] for the whole header). *)
From VR Require Import Model.C28 Lib.Lists.
From Coq Require Import ZifyBool.
Open Scope N_scope.
Local Arguments N.eqb : simpl never.

Definition noquote (s : bytes) : bool := forallb (fun c => negb (c =? QUOTE)) s.
(* a byte that can appear in a parameter name / id value: no quote, '=', space, comma *)
Definition plainc (c : N) : bool := negb (c =? QUOTE) && negb (c =? EQ) && negb (is_sep c).
Definition plain (s : bytes) : bool := forallb plainc s.
Definition name_ok (n : bytes) : Prop := n <> [] /\ plain n = true.

Lemma until_quote_aux_app acc v r :
  noquote v = true -> until_quote_aux acc (v ++ QUOTE :: r) = rev acc ++ v.
Proof.
  revert acc; induction v as [|c v IH]; intros acc H; cbn in *.
  - now rewrite app_nil_r.
  - apply andb_true_iff in H as [Hc Hv]. unfold QUOTE in *. destruct (c =? 34) eqn:E; [discriminate|].
    rewrite IH by exact Hv. cbn. now rewrite <- app_assoc.
Qed.

Lemma until_quote_app v r : noquote v = true -> until_quote (v ++ QUOTE :: r) = v.
Proof. intro H. unfold until_quote. now rewrite until_quote_aux_app. Qed.

Lemma until_quote_none s : noquote s = true -> until_quote s = [].
Proof.
  intro H0. unfold until_quote. enough (G : forall acc, until_quote_aux acc s = []) by apply G.
  revert H0. induction s as [|c s IH]; intros H acc; cbn in *; [reflexivity|].
  apply andb_true_iff in H as [Hc Hs]. unfold QUOTE in *. destruct (c =? 34); [discriminate|]. now apply IH.
Qed.

Lemma scan_inq k pv v rest :
  noquote v = true -> scan k true pv (v ++ QUOTE :: rest) = scan k false false rest.
Proof.
  revert pv; induction v as [|c v IH]; intros pv H; cbn in *; [reflexivity|].
  apply andb_true_iff in H as [Hc Hv]. unfold QUOTE in *. destruct (c =? 34) eqn:E; [discriminate|]. cbn. now apply IH.
Qed.

Lemma plainc_facts c : plainc c = true -> (c =? QUOTE) = false /\ is_sep c = false /\ (c =? EQ) = false.
Proof. unfold plainc, is_sep, QUOTE, EQ, SP, COMMA. lia. Qed.

Lemma scan_word k w rest :
  plain w = true -> scan k false false (w ++ rest) = scan k false false rest.
Proof.
  induction w as [|c w IH]; intro H; cbn in *; [reflexivity|].
  apply andb_true_iff in H as [Hc Hw]. apply plainc_facts in Hc as (Hq & Hs & _).
  fold QUOTE. rewrite Hq, Hs. now apply IH.
Qed.

Lemma plain_noquote s : plain s = true -> noquote s = true.
Proof. apply forallb_imp. intros c Hc. apply plainc_facts in Hc as (-> & _). reflexivity. Qed.

(* a key matches a name only whole, and then the byte behind the name is the '=' *)
Lemma key_prefix_word p n c r :
  plain p = true -> plain n = true -> plainc c = false ->
  has_prefix (key p) (n ++ c :: r) = true -> p = n /\ c = EQ.
Proof.
  revert n; induction p as [|x p IH]; intros [|y n] Hp Hn Hc H; cbn in *.
  - apply andb_true_iff in H as [H _]. apply N.eqb_eq in H. now subst.
  - apply andb_true_iff in Hn as [Hy _]. apply plainc_facts in Hy as (_ & _ & He).
    apply andb_true_iff in H as [H _]. unfold EQ in *. lia.
  - apply andb_true_iff in Hp as [Hx _]. apply andb_true_iff in H as [H _]. apply N.eqb_eq in H. congruence.
  - apply andb_true_iff in Hp as [Hx Hp]. apply andb_true_iff in Hn as [Hy Hn].
    apply andb_true_iff in H as [H1 H2]. apply N.eqb_eq in H1. subst y.
    destruct (IH n Hp Hn Hc H2) as [-> ->]. now split.
Qed.

Lemma key_no_prefix_sep p c r : name_ok p -> is_sep c = true -> has_prefix (key p) (c :: r) = false.
Proof.
  intros [Hne Hp] Hc. destruct p as [|x p]; [congruence|]. cbn in *.
  apply andb_true_iff in Hp as [Hx _]. apply plainc_facts in Hx as (_ & Hs & _).
  destruct (x =? c) eqn:E; [|reflexivity]. apply N.eqb_eq in E. subst. congruence.
Qed.

Definition seg_core (n v : bytes) : bytes := n ++ EQ :: QUOTE :: v ++ [QUOTE].

Lemma seg_is n v : seg n v = COMMA :: SP :: seg_core n v.
Proof. reflexivity. Qed.

Lemma seg_core_app n v rest : seg_core n v ++ rest = n ++ EQ :: QUOTE :: v ++ QUOTE :: rest.
Proof. unfold seg_core. rewrite <- app_assoc. cbn [app]. now rewrite <- app_assoc. Qed.

(* at a boundary, a name that is not the key's, or has no '=' behind it, is passed over *)
Lemma scan_skip_name p n c r :
  name_ok p -> name_ok n -> plainc c = false -> p <> n \/ c <> EQ ->
  scan (key p) false true (n ++ c :: r) = scan (key p) false false (c :: r).
Proof.
  intros [_ Hp] [Hne Hn] Hc Hd. destruct (has_prefix (key p) (n ++ c :: r)) eqn:E.
  - destruct (key_prefix_word p n c r Hp Hn Hc E). tauto.
  - destruct n as [|y n]; [congruence|]. cbn [app] in *. cbn [scan andb]. rewrite E.
    cbn [plain forallb] in Hn. apply andb_true_iff in Hn as [Hy Hn]. apply plainc_facts in Hy as (Hq & Hs & _).
    rewrite Hq, Hs. now apply scan_word.
Qed.

(* at a boundary, a segment name="value" answers the key of its name and is passed over by any other *)
Lemma scan_core p n v rest :
  name_ok p -> name_ok n -> noquote v = true ->
  scan (key p) false true (seg_core n v ++ rest) = if beqb p n then v else scan (key p) false false rest.
Proof.
  intros Hp Hn Hv. rewrite seg_core_app. destruct (beqb p n) eqn:Epn.
  - apply beqb_eq in Epn. subst n.
    change (p ++ EQ :: QUOTE :: v ++ QUOTE :: rest) with (p ++ [EQ; QUOTE] ++ v ++ QUOTE :: rest).
    rewrite app_assoc. fold (key p). destruct (key p ++ v ++ QUOTE :: rest) as [|c t] eqn:EK.
    + unfold key in EK. destruct p; discriminate.
    + cbn [scan andb]. rewrite <- EK. rewrite has_prefix_app, drop_app_len. now apply until_quote_app.
  - apply beqb_neq in Epn. rewrite scan_skip_name by (auto; reflexivity).
    cbn [scan andb]. change (EQ =? QUOTE) with false. change (is_sep EQ) with false.
    cbn [scan andb]. rewrite N.eqb_refl. now apply scan_inq.
Qed.

(* the separator ", " is never the start of a key: from any state the scanner arrives at a boundary *)
Lemma scan_sep p pv rest :
  name_ok p -> scan (key p) false pv (COMMA :: SP :: rest) = scan (key p) false true rest.
Proof.
  intro Hp. cbn [scan]. rewrite (key_no_prefix_sep p COMMA), andb_false_r by auto.
  change (COMMA =? QUOTE) with false. change (is_sep COMMA) with true. cbn [scan].
  now rewrite (key_no_prefix_sep p SP) by auto.
Qed.

Definition render (segs : list (bytes * bytes)) : bytes := concat (map (fun nv => seg (fst nv) (snd nv)) segs).

Fixpoint lookup (p : bytes) (segs : list (bytes * bytes)) : bytes :=
  match segs with
  | [] => []
  | (n, v) :: t => if beqb p n then v else lookup p t
  end.

Definition seg_ok (nv : bytes * bytes) : Prop := name_ok (fst nv) /\ noquote (snd nv) = true.

Lemma scan_segs p pv segs :
  name_ok p -> Forall seg_ok segs ->
  scan (key p) false pv (render segs) = lookup p segs.
Proof.
  intros Hp. revert pv. induction segs as [|[n v] t IH]; intros pv Hs; [reflexivity|].
  inversion Hs as [|x l [Hn Hv] Ht]; subst. unfold render in *. cbn [map concat fst snd lookup] in *.
  rewrite seg_is. cbn [app]. rewrite scan_sep, scan_core by assumption.
  destruct (beqb p n); [reflexivity | now apply IH].
Qed.

(* The optional parameters as (name, value) pairs, absent = empty value; the header renders
   those that are present. *)
Definition fields (m : meta) : list (bytes * bytes) :=
  [(p_client_id, m_client_id m); (p_use_id_token, if m_id_token m then www_true else []);
   (p_client_secret, m_client_secret m); (p_dc_client_id, m_dc_id m); (p_dc_client_secret, m_dc_secret m)].
Definition present (nv : bytes * bytes) : list (bytes * bytes) := match snd nv with [] => [] | _ => [nv] end.
Definition head (u : bytes) : bytes := www_scheme_prefix ++ seg_core p_resource_metadata u.

Lemma render_present fs :
  render (flat_map present fs) = concat (map (fun nv => opt_seg (fst nv) (snd nv)) fs).
Proof.
  induction fs as [|[n v] fs IH]; [reflexivity|]. cbn [flat_map map concat fst snd]. rewrite <- IH.
  destruct v; [reflexivity|]. unfold render, present. cbn [snd app map concat fst opt_seg]. reflexivity.
Qed.

Lemma build_is u m : build u m = head u ++ render (flat_map present (fields m)).
Proof.
  rewrite render_present. unfold build, head, fields, seg_core. cbn [map concat fst snd].
  rewrite <- !app_assoc, app_nil_r. cbn [app]. rewrite <- app_assoc. now destruct (m_id_token m).
Qed.

Lemma lookup_notin n fs : ~ In n (map fst fs) -> lookup n fs = [].
Proof.
  induction fs as [|[n' v] fs IH]; cbn [map fst In lookup]; intro H; [reflexivity|].
  destruct (beqb n n') eqn:E; [apply beqb_eq in E; subst; tauto | tauto].
Qed.

Lemma lookup_present n fs : NoDup (map fst fs) -> lookup n (flat_map present fs) = lookup n fs.
Proof.
  induction fs as [|[n' v] fs IH]; cbn [map fst flat_map lookup]; intro H; [reflexivity|].
  inversion H as [|? ? Hn' Hfs]; subst. specialize (IH Hfs).
  destruct v as [|c v]; cbn [present snd app lookup]; [|now rewrite IH].
  rewrite IH. destruct (beqb n n') eqn:E; [|reflexivity]. apply beqb_eq in E. subst. now apply lookup_notin.
Qed.

(* names are concrete: their well-formedness and distinctness are computations
   on the regenerated constants *)
Definition all_names := [p_resource_metadata; p_client_id; p_use_id_token; p_client_secret; p_dc_client_id; p_dc_client_secret].

Definition names_wf : bool :=
  forallb (fun n => negb (beqb n []) && plain n) all_names
  && forallb (fun n => negb (N.eqb (hd 0 n) (hd 0 www_scheme_prefix))) all_names
  && beqb www_scheme_prefix (removelast www_scheme_prefix ++ [SP])
  && plain (removelast www_scheme_prefix)
  && negb (beqb (removelast www_scheme_prefix) [])
  && plain www_true && negb (beqb www_true []).

Lemma names_wf_true : names_wf = true.
Proof. reflexivity. Qed.

Lemma name_ok_of_bool n : negb (beqb n []) = true -> plain n = true -> name_ok n.
Proof. intros H1 H2. split; [|exact H2]. intro E. subst. discriminate. Qed.

Lemma names_facts :
  (forall n, In n all_names -> name_ok n)
  /\ www_scheme_prefix = removelast www_scheme_prefix ++ [SP]
  /\ name_ok (removelast www_scheme_prefix) /\ name_ok www_true.
Proof.
  pose proof names_wf_true as H. unfold names_wf in H.
  apply andb_prop in H as [H H7]. apply andb_prop in H as [H H6]. apply andb_prop in H as [H H5].
  apply andb_prop in H as [H H4]. apply andb_prop in H as [H H3]. apply andb_prop in H as [H1 _].
  rewrite forallb_forall in H1.
  split; [|split; [now apply beqb_eq | split; now apply name_ok_of_bool]].
  intros n Hn. specialize (H1 n Hn). apply andb_prop in H1 as [H1 H1']. now apply name_ok_of_bool.
Qed.

Lemma names_distinct : NoDup all_names.
Proof. repeat constructor; cbn [In]; intuition discriminate. Qed.

(* the first word of the header (the scheme) is passed over; the space after it is a boundary *)
Lemma scan_first_word p s w rest :
  s = w ++ [SP] -> name_ok p -> name_ok w ->
  scan (key p) false true (s ++ rest) = scan (key p) false true rest.
Proof.
  intros -> Hp Hw. rewrite <- app_assoc. cbn [app].
  rewrite scan_skip_name by (auto; right; discriminate). reflexivity.
Qed.

Lemma id_ok_noquote s : id_ok s = true -> noquote s = true.
Proof. apply forallb_imp. intro c. unfold id_char, QUOTE. lia. Qed.

Lemma fields_ok m : meta_ok m = true -> Forall seg_ok (flat_map present (fields m)).
Proof.
  unfold meta_ok. intro H. apply andb_prop in H as [H H4]. apply andb_prop in H as [H H3].
  apply andb_prop in H as [H1 H2]. destruct names_facts as (Hn & _ & _ & [_ Ht]).
  assert (F : Forall seg_ok (fields m)).
  { (* the five names are among [all_names]; four values are ids, the flag's is "true" or absent *)
    assert (V : forall n v, In n all_names -> noquote v = true -> seg_ok (n, v))
      by (intros n v Hi Hv; split; [apply Hn, Hi | exact Hv]).
    unfold fields, all_names in *. cbn [In] in V.
    repeat apply Forall_cons; [apply V; [tauto|] .. | apply Forall_nil].
    1, 3, 4, 5: now apply id_ok_noquote.
    destruct (m_id_token m); [now apply plain_noquote | reflexivity]. }
  induction F as [|[n v] fs Hnv _ IH]; [constructor|]. cbn [flat_map]. apply Forall_app. split; [|exact IH].
  unfold present. cbn [snd]. destruct v; repeat constructor; exact Hnv || apply Hnv.
Qed.

(* every parameter is found by its name among the metadata URL and the optional fields *)
Lemma parse_build u m p :
  In p all_names -> url_ok u = true -> meta_ok m = true ->
  parse_param (build u m) p = lookup p ((p_resource_metadata, u) :: fields m).
Proof.
  intros Hin Hu Hm. destruct names_facts as (Hn & Hw & Hword & _).
  pose proof names_distinct as Hd. apply NoDup_cons_iff in Hd as [_ Hd]. pose proof (Hn _ (or_introl eq_refl)) as Hrm.
  unfold parse_param. rewrite build_is. unfold head.
  (* [scan_core] asks for [noquote u], which [url_ok u] is by conversion *)
  rewrite <- app_assoc, (scan_first_word _ _ _ _ Hw), scan_core, scan_segs, lookup_present;
    auto using fields_ok with datatypes.
Qed.

(* the pre-fix parser returns the device-code id when client_id is absent *)
Definition legacy_witness_meta : meta :=
  {| m_client_id := []; m_id_token := false; m_client_secret := [];
     m_dc_id := str "dev-id"; m_dc_secret := [] |}.

Theorem legacy_refuted :
  exists u m, url_ok u = true /\ meta_ok m = true /\
              parse_legacy (build u m) p_client_id <> m_client_id m.
Proof.
  exists (str "https://h/x"), legacy_witness_meta. repeat split; try (vm_compute; reflexivity).
  vm_compute. discriminate.
Qed.
