(* Five topics, each resting on one lemma.  Decimal texts: ParseUint's loop is Horner's value
   with a range test ([pu_loop_spec]), so ParseUint and Atoi accept exactly what [denotes_uint]
   and [denotes_int] describe ([parse_uint_iff], [parse_int_iff]), and FormatUint's text reads back
   ([dec_digits_spec]).  ReadBatch: its uint64 sum is within one wrap of the true sum on either
   side ([wrap_by]), which gives the slice, the panic or the bounds error in unbounded arithmetic
   ([read_region_spec]) and with it ResolveShmBatch as a closed form ([resolve_eq]).  Metadata:
   lookup through the pointer-key filter ([lookup_strip]), so the pointer MaybeWriteToShm builds
   resolves to the region it describes ([written_pointer_resolves]).  Framing: stripping the
   schema message and the reader's reconstruction undo each other ([strip_reconstruct], from
   [sub_mid]).  Schema cache: with a sound key the cache answers every write to come
   with that write's own schema message ([run_writes_own]), so every write stores what a first
   write would ([run_writes_fresh]).  After them: the decidable spec on the model's own output, one
   lemma per kind of case ([spec_ptr_model], [spec_rt_model], [spec_ws_fresh]), and the witnesses
   that the refutations in Props/C35.v evaluate. *)
From VR Require Import Model.C35 Lib.Ints.
Open Scope Z_scope.

Lemma eos_len : zlen EOS = 8.
Proof. reflexivity. Qed.
Lemma ptr_keys :
  is_ptr_key c35_k_off = true /\ is_ptr_key c35_k_len = true
  /\ is_ptr_key c35_k_source = false /\ is_ptr_key c35_k_loglevel = false.
Proof. repeat split. Qed.
Lemma keys_distinct :
  beqb c35_k_off c35_k_len = false /\ beqb c35_k_off c35_k_loglevel = false /\ beqb c35_k_len c35_k_loglevel = false
  /\ beqb c35_k_source c35_k_off = false /\ beqb c35_k_source c35_k_len = false.
Proof. repeat split. Qed.
Lemma header_pos : 0 < c35_header_size.
Proof. reflexivity. Qed.

Definition go_int (z : Z) : Prop := - TWO63 <= z < TWO63.
Definition go_uint64 (z : Z) : Prop := 0 <= z < TWO64.
Definition is_error (r : res) : Prop := r = EBadOff \/ r = EBadLen \/ r = EClosed \/ r = EBounds \/ r = ERecovered.

(* TWO64 and TWO63 are atoms to lia: where no magnitude matters this is all it needs of them *)
Lemma two64_eq : TWO64 = 2 * TWO63 /\ 0 < TWO63.
Proof. split; reflexivity. Qed.

Lemma wrap_by k x : go_uint64 (x + k * TWO64) -> wrap64 x = x + k * TWO64.
Proof. intro H. symmetry. apply Z.mod_unique with (q := - k); [left; exact H | ring]. Qed.
Lemma wrap_small x : 0 <= x < TWO64 -> wrap64 x = x.
Proof. intro H. rewrite (wrap_by 0); unfold go_uint64; lia. Qed.
Lemma wrap_hi x : TWO64 <= x < 2 * TWO64 -> wrap64 x = x - TWO64.
Proof. intro H. rewrite (wrap_by (-1)); unfold go_uint64; lia. Qed.
Lemma wrap_lo x : - TWO64 <= x < 0 -> wrap64 x = x + TWO64.
Proof. intro H. rewrite (wrap_by 1); unfold go_uint64; lia. Qed.

Lemma s64_small z : 0 <= z < TWO63 -> s64 z = z.
Proof. intro H. apply (swrap_id TWO63 TWO64 z eq_refl eq_refl). unfold TWO63 in *. lia. Qed.

Lemma zlen_app {A} (a b : list A) : zlen (a ++ b) = zlen a + zlen b.
Proof. unfold zlen. rewrite app_length. lia. Qed.
Lemma zlen_nonneg {A} (a : list A) : 0 <= zlen a.
Proof. unfold zlen. lia. Qed.

Lemma sub_mid (a b c : bytes) : sub (a ++ b ++ c) (zlen a) (zlen b) = b.
Proof.
  unfold sub, zlen. rewrite !Nat2Z.id. rewrite skipn_app, skipn_all, Nat.sub_diag. cbn [skipn app].
  rewrite firstn_app, firstn_all, Nat.sub_diag. cbn [firstn]. apply app_nil_r.
Qed.

Lemma sub_head (a b : bytes) : sub (a ++ b) 0 (zlen a) = a.
Proof. apply (sub_mid [] a b). Qed.

Lemma has_suffix_app a suf : has_suffix suf (a ++ suf) = true.
Proof. unfold has_suffix. rewrite rev_app_distr. apply has_prefix_app. Qed.

(* decimal value of a digit string, continuing from an accumulator *)
Fixpoint dec_val (acc : Z) (s : bytes) : Z :=
  match s with [] => acc | c :: t => dec_val (10 * acc + Z.of_N (c - 48)) t end.
Definition all_digits (s : bytes) : bool := forallb is_digit s.

Lemma is_digit_spec c : is_digit c = true <-> (48 <= c <= 57)%N.
Proof. unfold is_digit. now rewrite andb_true_iff, !N.leb_le. Qed.

Lemma dec_val_ge a s : 0 <= a -> a <= dec_val a s.
Proof.
  revert a; induction s as [|c s IH]; intros a Ha; cbn [dec_val]; [lia|].
  etransitivity; [|apply IH]; lia.
Qed.

Lemma cutoff_val : CUTOFF = 1844674407370955162.
Proof. reflexivity. Qed.

(* once the accumulator has left uint64 the value never comes back: both range errors of
   ParseUint end here ([b] stands for the [all_digits] test in the goal of [pu_loop_spec]) *)
Lemma dec_val_over a s (b : bool) : TWO64 <= a -> b && (dec_val a s <? TWO64) = false.
Proof.
  intro H. pose proof (dec_val_ge a s). destruct (Z.ltb_spec (dec_val a s) TWO64); [|apply andb_false_r].
  unfold TWO64 in *. lia.
Qed.

Lemma pu_loop_spec s : forall n, 0 <= n < TWO64 ->
  pu_loop n s = if all_digits s && (dec_val n s <? TWO64) then Some (dec_val n s) else None.
Proof.
  induction s as [|c s IH]; intros n Hn; cbn [pu_loop all_digits forallb dec_val].
  - cbn [andb]. destruct (Z.ltb_spec n TWO64); [reflexivity | lia].
  - destruct (is_digit c) eqn:Hd; cbn [negb andb]; [|reflexivity].
    assert (Hc : 0 <= Z.of_N (c - 48) <= 9) by (apply is_digit_spec in Hd; lia).
    replace (10 * n) with (n * 10) by lia. generalize dependent (Z.of_N (c - 48)). intros d Hc. clear Hd.
    rewrite cutoff_val. destruct (Z.leb_spec 1844674407370955162 n) as [Hcut|Hcut].
    + now rewrite dec_val_over by (unfold TWO64; lia).
    + rewrite (wrap_small (n * 10)) by (unfold TWO64; lia).
      destruct (Z.lt_ge_cases (n * 10 + d) TWO64) as [Hlt|Hge].
      * rewrite (wrap_small (n * 10 + d)) by lia.
        destruct (Z.ltb_spec (n * 10 + d) (n * 10)); [lia|].
        unfold MAXU. destruct (Z.ltb_spec (TWO64 - 1) (n * 10 + d)); [lia|].
        apply IH. lia.
      * rewrite (wrap_hi (n * 10 + d)) by (unfold TWO64 in *; lia).
        destruct (Z.ltb_spec (n * 10 + d - TWO64) (n * 10)); [|unfold TWO64 in *; lia].
        now rewrite dec_val_over.
Qed.

Definition denotes_uint (s : bytes) (v : Z) : Prop := s <> [] /\ all_digits s = true /\ v = dec_val 0 s.

Lemma denotes_nonneg s v : denotes_uint s v -> 0 <= v.
Proof. intros (_ & _ & ->). now apply dec_val_ge. Qed.

Lemma parse_uint_iff s v : parse_uint s = Some v <-> denotes_uint s v /\ v < TWO64.
Proof.
  unfold parse_uint, denotes_uint. destruct s as [|c s].
  - split; [discriminate | intros [[H _] _]; now elim H].
  - rewrite pu_loop_spec by (unfold TWO64; lia).
    destruct (all_digits (c :: s)); cbn [andb].
    + destruct (Z.ltb_spec (dec_val 0 (c :: s)) TWO64); split.
      * intro E; inversion E; subst. repeat split; [discriminate | assumption].
      * intros [(_ & _ & ->) _]. reflexivity.
      * discriminate.
      * intros [(_ & _ & ->) ?]. lia.
    + split; [discriminate | intros [(_ & ? & _) _]; discriminate].
Qed.

Lemma parse_uint_range s v : parse_uint s = Some v -> 0 <= v < TWO64.
Proof. intro H. apply parse_uint_iff in H as [Hd Hv]. split; [now apply denotes_nonneg in Hd | exact Hv]. Qed.

Definition denotes_int (s : bytes) (v : Z) : Prop :=
  denotes_uint s v \/ (exists b, s = 43%N :: b /\ denotes_uint b v) \/ (exists b, s = 45%N :: b /\ denotes_uint b (- v)).

Lemma digit_not_sign c s : all_digits (c :: s) = true -> (c =? 43)%N = false /\ (c =? 45)%N = false.
Proof. intro H. apply andb_prop in H as [H _]. apply is_digit_spec in H. split; apply N.eqb_neq; lia. Qed.

(* Atoi's reading of a text: is there a minus, and the digits after the optional sign *)
Definition sign_body (s : bytes) : bool * bytes :=
  match s with
  | c :: t => if (c =? 45)%N then (true, t) else if (c =? 43)%N then (false, t) else (false, s)
  | [] => (false, [])
  end.

Lemma parse_int_split s : parse_int s =
  let (neg, b) := sign_body s in
  match parse_uint b with
  | Some un => if (if neg then TWO63 <? un else TWO63 <=? un) then None else Some (if neg then - un else un)
  | None => None
  end.
Proof.
  destruct s as [|c t]; [reflexivity|]. unfold parse_int, sign_body.
  destruct (c =? 45)%N; [rewrite orb_true_r | destruct (c =? 43)%N]; cbn [orb negb andb].
  - (* minus *) destruct (parse_uint t) as [un|]; reflexivity.
  - (* plus *) destruct (parse_uint t) as [un|]; [|reflexivity]. destruct (TWO63 <=? un); reflexivity.
  - (* no sign *) destruct (parse_uint (c :: t)) as [un|]; [|reflexivity]. destruct (TWO63 <=? un); reflexivity.
Qed.

Lemma denotes_int_split s v :
  denotes_int s v <-> let (neg, b) := sign_body s in denotes_uint b (if neg then - v else v).
Proof.
  unfold denotes_int, sign_body. destruct s as [|c t].
  - split; [intros [H|[(b & E & _)|(b & E & _)]]; [exact H | discriminate..] | now left].
  - destruct (N.eqb_spec c 45) as [->|H45]; [|destruct (N.eqb_spec c 43) as [->|H43]].
    + split; [intros [(_ & Hd & _)|[(b & E & _)|(b & E & Hb)]] | right; right; now exists t].
      * now destruct (digit_not_sign _ _ Hd).
      * discriminate.
      * now inversion E.
    + split; [intros [(_ & Hd & _)|[(b & E & Hb)|(b & E & _)]] | right; left; now exists t].
      * now destruct (digit_not_sign _ _ Hd).
      * now inversion E.
      * discriminate.
    + split; [intros [H|[(b & E & _)|(b & E & _)]]; [exact H | congruence..] | now left].
Qed.

Lemma parse_int_iff s v : parse_int s = Some v <-> denotes_int s v /\ - TWO63 <= v < TWO63.
Proof.
  rewrite parse_int_split, denotes_int_split. destruct (sign_body s) as [neg b]. split.
  - destruct (parse_uint b) as [un|] eqn:E; [|discriminate].
    apply parse_uint_iff in E as [Hd Hlt]. pose proof (denotes_nonneg _ _ Hd) as H0.
    destruct neg.
    + destruct (Z.ltb_spec TWO63 un); [discriminate|]. intro Ev; inversion Ev; subst v.
      split; [now rewrite Z.opp_involutive | unfold TWO63 in *; lia].
    + destruct (Z.leb_spec TWO63 un); [discriminate|]. intro Ev; inversion Ev; subst v.
      split; [exact Hd | unfold TWO63 in *; lia].
  - intros [Hd Hr].
    assert (X : parse_uint b = Some (if neg then - v else v)).
    { apply parse_uint_iff. split; [exact Hd | destruct neg; unfold TWO63, TWO64 in *; lia]. }
    rewrite X. destruct neg.
    + destruct (Z.ltb_spec TWO63 (- v)); [lia|]. f_equal; lia.
    + destruct (Z.leb_spec TWO63 v); [lia|]. reflexivity.
Qed.

Lemma parse_int_range s v : parse_int s = Some v -> - TWO63 <= v < TWO63.
Proof. intro H. now apply parse_int_iff in H. Qed.

Lemma dec_digits_S f n acc :
  dec_digits (S f) n acc =
    let acc' := (48 + Z.to_N (n mod 10))%N :: acc in if n <? 10 then acc' else dec_digits f (n / 10) acc'.
Proof. reflexivity. Qed.

Lemma digit_char r : 0 <= r < 10 -> is_digit (48 + Z.to_N r) = true /\ Z.of_N (48 + Z.to_N r - 48) = r.
Proof. intro H. split; [apply is_digit_spec|]; lia. Qed.

(* FormatUint writes right to left in front of the accumulator: reading the result back from 0
   arrives at the accumulator with n in hand *)
Lemma dec_digits_spec f : forall n acc, 0 <= n < 10 ^ Z.of_nat (S f) ->
  let s := dec_digits (S f) n acc in
  s <> [] /\ all_digits s = all_digits acc /\ dec_val 0 s = dec_val n acc.
Proof.
  induction f as [|f IH]; intros n acc Hn; rewrite dec_digits_S;
    destruct (digit_char _ (Z.mod_pos_bound n 10 eq_refl)) as [Hdig Hv];
    (destruct (Z.ltb_spec n 10) as [Hs|Hb]; cbn zeta).
  1, 3: repeat split; [discriminate | cbn [all_digits forallb]; now rewrite Hdig |];
        cbn [dec_val]; rewrite Hv, Z.mod_small by (split; [apply Hn | exact Hs]); reflexivity.
  - clear - Hn Hb. change (10 ^ Z.of_nat 1) with 10 in Hn. lia.
  - assert (Hq : 0 <= n / 10 < 10 ^ Z.of_nat (S f)).
    { clear - Hn Hb. rewrite Nat2Z.inj_succ, Z.pow_succ_r in Hn by lia.
      split; [apply Z.div_pos; lia | apply Z.div_lt_upper_bound; lia]. }
    destruct (IH (n / 10) ((48 + Z.to_N (n mod 10))%N :: acc) Hq) as (Hne & Had & Hval). repeat split; [exact Hne | |].
    + rewrite Had. cbn [all_digits forallb]. now rewrite Hdig.
    + rewrite Hval. cbn [dec_val]. rewrite Hv. f_equal. symmetry. apply Z.div_mod. discriminate.
Qed.

Lemma dec_str_denotes n : 0 <= n < TWO64 -> denotes_uint (dec_str n) n.
Proof.
  intro H. unfold dec_str.
  destruct (dec_digits_spec 23 n []) as (A & B & C); [unfold TWO64 in H; change (10 ^ Z.of_nat 24) with (10 ^ 24); lia|].
  repeat split; [exact A | exact B | now symmetry].
Qed.

Lemma parse_uint_dec_str n : 0 <= n < TWO64 -> parse_uint (dec_str n) = Some n.
Proof. intro H. apply parse_uint_iff. split; [now apply dec_str_denotes | lia]. Qed.

Lemma parse_int_dec_str n : 0 <= n < TWO63 -> parse_int (dec_str n) = Some n.
Proof.
  intro H. apply parse_int_iff. split; [|unfold TWO63 in *; lia]. left. apply dec_str_denotes.
  unfold TWO63, TWO64 in *; lia.
Qed.

Lemma in_segment_dec_str size off len :
  size < TWO63 -> 0 <= off -> 0 <= len -> off + len <= size ->
  in_segment size (dec_str off) (dec_str len) = Some (off, len).
Proof.
  intros Hs Ho Hl Hb. unfold in_segment.
  rewrite parse_uint_dec_str, parse_int_dec_str by (unfold TWO63, TWO64 in *; lia).
  destruct (Z.leb_spec 0 len); [|lia]. destruct (Z.leb_spec (off + len) size); [|lia]. reflexivity.
Qed.

(* the slices that pass ReadBatch's own check (end <= size) and still panic: the uint64 sum
   wrapped around, or the length was negative *)
Definition slice_panics (size off len : Z) : bool :=
  ((0 <=? len) && (TWO64 <=? off + len) && (off + len - TWO64 <=? size))
  || ((len <? 0) && (0 <=? off + len) && (off + len <=? size)).

Lemma read_region_spec size off len :
  0 <= size < TWO63 -> go_uint64 off -> go_int len ->
  read_region false size off len =
    if (0 <=? len) && (off + len <=? size) then RSlice off len
    else if slice_panics size off len then RPanic else RBounds.
Proof.
  unfold go_uint64, go_int, read_region, slice_panics. intros Hs Ho Hl. destruct two64_eq as [E64 P63].
  replace (wrap64 (off + wrap64 len)) with (wrap64 (off + len)) by (unfold wrap64; now rewrite Zplus_mod_idemp_r).
  destruct ((0 <=? len) && (off + len <=? size)) eqn:G.
  - rewrite wrap_small by lia. replace (size <? _) with false by lia.
    replace ((off <=? _) && _) with true by lia. f_equal. lia.
  - (* off + len is within one wrap of uint64 on either side; with the multiple named each case
       is linear (left to find the multiple itself, lia takes far longer to check) *)
    destruct (Z.lt_ge_cases (off + len) 0); [|destruct (Z.lt_ge_cases (off + len) TWO64)].
    1: rewrite wrap_lo by lia.     (* len < 0 and the end, off + len + 2^64, is past any size: RBounds *)
    2: rewrite wrap_small by lia.  (* the end is the sum: RBounds past the size, else len < 0 and the slice panics *)
    3: rewrite wrap_hi by lia.     (* the end, off + len - 2^64, is below off: RBounds past the size, else the slice panics *)
    all: (destruct (size <? _) eqn:A; [|replace ((off <=? _) && _) with false by lia]);
      destruct (_ || _) eqn:P; reflexivity || (exfalso; lia).
Qed.

Lemma lookup_app k a b : lookup k (a ++ b) = match lookup k a with Some v => Some v | None => lookup k b end.
Proof.
  induction a as [|[k' v] a IH]; cbn [app lookup]; [reflexivity|]. destruct (beqb k' k); [reflexivity | exact IH].
Qed.

Lemma lookup_strip k md : lookup k (strip_ptr md) = if is_ptr_key k then None else lookup k md.
Proof.
  induction md as [|[k' v] md IH]; [now destruct (is_ptr_key k)|]. cbn [strip_ptr filter fst lookup].
  destruct (beqb k' k) eqn:E.
  - apply beqb_eq in E as ->. destruct (is_ptr_key k); cbn [negb]; [exact IH|]. cbn [lookup]. now rewrite beqb_refl.
  - destruct (is_ptr_key k'); cbn [negb]; [exact IH|]. cbn [lookup]. rewrite E. exact IH.
Qed.

Lemma strip_idem md : strip_ptr (strip_ptr md) = strip_ptr md.
Proof.
  unfold strip_ptr. induction md as [|kv md IH]; [reflexivity|]. cbn [filter].
  destruct (negb (is_ptr_key (fst kv))) eqn:E; [|exact IH]. cbn [filter]. rewrite E. now f_equal.
Qed.

Lemma strip_no_ptr_keys md : Forall (fun kv => is_ptr_key (fst kv) = false) (strip_ptr md).
Proof.
  apply Forall_forall. intros kv H. apply filter_In in H as [_ H]. now destruct (is_ptr_key (fst kv)).
Qed.

Lemma md_eqb_eq a b : md_eqb a b = true <-> a = b.
Proof. apply list_eqb_eq, pair_eqb_eq; apply beqb_eq. Qed.

Lemma md_eqb_refl m : md_eqb m m = true.
Proof. exact (list_eqb_refl _ (pair_eqb_refl _ _ beqb_refl beqb_refl) m). Qed.

(* ResolveShmBatch in unbounded arithmetic: no wrap, no partial slice *)
Lemma resolve_eq seg closed size name rows md :
  0 <= size < TWO63 ->
  resolve seg closed size name rows md =
    if negb seg || negb (is_ptr rows md) then Unchanged else
    match parse_uint (get c35_k_off md), parse_int (get c35_k_len md) with
    | None, _ => EBadOff
    | Some _, None => EBadLen
    | Some off, Some len =>
        if closed then EClosed
        else if (0 <=? len) && (off + len <=? size) then Read off len (resolved_md md name)
        else if slice_panics size off len then ERecovered else EBounds
    end.
Proof.
  intro Hs. unfold resolve. destruct (negb seg || negb (is_ptr rows md)); [reflexivity|].
  destruct (parse_uint (get c35_k_off md)) as [off|] eqn:Eo; [|reflexivity].
  destruct (parse_int (get c35_k_len md)) as [len|] eqn:El; [|reflexivity].
  destruct closed; [reflexivity|].
  rewrite read_region_spec; [|assumption|now apply parse_uint_range in Eo|now apply parse_int_range in El].
  destruct ((0 <=? len) && (off + len <=? size)); [reflexivity|]. now destruct (slice_panics size off len).
Qed.

Lemma resolve_good seg size name rows md off len :
  0 <= size < TWO63 -> seg = true -> is_ptr rows md = true ->
  parse_uint (get c35_k_off md) = Some off -> parse_int (get c35_k_len md) = Some len ->
  0 <= len -> off + len <= size ->
  resolve seg false size name rows md = Read off len (resolved_md md name).
Proof.
  intros Hs -> Hp Eo El H0 H1. rewrite resolve_eq, Hp, Eo, El by exact Hs. cbn [negb orb].
  destruct (Z.leb_spec 0 len); [|lia]. destruct (Z.leb_spec (off + len) size); [|lia]. reflexivity.
Qed.

(* the metadata of the pointer batch that MaybeWriteToShm builds, as ResolveShmBatch reads it *)
Lemma ptr_md_facts off len md :
  get c35_k_off (ptr_md_of off len md) = dec_str off
  /\ get c35_k_len (ptr_md_of off len md) = dec_str len
  /\ strip_ptr (ptr_md_of off len md) = strip_ptr md
  /\ is_ptr 0 (ptr_md_of off len md) = negb (has_key c35_k_loglevel md).
Proof.
  destruct ptr_keys as (Ho & Hl & _ & Hg), keys_distinct as (Hol & Hog & Hlg & _).
  unfold is_ptr, has_key, get, ptr_md_of. cbn [lookup]. rewrite !beqb_refl, Hol, Hog, Hlg, lookup_strip, Hg.
  repeat split. unfold strip_ptr at 1. cbn [filter fst]. rewrite Ho, Hl. apply strip_idem.
Qed.

Lemma written_pointer_resolves size name md off len :
  0 <= size < TWO63 -> 0 <= off -> 0 <= len -> off + len <= size ->
  has_key c35_k_loglevel md = false ->
  resolve true false size name 0 (ptr_md_of off len md) = Read off len (resolved_md md name).
Proof.
  intros Hs Ho Hl Hb Hlog. destruct (ptr_md_facts off len md) as (Go & Gl & Gs & Gp).
  replace (resolved_md md name) with (resolved_md (ptr_md_of off len md) name)
    by (unfold resolved_md; now rewrite Gs).
  apply resolve_good; rewrite ?Go, ?Gl, ?Gp, ?Hlog; try assumption; try reflexivity.
  - apply parse_uint_dec_str. unfold TWO63, TWO64 in *. lia.
  - apply parse_int_dec_str. lia.
Qed.

Lemma schema_prefix_so sm : schema_prefix (sm ++ EOS) = Some sm.
Proof.
  unfold schema_prefix. rewrite zlen_app. pose proof (zlen_nonneg sm).
  destruct (Z.ltb_spec (zlen sm + zlen EOS) (zlen EOS)); [lia|].
  replace (zlen sm + zlen EOS - zlen EOS) with (zlen sm) by lia. now rewrite sub_head.
Qed.

(* serializeForShm followed by the reader's reconstruction is the identity on any
   stream  schema-message ++ rest ++ EOS  whose first message skipOneIPCMessage delimits *)
Lemma strip_reconstruct sm rest :
  skip_msg (sm ++ rest ++ EOS) = Some (zlen sm) ->
  strip_stream (sm ++ rest ++ EOS) = WBytes rest
  /\ reconstruct (sm ++ EOS) rest = Some (sm ++ rest ++ EOS).
Proof.
  intro Hk. split.
  - unfold strip_stream. rewrite Hk.
    replace (sm ++ rest ++ EOS) with ((sm ++ rest) ++ EOS) at 1 by (now rewrite <- app_assoc).
    rewrite has_suffix_app. cbn [negb]. unfold slice.
    rewrite !zlen_app. pose proof (zlen_nonneg sm). pose proof (zlen_nonneg rest). pose proof (zlen_nonneg EOS).
    replace (zlen sm + (zlen rest + zlen EOS) - zlen EOS) with (zlen sm + zlen rest) by lia.
    destruct (Z.leb_spec 0 (zlen sm)); [|lia].
    destruct (Z.leb_spec (zlen sm) (zlen sm + zlen rest)); [|lia].
    destruct (Z.leb_spec (zlen sm + zlen rest) (zlen sm + (zlen rest + zlen EOS))); [|lia].
    cbn [andb]. replace (zlen sm + zlen rest - zlen sm) with (zlen rest) by lia. now rewrite sub_mid.
  - unfold reconstruct. now rewrite schema_prefix_so.
Qed.

Lemma cached_prefix_so sm : cached_prefix (sm ++ EOS) = Some sm.
Proof.
  unfold cached_prefix. rewrite has_suffix_app. cbn [negb]. rewrite orb_false_r. apply schema_prefix_so.
Qed.

Definition key_sound (ws : list wr) : Prop :=
  forall w1 w2, In w1 ws -> In w2 ws -> w_key w1 = w_key w2 -> w_sm w1 = w_sm w2.

Lemma write_step_own c w :
  (forall sm, cache_get (w_key w) c = Some sm -> sm = w_sm w) ->
  snd (write_step c w) = fresh_store w
  /\ (fst (write_step c w) = c \/ fst (write_step c w) = (w_key w, w_sm w) :: c).
Proof.
  intro Hc. unfold write_step, fresh_store, stored_region.
  destruct (w_alloc w); [|split; [|left]; reflexivity].
  destruct (writer_layout (w_schema w)); try (split; [|left]; reflexivity).
  destruct (cache_get (w_key w) c) as [sm|]; [rewrite (Hc sm eq_refl); split; [|left]; reflexivity|].
  unfold wso. rewrite cached_prefix_so. split; [|right]; reflexivity.
Qed.

Lemma run_writes_own ws : forall c, key_sound ws ->
  (forall w sm, In w ws -> cache_get (w_key w) c = Some sm -> sm = w_sm w) ->
  run_writes c ws = map fresh_store ws.
Proof.
  induction ws as [|w ws IH]; intros c Hk Hc; [reflexivity|]. cbn [run_writes map].
  destruct (write_step_own c w) as [-> Hc']; [intro sm; apply Hc; now left|]. f_equal. apply IH.
  - intros w1 w2 H1 H2. apply Hk; now right.
  - intros w' sm Hin. destruct Hc' as [-> | ->]; [apply Hc; now right|]. cbn [cache_get].
    destruct (N.eqb_spec (w_key w) (w_key w')) as [E|_]; [|apply Hc; now right].
    intros [= <-]. apply Hk; [now left | now right | exact E].
Qed.

Lemma run_writes_fresh ws : key_sound ws -> run_writes [] ws = map fresh_store ws.
Proof. intro Hk. apply run_writes_own; [exact Hk | discriminate]. Qed.

Lemma key_sound_b_sound ws : key_sound_b ws = true -> key_sound ws.
Proof.
  unfold key_sound_b, key_sound. intros H w1 w2 H1 H2 Ek.
  rewrite forallb_forall in H. specialize (H w1 H1). rewrite forallb_forall in H. specialize (H w2 H2).
  rewrite Ek, N.eqb_refl in H. cbn [negb orb] in H. now apply beqb_eq.
Qed.

(* What the writer stores, handed back through the reader's reconstruction, is the stream the
   encoder produced, for every schema shape: this is [framing_ok] for any stream whose schema
   message skipOneIPCMessage delimits.  Arrow's decoder then sees the encoder's own bytes. *)
Lemma stored_read_back s sm body :
  skip_msg (sm ++ body ++ EOS) = Some (zlen sm) ->
  exists st, stored_region s (sm ++ body ++ EOS) = WBytes st
             /\ reader_input s (sm ++ EOS) st = Some (sm ++ body ++ EOS).
Proof.
  intro Hk. unfold stored_region, reader_input, writer_layout. destruct (has_top_dict s).
  - destruct (strip_reconstruct sm body Hk) as [Hs Hr]. exists body. now rewrite Hs, Hr.
  - exists (sm ++ body ++ EOS). split; [now destruct (has_nested_dict s) | reflexivity].
Qed.

Lemma covers_nil o l : covers [] o l = false.
Proof. reflexivity. Qed.

Lemma spec_ptr_model seg closed size name rows md slots :
  size_ok size = true ->
  spec_ptr seg closed size name rows md slots (robs_of slots (resolve seg closed size name rows md)) = true.
Proof.
  intro Hs. rewrite resolve_eq by (unfold size_ok in Hs; lia). unfold spec_ptr, in_segment.
  destruct (negb seg || negb (is_ptr rows md)); [reflexivity|].
  destruct (parse_uint (get c35_k_off md)) as [off|]; [|reflexivity].
  destruct (parse_int (get c35_k_len md)) as [len|]; [|reflexivity].
  destruct ((0 <=? len) && (off + len <=? size)); (destruct closed; [reflexivity|]).
  - cbn [robs_of]. destruct (covers slots off len); now rewrite !Z.eqb_refl, md_eqb_refl.
  - now destruct (slice_panics size off len).
Qed.

(* [spec_w] and [spec_rt] put the same three premises in front of what they demand of a replaced
   batch: the allocator's region lies in the data area, the framing round trip holds for the
   encoder's bytes, and a data batch carries no log-level key *)
Lemma under_premises (range framing loglevel x : bool) :
  (range = true -> framing = true -> loglevel = false -> x = true) ->
  (if negb range then true else if negb framing then true else if loglevel then true else x) = true.
Proof. destruct range, framing, loglevel; auto. Qed.

(* under those premises the pointer handed back for a stored region resolves to that region,
   to the batch's metadata plus the source key, and to the encoder's bytes: the observation that
   [run_rt] and [wobs_of] both compute *)
Lemma written_resolves size name s full so st md off :
  0 <= size < TWO63 -> 0 <= off -> off + zlen st <= size -> has_key c35_k_loglevel md = false ->
  stored_region s full = WBytes st -> framing_ok s full so = true ->
  match resolve true false size name 0 (ptr_md_of off (zlen st) md) with
  | Read o l md' =>
      match reader_input s so st with
      | Some ri => OResolved o md' (beqb ri full && (l =? zlen st))
      | None => OErrOther
      end
  | other => robs_of [] other
  end = OResolved off (resolved_md md name) true.
Proof.
  intros Hs Ho Hb Hlog Est Hfr. unfold framing_ok in Hfr. rewrite Est in Hfr.
  rewrite written_pointer_resolves by (assumption || apply zlen_nonneg).
  destruct (reader_input s so st); [|discriminate]. now rewrite Hfr, Z.eqb_refl.
Qed.

Lemma range_premise off len size n :
  (c35_header_size <=? off) && (off + len <=? size) && (len =? n) = true -> 0 <= off /\ off + n <= size /\ len = n.
Proof. pose proof header_pos. lia. Qed.

Lemma spec_w_fresh size name w :
  size_ok size = true -> spec_w size name w (wobs_of size name w (fresh_store w)) = true.
Proof.
  intro Hs. assert (Hs' : 0 <= size < TWO63) by (unfold size_ok in Hs; lia).
  unfold wobs_of, fresh_store, spec_w. destruct (w_alloc w) as [[off len]|]; [|reflexivity].
  destruct (stored_region (w_schema w) (wfull w)) as [| |st] eqn:Est;
    apply under_premises; intros Hrange Hfr Hlog;
    try (unfold framing_ok in Hfr; rewrite Est in Hfr; discriminate).
  destruct (range_premise _ _ _ _ Hrange) as (Ho & Hb & ->).
  rewrite (written_resolves size name (w_schema w) (wfull w) (wso w) st (w_md w) off) by assumption.
  now rewrite Z.eqb_refl, md_eqb_refl.
Qed.

Lemma spec_ws_fresh size name ws :
  size_ok size = true -> spec_ws size name ws (zip_wobs size name ws (map fresh_store ws)) = true.
Proof.
  intro Hs. induction ws as [|w ws IH]; [reflexivity|]. cbn [map zip_wobs spec_ws].
  now rewrite spec_w_fresh, IH.
Qed.

Lemma robs_same_refl r : robs_same r r = true.
Proof.
  destruct r; cbn [robs_same]; rewrite ?Z.eqb_refl, ?md_eqb_refl; try reflexivity. apply eqb_reflx.
Qed.

Lemma spec_rt_model c : spec_rt c (run_rt c) = true.
Proof.
  unfold run_rt.
  assert (U : negb (r_seg c) || (r_rows c =? 0) || (r_bufsize c <? r_thresh c) = true \/ r_alloc c = None ->
              spec_rt c (ORt false false 0 [] []
                (robs_of [] (resolve (r_seg c) false (r_size c) (r_name c) (r_rows c) (r_md c)))) = true).
  { intro Hu. unfold spec_rt. destruct (size_ok (r_size c)) eqn:Hs; [|reflexivity]. cbn [negb orb andb].
    rewrite spec_ptr_model by exact Hs. destruct Hu as [-> | ->]; [reflexivity | now destruct (_ || _ || _)]. }
  destruct (negb (r_seg c) || (r_rows c =? 0) || (r_bufsize c <? r_thresh c)) eqn:Hg; [apply U; now left|].
  destruct (r_alloc c) as [[off len]|] eqn:Ea; [clear U | apply U; now right].
  destruct (stored_region (r_schema c) (r_full c)) as [| |st] eqn:Est; unfold spec_rt; rewrite Hg, Ea;
    [apply orb_true_r .. |].
  destruct (size_ok (r_size c)) eqn:Hs; [|reflexivity].
  assert (Hs' : 0 <= r_size c < TWO63) by (unfold size_ok in Hs; lia).
  cbn [negb orb]. apply under_premises; intros Hrange Hfr Hlog.
  destruct (range_premise _ _ _ _ Hrange) as (Ho & Hb & ->).
  rewrite (written_resolves (r_size c) (r_name c) (r_schema c) (r_full c) (r_schema_only c) st (r_md c) off)
    by assumption.
  destruct (ptr_md_facts off (zlen st) (r_md c)) as (-> & -> & -> & _).
  rewrite in_segment_dec_str by (assumption || apply zlen_nonneg || apply Hs').
  rewrite (opt_eqb_refl _ (pair_eqb_refl _ _ Z.eqb_refl Z.eqb_refl)). now rewrite !Z.eqb_refl, !md_eqb_refl.
Qed.

(* a concrete encapsulated message: a 32-byte flatbuffer Message table whose bodyLength field
   (vtable slot 10) holds [bl], followed by the body *)
Definition demo_meta (bl : N) : bytes :=
  [16;0;0;0; 12;0; 16;0; 0;0; 0;0; 0;0; 8;0; 12;0;0;0; 0;0;0;0; bl;0;0;0;0;0;0;0]%N.
Definition demo_msg (bl : N) (body : bytes) : bytes := CONT ++ [32;0;0;0]%N ++ demo_meta bl ++ body.

(* two writes that share a cache key but not a schema: the second is stored under the first's
   schema.  The decidable premise [key_sound_b] rejects the pair, so [spec_ok] does not hold the
   implementation to it (first and last conjunct) *)
Definition lossy_pair : list wr :=
  [ {| w_key := 7; w_schema := [TInt]; w_sm := [1]%N; w_body := [9]%N; w_md := []; w_alloc := Some (65536, 10) |};
    {| w_key := 7; w_schema := [TInt]; w_sm := [2]%N; w_body := [9]%N; w_md := []; w_alloc := Some (65546, 10) |} ].
Lemma lossy_key_breaks :
  key_sound_b lossy_pair = false /\ run_writes [] lossy_pair <> map fresh_store lossy_pair
  /\ spec_ok (IHist {| h_size := 131072; h_name := []; h_writes := lossy_pair |})
             (model (IHist {| h_size := 131072; h_name := []; h_writes := lossy_pair |})) = true.
Proof. vm_compute. repeat split; congruence. Qed.

(* The pointer batch is an input: a filter that compacts its metadata in place destroys it.
   Go: keys := mKeys[:0]; append survivors; append source -- over the caller's backing arrays *)
Definition inplace_after (md : meta) (name : bytes) : meta :=
  let new := resolved_md md name in new ++ skipn (length new) md.
Definition ptr_md_demo : meta :=
  [(c35_k_off, str "65536"); (c35_k_len, str "816"); (str "vgi_rpc.request_id", str "r")].
Lemma inplace_breaks :
  is_ptr 0 ptr_md_demo = true
  /\ resolve true false 131072 (str "/seg") 0 ptr_md_demo
     = Read 65536 816 [(str "vgi_rpc.request_id", str "r"); (c35_k_source, str "/seg")]
  /\ inplace_after ptr_md_demo (str "/seg")
     = [(str "vgi_rpc.request_id", str "r"); (c35_k_source, str "/seg"); (str "vgi_rpc.request_id", str "r")]
  /\ resolve true false 131072 (str "/seg") 0 (inplace_after ptr_md_demo (str "/seg")) = Unchanged.
Proof. vm_compute. repeat split. Qed.
