(* Lemmas for C39 (sampler, async emitter). For the sampler: each outcome is [keep] of its record at
   some value of the fallback counter ([run_sampler_keep]), and the rest is about [keep]. For the
   emitter: the [ledger] of a state (written, in-flight and queued records, each preceded by the
   losses it reports, then the pending drops) only grows, a step appending [delta], and lines up with
   the enqueue log ([ledger_run]). [Inv]: the queue stays within its cap, and an exited writer left
   nothing queued. *)
From VR Require Import Model.C39 Lib.Lists.
Open Scope nat_scope.

(* the key a record is decided on: its own, else the bumped fallback counter *)
Definition key_of (c : N) (r : srec) : bytes :=
  match explicit_key r with Some k => k | None => base36 ((c + 1) mod M64)%N end.

Lemma keep_eq s c r :
  snd (keep s c r) = if rate_ge1 (sp_rate s) || is_error r then kept_plain else decide s (key_of c r).
Proof. unfold keep, key_of. destruct (rate_ge1 _), (is_error r), (explicit_key r); reflexivity. Qed.

Lemma decide_out s k :
  so_rate (decide s k) = if so_kept (decide s k) then Some (sp_rate s) else None.
Proof. unfold decide. now destruct (_ <? _)%N. Qed.

Lemma run_sampler_keep s : forall recs c,
  Forall2 (fun r o => exists c0, o = snd (keep s c0 r)) recs (run_sampler s c recs).
Proof.
  induction recs as [|r t IH]; intro c; [constructor|]. cbn [run_sampler].
  destruct (keep s c r) as [c' o] eqn:E. constructor; [exists c; now rewrite E | apply IH].
Qed.

Lemma run_sampler_in s recs c r o :
  In (r, o) (combine recs (run_sampler s c recs)) -> exists c0, o = snd (keep s c0 r).
Proof. exact (Forall2_combine_in _ _ _ (run_sampler_keep s recs c) r o). Qed.

Lemma run_sampler_nth s recs c i r o :
  nth_error recs i = Some r -> nth_error (run_sampler s c recs) i = Some o ->
  exists c0, o = snd (keep s c0 r).
Proof. intros Hr Ho. pose proof (Forall2_nth _ _ _ (run_sampler_keep s recs c) i) as H. now rewrite Hr, Ho in H. Qed.

Lemma run_sampler_length s recs c : length (run_sampler s c recs) = length recs.
Proof. symmetry. exact (Forall2_len _ _ _ (run_sampler_keep s recs c)). Qed.

Lemma explicit_key_stream r k :
  s_stream r = Some k -> k <> [] -> explicit_key r = Some k.
Proof. unfold explicit_key; intros -> Hk. destruct k; [congruence | reflexivity]. Qed.

Lemma explicit_key_request r k :
  nonempty (s_stream r) = None -> s_request r = Some k -> k <> [] -> explicit_key r = Some k.
Proof. unfold explicit_key; intros -> -> Hk. destruct k; [congruence | reflexivity]. Qed.

Lemma new_sampler_rate b s : new_sampler b = Some s -> sp_rate s = b /\ sp_thr s = threshold b
  /\ f_nan b = false /\ rate_lt0 b = false /\ rate_gt1 b = false.
Proof.
  unfold new_sampler. destruct (f_nan b) eqn:E1; [discriminate|].
  destruct (rate_lt0 b) eqn:E2; [discriminate|]. destruct (rate_gt1 b) eqn:E3; [discriminate|].
  cbn. intros H; inversion H; subst; cbn. auto.
Qed.

Lemma sample_spec_model rate s recs :
  new_sampler rate = Some s -> sample_spec rate recs (run_sampler s 0 recs) = true.
Proof.
  intros Hn. apply new_sampler_rate in Hn as (Hr & _). unfold sample_spec.
  repeat (apply andb_true_intro; split).
  - rewrite run_sampler_length. apply Nat.eqb_refl.
  - apply forallb_forall. intros [r o] Hin. cbn [fst snd].
    destruct (run_sampler_in _ _ _ _ _ Hin) as [c0 ->].
    destruct (is_error r) eqn:E; [|reflexivity]. now rewrite keep_eq, E, orb_true_r.
  - apply forallb_forall. intros [r1 o1] Hin1. apply forallb_forall. intros [r2 o2] Hin2.
    unfold same_fate_ok.
    destruct (run_sampler_in _ _ _ _ _ Hin1) as [c1 ->]. destruct (run_sampler_in _ _ _ _ _ Hin2) as [c2 ->].
    destruct (is_error r1) eqn:E1; [reflexivity|]. destruct (is_error r2) eqn:E2; [reflexivity|].
    cbn [negb andb].
    destruct (explicit_key r1) as [k1|] eqn:K1; [|reflexivity].
    destruct (explicit_key r2) as [k2|] eqn:K2; [|reflexivity].
    destruct (beqb k1 k2) eqn:Eb; [|reflexivity]. apply beqb_eq in Eb; subst k2.
    rewrite !keep_eq, E1, E2. unfold key_of. rewrite K1, K2. apply Bool.eqb_reflx.
  - destruct (rate_ge1 rate) eqn:Eg; [reflexivity|].
    apply forallb_forall. intros [r o] Hin. cbn [fst snd].
    destruct (run_sampler_in _ _ _ _ _ Hin) as [c0 ->].
    rewrite keep_eq, Hr, Eg. destruct (is_error r); [reflexivity|]. cbn [orb negb andb].
    rewrite decide_out, Hr. destruct (so_kept _); [apply N.eqb_refl | reflexivity].
Qed.

Definition fate_ok (f : option N) (id : N) : Prop := f = None \/ f = Some id.

Lemma fate_okb_spec f id : fate_okb f id = true <-> fate_ok f id.
Proof.
  unfold fate_okb, fate_ok. destruct f as [i|]; split; intro H; auto.
  - apply N.eqb_eq in H. subst. now right.
  - destruct H as [H|H]; [discriminate|]. inversion H. apply N.eqb_refl.
Qed.

Lemma forall2b_spec {A B} (p : A -> B -> bool) (P : A -> B -> Prop)
  (Hp : forall x y, p x y = true <-> P x y) a b :
  forall2b p a b = true <-> Forall2 P a b.
Proof.
  split.
  - revert b; induction a as [|x a IH]; intros [|y b] H; try discriminate; constructor;
      apply andb_true_iff in H as [H1 H2]; [now apply Hp | now apply IH].
  - induction 1 as [|x y a b Hxy _ IH]; cbn; [reflexivity|]. now rewrite (proj2 (Hp x y) Hxy), IH.
Qed.

Lemma enq_enabled cap s r : exists s', step cap s (Enq r) = Some s'.
Proof.
  unfold step. destruct (st_closed s); [eauto|].
  destruct (N.of_nat (length (st_q s)) <? cap)%N; eauto.
Qed.

Lemma close_enabled cap s : exists s', step cap s Close = Some s'.
Proof. unfold step. eauto. Qed.

Lemma expand_app a b : expand (a ++ b) = expand a ++ expand b.
Proof.
  induction a as [|x a IH]; [reflexivity|]. cbn [app expand]. rewrite IH.
  now rewrite <- app_assoc, <- app_comm_cons.
Qed.

Lemma sum_stamps_app a b : sum_stamps (a ++ b) = sum_stamps a + sum_stamps b.
Proof. induction a as [|x a IH]; cbn [app sum_stamps]; [reflexivity | lia]. Qed.

Lemma length_expand l : length (expand l) = length l + sum_stamps l.
Proof.
  induction l as [|x l IH]; [reflexivity|]. cbn [expand sum_stamps length].
  rewrite app_length, repeat_length. cbn [length]. lia.
Qed.

Lemma accounted_ledger s : accounted s = length (ledger s).
Proof. unfold accounted, ledger. rewrite app_length, length_expand, repeat_length. lia. Qed.

(* what one step appends to the ledger *)
Definition delta (cap : N) (s : astate) (o : op) : list (option N) :=
  match o with
  | Enq r => if st_closed s then []
             else if (N.of_nat (length (st_q s)) <? cap)%N then [Some (a_id r)] else [None]
  | _ => []
  end.

Lemma stamp_n_pending id p :
  stamp_n (id, if (0 <? p)%N then Some p else None) = N.to_nat p.
Proof.
  unfold stamp_n. cbn [snd]. destruct (0 <? p)%N eqn:E; [reflexivity|].
  apply N.ltb_ge in E. lia.
Qed.

Lemma ledger_exec cap s o :
  fresh_op o = true -> ledger (exec cap s o) = ledger s ++ delta cap s o.
Proof.
  intros Hf. unfold exec, step, delta. destruct o as [r| | |].
  - destruct (st_closed s) eqn:Ec; [now rewrite app_nil_r|].
    cbn [fresh_op] in Hf. destruct (a_pre r) eqn:Epre; [discriminate|].
    destruct (N.of_nat (length (st_q s)) <? cap)%N.
    + unfold ledger, inflight. cbn [st_q st_w st_written st_pending].
      rewrite !app_assoc. rewrite expand_app. cbn [expand].
      rewrite stamp_n_pending. change (N.to_nat 0) with 0. cbn [repeat].
      rewrite !app_nil_r. now rewrite <- !app_assoc.
    + unfold ledger, inflight. cbn [st_q st_w st_written st_pending].
      replace (N.to_nat (st_pending s + 1)) with (S (N.to_nat (st_pending s))) by lia.
      cbn [repeat]. rewrite repeat_cons. now rewrite app_assoc.
  - rewrite app_nil_r. destruct (st_w s) eqn:Ew; try reflexivity.
    destruct (st_q s) as [|x t] eqn:Eq.
    + destruct (st_closed s); [|reflexivity].
      unfold ledger, inflight. cbn [st_q st_w st_written st_pending]. now rewrite Ew, Eq.
    + unfold ledger, inflight. cbn [st_q st_w st_written st_pending busy_list]. now rewrite Ew, Eq.
  - rewrite app_nil_r. destruct (st_w s) eqn:Ew; try reflexivity.
    unfold ledger, inflight. cbn [st_q st_w st_written st_pending busy_list]. rewrite Ew.
    cbn [busy_list app]. now rewrite <- app_assoc.
  - now rewrite app_nil_r.
Qed.

Definition is_close (o : op) : bool := match o with Close => true | _ => false end.

Lemma closed_exec cap s o : st_closed (exec cap s o) = st_closed s || is_close o.
Proof.
  unfold exec, step. destruct o as [r| | |]; cbn [is_close].
  - destruct (st_closed s) eqn:Ec; [now rewrite Ec|].
    destruct (_ <? _)%N; cbn [st_closed]; reflexivity.
  - rewrite orb_false_r. destruct (st_w s); try reflexivity.
    destruct (st_q s); [|reflexivity]. destruct (st_closed s) eqn:Ec; [reflexivity | now rewrite Ec].
  - rewrite orb_false_r. destruct (st_w s); reflexivity.
  - cbn [st_closed]. now rewrite orb_true_r.
Qed.

Lemma run_cons cap s o t : run cap s (o :: t) = run cap (exec cap s o) t.
Proof. reflexivity. Qed.

Lemma run_app cap s a b : run cap s (a ++ b) = run cap (run cap s a) b.
Proof. unfold run. apply fold_left_app. Qed.

Lemma ledger_run cap : forall ops s,
  fresh ops = true ->
  exists F, ledger (run cap s ops) = ledger s ++ F
            /\ Forall2 fate_ok F (if st_closed s then [] else enq_log ops).
Proof.
  induction ops as [|o t IH]; intros s Hf.
  - exists []. rewrite app_nil_r. split; [reflexivity|]. destruct (st_closed s); constructor.
  - cbn [fresh forallb] in Hf. apply andb_true_iff in Hf as [Hfo Hft].
    destruct (IH (exec cap s o) Hft) as (F & HF & H2).
    rewrite run_cons, HF, (ledger_exec _ _ _ Hfo), <- app_assoc.
    exists (delta cap s o ++ F). split; [reflexivity|].
    rewrite closed_exec in H2.
    destruct (st_closed s) eqn:Ec.
    + cbn [orb] in H2. inversion H2; subst.
      unfold delta. rewrite Ec. destruct o; constructor.
    + cbn [orb] in H2. destruct o as [r| | |]; cbn [is_close enq_log delta] in *; rewrite ?Ec.
      * destruct (_ <? _)%N; cbn [app]; constructor; auto; [now right | now left].
      * exact H2.
      * exact H2.
      * inversion H2; subst. constructor.
Qed.

Lemma ledger_matches cap ops :
  fresh ops = true -> Forall2 fate_ok (ledger (run cap init ops)) (enq_log ops).
Proof.
  intros Hf. destruct (ledger_run cap ops init Hf) as (F & HF & H2).
  rewrite HF. exact H2.
Qed.

Definition Inv (cap : N) (s : astate) : Prop :=
  (st_w s = WExited -> st_q s = [] /\ st_closed s = true)
  /\ (N.of_nat (length (st_q s)) <= cap)%N.

Lemma inv_init cap : Inv cap init.
Proof. split; [discriminate | cbn; lia]. Qed.

Lemma inv_exec cap s o : Inv cap s -> Inv cap (exec cap s o).
Proof.
  intros HI. pose proof HI as [Hx Hb]. unfold exec, step. destruct o as [r| | |].
  - destruct (st_closed s) eqn:Ec; [exact HI|].
    destruct (N.of_nat (length (st_q s)) <? cap)%N eqn:El; split; cbn [st_q st_w st_closed].
    + intros Hw. destruct (Hx Hw) as [_ Hc]. congruence.
    + rewrite app_length. cbn [length]. apply N.ltb_lt in El. lia.
    + intros Hw. destruct (Hx Hw) as [_ Hc]. congruence.
    + exact Hb.
  - destruct (st_w s) eqn:Ew; try exact HI.
    destruct (st_q s) as [|x t] eqn:Eq.
    + destruct (st_closed s) eqn:Ec; [|exact HI].
      split; cbn [st_q st_w st_closed]; [auto | cbn; lia].
    + split; cbn [st_q st_w st_closed]; [discriminate | cbn [length] in Hb; lia].
  - destruct (st_w s) eqn:Ew; try exact HI.
    split; cbn [st_q st_w st_closed]; [discriminate | exact Hb].
  - split; cbn [st_q st_w st_closed]; [|exact Hb].
    intros Hw. destruct (Hx Hw) as [Hq _]. auto.
Qed.

Lemma inv_run cap ops : Inv cap (run cap init ops).
Proof. apply (fold_left_preserves _ (Inv cap) (inv_exec cap)), inv_init. Qed.

Lemma after_drain_ledger cap ops :
  fresh ops = true -> st_w (run cap init ops) = WExited ->
  Forall2 fate_ok
    (expand (st_written (run cap init ops)) ++ repeat None (N.to_nat (st_pending (run cap init ops))))
    (enq_log ops).
Proof.
  intros Hf Hw. pose proof (ledger_matches cap ops Hf) as H.
  (* once the writer has exited nothing is queued or in flight *)
  destruct (inv_run cap ops) as [Hx _]. destruct (Hx Hw) as [Hq _].
  unfold ledger, inflight in H. rewrite Hw, Hq in H. cbn [busy_list app] in H. now rewrite app_nil_r in H.
Qed.

Lemma expand_at w1 x w2 :
  nth_error (expand (w1 ++ x :: w2)) (length (expand w1) + stamp_n x) = Some (Some (fst x)).
Proof.
  rewrite expand_app. rewrite nth_error_app2 by lia.
  replace (length (expand w1) + stamp_n x - length (expand w1)) with (stamp_n x) by lia.
  cbn [expand]. rewrite nth_error_app2 by (rewrite repeat_length; lia).
  rewrite repeat_length, Nat.sub_diag. reflexivity.
Qed.

Lemma expand_block : forall l i,
  i < length (expand l) ->
  exists w1 x w2, l = w1 ++ x :: w2 /\ length (expand w1) <= i <= length (expand w1) + stamp_n x.
Proof.
  induction l as [|x t IH]; intros i Hi; [cbn in Hi; lia|].
  cbn [expand] in Hi. rewrite app_length, repeat_length in Hi. cbn [length] in Hi.
  destruct (Nat.le_gt_cases i (stamp_n x)) as [Hle | Hgt].
  - exists [], x, t. split; [reflexivity | cbn; lia].
  - destruct (IH (i - S (stamp_n x))) as (w1 & y & w2 & -> & Hb); [lia|].
    exists (x :: w1), y, w2. split; [reflexivity|].
    cbn [expand]. rewrite app_length, repeat_length. cbn [length]. lia.
Qed.

Lemma written_only_enqueued cap ops w1 x w2 :
  fresh ops = true ->
  let s := run cap init ops in
  st_w s = WExited ->
  st_written s = w1 ++ x :: w2 ->
  nth_error (enq_log ops) (length (expand w1) + stamp_n x) = Some (fst x).
Proof.
  intros Hf s Hw Hsplit. subst s.
  pose proof (Forall2_nth _ _ _ (after_drain_ledger cap ops Hf Hw) (length (expand w1) + stamp_n x)) as H.
  rewrite Hsplit, nth_error_app1, expand_at in H.
  - destruct (nth_error (enq_log ops) _) as [id|]; [|contradiction].
    destruct H as [H | H]; [discriminate | now inversion H].
  - rewrite expand_app, app_length. cbn [expand]. rewrite app_length, repeat_length. cbn [length]. lia.
Qed.

Definition drain_round : list op := [WriteDone; Take].
Definition drain (n : nat) : list op := WriteDone :: Take :: concat (repeat drain_round n).

Lemma exited_exec cap s o : st_w s = WExited -> st_w (exec cap s o) = WExited.
Proof.
  intros Hw. unfold exec, step. destruct o as [r| | |]; rewrite ?Hw; cbn [st_w]; try reflexivity; try assumption.
  destruct (st_closed s); [assumption|]. destruct (_ <? _)%N; cbn [st_w]; reflexivity.
Qed.

Lemma round_progress cap s : st_closed s = true ->
  st_closed (run cap s drain_round) = true
  /\ (st_w (run cap s drain_round) = WExited \/ length (st_q (run cap s drain_round)) < length (st_q s)).
Proof.
  intro Hc. unfold drain_round, run, fold_left, exec, step.
  destruct (st_w s) as [|x|] eqn:Ew; cbn [st_w st_q st_closed]; rewrite ?Ew.
  - (* idle: exits on the empty queue, else takes its head *)
    destruct (st_q s) as [|y t]; rewrite ?Hc; cbn [st_w st_q st_closed length]; auto.
  - (* busy: finishes the write, then as above *)
    destruct (st_q s) as [|y t]; rewrite ?Hc; cbn [st_w st_q st_closed length]; auto.
  - (* exited *) auto.
Qed.

Lemma drain_exits cap : forall n s,
  st_closed s = true -> length (st_q s) <= n -> st_w (run cap s (drain n)) = WExited.
Proof.
  induction n as [|n IH]; intros s Hc Hl; destruct (round_progress cap s Hc) as [Hc' [He | Hlt]].
  - exact He.
  - lia.
  - change (drain (S n)) with (drain_round ++ drain n). rewrite run_app.
    now apply (fold_left_preserves _ (fun s => st_w s = WExited) (exited_exec cap)).
  - change (drain (S n)) with (drain_round ++ drain n). rewrite run_app. apply IH; [exact Hc' | lia].
Qed.

Lemma enq_rets_true cap : forall ops s,
  forallb (fun b => b) (enq_rets cap s ops) = true
  /\ length (enq_rets cap s ops) = count_enq ops.
Proof.
  induction ops as [|o t IH]; intros s; [split; reflexivity|].
  destruct (IH (exec cap s o)) as [H1 H2].
  cbn [enq_rets]. destruct o as [r| | |]; unfold count_enq in *; cbn [filter]; try (split; assumption).
  destruct (enq_enabled cap s r) as [s' Hs]. rewrite Hs. cbn [is_some forallb length andb].
  split; [assumption | now rewrite H2].
Qed.

Lemma run_obs_fst cap : forall steps s, fst (run_obs cap s steps) = run cap s (map fst steps).
Proof.
  induction steps as [|[o b] t IH]; intros s; [reflexivity|].
  cbn [run_obs map fst]. rewrite run_cons, <- IH.
  destruct (run_obs cap (exec cap s o) t) as [sf tr]. reflexivity.
Qed.

Lemma async_spec_model cap (steps : list (op * bool)) :
  let s := run cap init (map fst steps) in
  async_spec (map fst steps) (enq_rets cap init (map fst steps)) (st_written s) (st_pending s) (is_exited s) = true.
Proof.
  intros s. unfold async_spec.
  destruct (enq_rets_true cap (map fst steps) init) as [H1 H2].
  rewrite H1, H2, Nat.eqb_refl. cbn [andb].
  destruct (is_exited s) eqn:Ex; [|reflexivity].
  destruct (fresh (map fst steps)) eqn:Ef; [|reflexivity]. cbn [andb].
  apply (forall2b_spec _ _ fate_okb_spec). apply after_drain_ledger; [exact Ef|].
  change (st_w s = WExited). unfold is_exited in Ex. now destruct (st_w s).
Qed.

Definition ex_ops : list op :=
  [Enq {| a_id := 1; a_pre := None |}; Take; Enq {| a_id := 2; a_pre := None |};
   Enq {| a_id := 3; a_pre := None |}; Enq {| a_id := 4; a_pre := None |};
   WriteDone; Take; WriteDone; Take; Enq {| a_id := 5; a_pre := None |};
   Enq {| a_id := 6; a_pre := None |}; Enq {| a_id := 7; a_pre := None |}; Close;
   Enq {| a_id := 8; a_pre := None |}; WriteDone; Take; WriteDone; Take]%N.
