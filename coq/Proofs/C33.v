(* A key is prefix ++ UUID text ++ extension, and the text determines the sixteen masked
   bytes it renders ([uuid_text_inj], from [hexs_inj]): keys collide only where masked
   entropies do ([key_inj]; [keys_nodup] for lists over any carrier).  A step of the
   machine only moves entropy values between the stream, the threads and the log
   ([step_perm]), so a stream of distinct values yields distinct keys under every
   schedule ([run_keys], an instance of [drawn_keys]). *)
From Coq Require Import Permutation ZifyBool ZifyN.
From VR Require Import Model.C33 Lib.Lists.
Open Scope N_scope.

(* hexdigit is injective on all of N: digits land in [48,58), letters from 97 up *)
Definition unhexdigit (c : N) : N := if c <? 58 then c - 48 else c - 87.

Lemma unhexdigit_hexdigit d : unhexdigit (hexdigit d) = d.
Proof.
  unfold unhexdigit, hexdigit.
  destruct (d <? 10) eqn:E; [destruct (48 + d <? 58) eqn:E' | destruct (87 + d <? 58) eqn:E']; lia.
Qed.

Lemma hexdigit_hexc d : d < 16 -> is_hexc (hexdigit d) = true.
Proof. intro H. unfold is_hexc, hexdigit. destruct (d <? 10) eqn:E; lia. Qed.

Lemma hex_hi_ok b : b < 256 -> is_hexc (hexdigit (b / 16)) = true.
Proof.
  intro H. apply hexdigit_hexc. pose proof (N.div_mod' b 16). pose proof (N.mod_upper_bound b 16). lia.
Qed.
Lemma hex_lo_ok b : is_hexc (hexdigit (b mod 16)) = true.
Proof. apply hexdigit_hexc, N.mod_upper_bound. discriminate. Qed.

(* Keeping the low m bits and setting bits that lie above them is addition: no carry. *)
Lemma keep_low_set b m s : N.land (N.ones m) s = 0 -> N.lor (N.land b (N.ones m)) s = b mod 2 ^ m + s.
Proof.
  intro H. assert (H' : N.land (N.land b (N.ones m)) s = 0) by (now rewrite <- N.land_assoc, H, N.land_0_r).
  now rewrite <- (N.lxor_lor _ _ H'), <- (N.add_nocarry_lxor _ _ H'), N.land_ones.
Qed.
Lemma ver_eq b : ver b = b mod 16 + 64.
Proof. exact (keep_low_set b 4 64 eq_refl). Qed.
Lemma var_eq b : var b = b mod 64 + 128.
Proof. exact (keep_low_set b 6 128 eq_refl). Qed.

Lemma ver_byte b : ver b < 256.
Proof. rewrite ver_eq. pose proof (N.mod_upper_bound b 16). lia. Qed.
Lemma var_byte b : var b < 256.
Proof. rewrite var_eq. pose proof (N.mod_upper_bound b 64). lia. Qed.
(* the version character is always 4, the variant character always one of 8 9 a b *)
Lemma ver_hi b : (hexdigit (ver b / 16) =? 52) = true.
Proof.
  rewrite ver_eq, <- (N.div_unique (b mod 16 + 64) 16 4 (b mod 16)); [reflexivity | | lia].
  apply N.mod_upper_bound. discriminate.
Qed.
Lemma var_hi b : is_varc (hexdigit (var b / 16)) = true.
Proof.
  assert (Q : 8 <= var b / 16 < 12).
  { rewrite var_eq. pose proof (N.mod_upper_bound b 64).
    split; [apply N.div_le_lower_bound | apply N.div_lt_upper_bound]; lia. }
  revert Q. generalize (var b / 16). intros q Q. unfold is_varc, hexdigit. destruct (q <? 10) eqn:E; lia.
Qed.

Lemma keep_set_idem b m s : N.lor (N.land (N.lor (N.land b m) s) m) s = N.lor (N.land b m) s.
Proof.
  apply N.bits_inj. intro k. rewrite !N.lor_spec, !N.land_spec, !N.lor_spec, !N.land_spec.
  now destruct (N.testbit b k), (N.testbit m k), (N.testbit s k).
Qed.

Lemma hexs_inj u : forall v, hexs u = hexs v -> u = v.
Proof.
  induction u as [|a u IH]; intros [|b v] H; try discriminate H; [reflexivity|].
  cbn [hexs hex2 app] in H. injection H as H1 H2 H. f_equal; [|now apply IH].
  apply (f_equal unhexdigit) in H1, H2. rewrite !unhexdigit_hexdigit in H1, H2.
  rewrite (N.div_mod' a 16), (N.div_mod' b 16). now rewrite H1, H2.
Qed.

Lemma app_sep_eq_len {A} (a b c d : list A) x y :
  a ++ x :: c = b ++ y :: d -> length a = length b -> a = b /\ c = d.
Proof. intros H L. apply app_eq_len in H as [Ha H]; [|exact L]. now injection H. Qed.

Lemma wf_entropy_spec e : wf_entropy e = true <-> length e = 16%nat /\ Forall (fun b => b < 256) e.
Proof.
  unfold wf_entropy, all_bytes. rewrite andb_true_iff, Nat.eqb_eq, forallb_forall, Forall_forall.
  unfold is_byte. split; intros [H1 H2]; split; auto; intros x Hx; specialize (H2 x Hx); lia.
Qed.

(* a list of length 16 as sixteen named elements *)
Ltac explode16 e L :=
  do 16 (destruct e as [|? e]; [discriminate L|]); destruct e; [|discriminate L].

(* Forall over an explicit list, as one hypothesis per element *)
Ltac bytes_of F :=
  lazymatch type of F with
  | Forall _ (_ :: _) => let h := fresh "Hb" in let F' := fresh "F" in
      apply Forall_cons_iff in F as [h F']; bytes_of F'
  | _ => idtac
  end.

Lemma mask_length e : length (mask e) = length e.
Proof. unfold mask. do 9 (destruct e as [|? e]; [reflexivity|]). reflexivity. Qed.

Lemma mask_wf e : wf_entropy e = true -> wf_entropy (mask e) = true.
Proof.
  rewrite !wf_entropy_spec. intros [L F]. split; [now rewrite mask_length|].
  unfold mask. do 9 (destruct e as [|? e]; [exact F|]). bytes_of F.
  repeat (apply Forall_cons; [assumption || apply ver_byte || apply var_byte|]). assumption.
Qed.

Lemma mask_idem e : mask (mask e) = mask e.
Proof.
  unfold mask. do 9 (destruct e as [|? e]; [reflexivity|]). unfold ver, var. now rewrite !keep_set_idem.
Qed.

Lemma uuid_text_length u : length u = 16%nat -> length (uuid_text u) = 36%nat.
Proof. intro L. explode16 u L. reflexivity. Qed.

(* the text determines the 16 values it was rendered from, whatever their size *)
Lemma uuid_text_inj u v :
  length u = 16%nat -> length v = 16%nat -> uuid_text u = uuid_text v -> u = v.
Proof.
  intros Lu Lv H. explode16 u Lu. explode16 v Lv. unfold uuid_text in H. cbn [firstn skipn] in H.
  apply app_sep_eq_len in H as [H1 H]; [|reflexivity]. apply app_sep_eq_len in H as [H2 H]; [|reflexivity].
  apply app_sep_eq_len in H as [H3 H]; [|reflexivity]. apply app_sep_eq_len in H as [H4 H5]; [|reflexivity].
  apply hexs_inj in H1, H2, H3, H4, H5. congruence.
Qed.

Lemma match_pat_Forall2 pat s : Forall2 (fun k c => pc_ok k c = true) pat s -> match_pat pat s = true.
Proof. induction 1 as [|k c pat s H _ IH]; cbn [match_pat]; [reflexivity | now rewrite H, IH]. Qed.

Lemma uuid_text_shape u : wf_entropy u = true -> uuid_shape (uuid_text (mask u)) = true.
Proof.
  rewrite wf_entropy_spec. intros [L F]. explode16 u L. bytes_of F.
  apply match_pat_Forall2. unfold uuid_text, uuid_pat. cbn [mask firstn skipn hexs hex2 app].
  repeat constructor; cbn [pc_ok]; auto using hex_hi_ok, hex_lo_ok, ver_byte, var_byte, ver_hi, var_hi.
Qed.

(* A key is prefix ++ 36 characters ++ extension.  Two keys that agree, and whose prefixes or
   extensions have the same length, agree part by part. *)
Lemma key_parts p1 p2 m1 m2 x1 x2 :
  length m1 = 16%nat -> length m2 = 16%nat ->
  length p1 = length p2 \/ length x1 = length x2 ->
  p1 ++ uuid_text m1 ++ x1 = p2 ++ uuid_text m2 ++ x2 -> p1 = p2 /\ m1 = m2 /\ x1 = x2.
Proof.
  intros L1 L2 L H. pose proof (uuid_text_length _ L1) as T1. pose proof (uuid_text_length _ L2) as T2.
  assert (Lp : length p1 = length p2).
  { apply (f_equal (@length N)) in H. rewrite !app_length, T1, T2 in H. lia. }
  apply app_eq_len in H as [Hp H]; [|exact Lp]. apply app_eq_len in H as [Hm Hx]; [|now rewrite T1, T2].
  split; [exact Hp|]. split; [now apply uuid_text_inj | exact Hx].
Qed.

Lemma mask_length16 e : wf_entropy e = true -> length (mask e) = 16%nat.
Proof. intro W. rewrite mask_length. now apply wf_entropy_spec in W. Qed.

Lemma key_inj b p x1 x2 e1 e2 :
  wf_entropy e1 = true -> wf_entropy e2 = true ->
  key b p x1 e1 = key b p x2 e2 -> mask e1 = mask e2 /\ ext b x1 = ext b x2.
Proof.
  intros W1 W2 H. apply key_parts in H; auto using mask_length16. tauto.
Qed.

Lemma memb_In k l : memb k l = true <-> In k l.
Proof. apply existsb_beqb_In. Qed.

Lemma memb_false k l : memb k l = false <-> ~ In k l.
Proof. exact (existsb_eqb_not_In beqb beqb_eq k l). Qed.

Lemma nodupb_NoDup l : nodupb l = true <-> NoDup l.
Proof. exact (nodupb_by_NoDup beqb beqb_eq l). Qed.

Lemma lost_NoDup l : NoDup l -> lost l = O.
Proof.
  induction 1 as [|k r H1 H2 IH]; cbn [lost]; [reflexivity|]. apply memb_false in H1. now rewrite H1, IH.
Qed.

Lemma lost_zero_NoDup l : lost l = O -> NoDup l.
Proof.
  induction l as [|k r IH]; cbn [lost]; intro H; [constructor|].
  destruct (memb k r) eqn:E; [discriminate|]. constructor; [now apply memb_false | now apply IH].
Qed.

Lemma NoDup_map_via {A B C} (f : A -> B) (g : A -> C) (l : list A) :
  (forall a a', In a l -> In a' l -> f a = f a' -> g a = g a') ->
  NoDup (map g l) -> NoDup (map f l).
Proof.
  induction l as [|a l IH]; intros Hfg H; cbn; [constructor|].
  cbn in H. inversion H as [|? ? H1 H2]; subst. constructor.
  - intro HI. apply in_map_iff in HI as [a' [E Ha']]. apply H1.
    rewrite (Hfg a a'); [apply in_map, Ha'| now left | now right | now symmetry].
  - apply IH; [|exact H2]. intros x y Hx Hy. apply Hfg; now right.
Qed.

Lemma keys_nodup {A} b p (ent enc : A -> bytes) (l : list A) :
  (forall a, In a l -> wf_entropy (ent a) = true) ->
  NoDup (map (fun a => mask (ent a)) l) -> NoDup (map (fun a => key b p (enc a) (ent a)) l).
Proof.
  intro W. apply NoDup_map_via. intros a a' Ha Ha' E. apply key_inj in E; auto. tauto.
Qed.

(* the entropy values of a state: used by the completed puts, held by a thread, still to come *)
Definition pe (t : thread) : list bytes := match pending t with Some (e, _) => [e] | None => [] end.
Definition ents (s : st) : list bytes :=
  map (fun t => fst (snd t)) (log s) ++ flat_map pe (threads s) ++ rng s.

Lemma flat_map_upd {A B} (f : A -> list B) n x a l : nth_error l n = Some a ->
  Permutation (f a ++ flat_map f (upd n x l)) (f x ++ flat_map f l).
Proof.
  revert n; induction l as [|h l IH]; intros [|n] H; try discriminate; cbn [upd flat_map].
  - injection H as ->. apply Permutation_app_swap_app.
  - rewrite Permutation_app_swap_app, (IH n H). apply Permutation_app_swap_app.
Qed.

Lemma step_perm s tid : Permutation (ents (step s tid)) (ents s).
Proof.
  unfold step. destruct (nth_error (threads s) tid) as [th|] eqn:Hth; [|reflexivity].
  destruct (pending th) as [[e x]|] eqn:P.
  - (* Put: the value moves from the thread to the log *)
    pose proof (flat_map_upd pe tid {| pending := None; todo := todo th |} th _ Hth) as U.
    unfold pe at 1 3 in U. rewrite P in U. cbn [pending app] in U.
    unfold ents. cbn [threads rng log]. rewrite map_app, <- app_assoc. apply Permutation_app_head.
    exact (Permutation_app_tail _ U).
  - destruct (todo th) as [|x td]; [reflexivity|]. destruct (rng s) as [|e r] eqn:R; [reflexivity|].
    (* Draw: the value moves from the stream to the thread *)
    pose proof (flat_map_upd pe tid {| pending := Some (e, x); todo := td |} th _ Hth) as U.
    unfold pe at 1 3 in U. rewrite P in U. cbn [pending app] in U.
    unfold ents. cbn [threads rng log]. rewrite R. apply Permutation_app_head. rewrite U. apply Permutation_middle.
Qed.

Lemma run_perm sched : forall s, Permutation (ents (run s sched)) (ents s).
Proof.
  induction sched as [|t sched IH]; intro s; [reflexivity|].
  cbn [run fold_left]. etransitivity; [apply IH|apply step_perm].
Qed.

Lemma ents_init progs stream : ents (init progs stream) = stream.
Proof.
  unfold ents, init. cbn [threads rng log map app].
  induction progs as [|p ps IH]; [reflexivity|]. cbn [map flat_map]. exact IH.
Qed.

Lemma ents_run progs stream sched : Permutation (ents (run (init progs stream) sched)) stream.
Proof. rewrite <- (ents_init progs stream) at 2. apply run_perm. Qed.

Lemma ext_ok_ext b x : ext_ok b (ext b x) = true.
Proof. destruct b; cbn [ext]; try reflexivity. now destruct (beqb x enc_zstd). Qed.

Lemma key_shape_key b p x e : wf_entropy e = true -> key_shape b p (key b p x e) = true.
Proof.
  intro W. unfold key_shape, key. rewrite has_prefix_app. cbn [andb].
  rewrite (drop_app_len (eff_prefix b p)).
  rewrite <- (uuid_text_length (mask e) (mask_length16 e W)).
  now rewrite take_app_len, drop_app_len, uuid_text_shape, ext_ok_ext.
Qed.

(* an upload as the pair (entropy, encoding): the key function of [drawn_keys] at [fst] and [snd] *)
Definition upload_key (b : backend) (p : bytes) (u : bytes * bytes) : bytes := key b p (snd u) (fst u).

(* The keys of any uploads whose entropy values are part of what the stream hands out (all of it,
   a prefix of it, what a run of the machine has logged so far): all have the shape, and they are
   distinct if the stream is. *)
Lemma drawn_keys {A} b p (ent enc : A -> bytes) l rest stream :
  Permutation (map ent l ++ rest) stream ->
  Forall (fun e => wf_entropy e = true) stream ->
  let ks := map (fun a => key b p (enc a) (ent a)) l in
  (forall k, In k ks -> key_shape b p k = true) /\ (NoDup (map mask stream) -> NoDup ks).
Proof.
  intros P W ks.
  assert (Wl : forall a, In a l -> wf_entropy (ent a) = true).
  { intros a Ha. rewrite Forall_forall in W. apply W, (Permutation_in _ P), in_or_app. left. now apply in_map. }
  split.
  - intros k Hk. apply in_map_iff in Hk as (a & <- & Ha). now apply key_shape_key, Wl.
  - intro F. apply keys_nodup; [exact Wl|]. rewrite <- map_map. apply (NoDup_app_l _ (map mask rest)).
    rewrite <- map_app. eapply Permutation_NoDup; [|exact F]. now apply Permutation_map, Permutation_sym.
Qed.

Lemma run_keys b p progs stream sched :
  Forall (fun e => wf_entropy e = true) stream ->
  let ks := map snd (puts b p (run (init progs stream) sched)) in
  (forall k, In k ks -> key_shape b p k = true) /\ (NoDup (map mask stream) -> NoDup ks).
Proof.
  intro W. unfold puts. rewrite map_map. exact (drawn_keys b p _ _ _ _ _ (ents_run progs stream sched) W).
Qed.

Lemma insert_perm k l : Permutation (insert k l) (k :: l).
Proof.
  induction l as [|h t IH]; cbn [insert]; [reflexivity|].
  destruct (bleb k h); [reflexivity|]. rewrite IH. apply perm_swap.
Qed.

Lemma sort_perm l : Permutation (sort l) l.
Proof.
  induction l as [|k l IH]; cbn; [reflexivity|]. fold (sort l). rewrite insert_perm. now constructor.
Qed.

Lemma forallb_wf stream : forallb wf_entropy stream = true -> Forall (fun e => wf_entropy e = true) stream.
Proof. rewrite forallb_forall, Forall_forall. auto. Qed.
