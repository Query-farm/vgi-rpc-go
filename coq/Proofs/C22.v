(* Proofs/C22.v — a pattern names its route in every configuration, because every
   table is a sub-table of one of the two full ones; a route that starts with the
   authenticator does nothing else for a rejected caller; and the table rows tie
   the route table to the compiled mux. *)
From VR Require Import Model.C22 Lib.Lists.
Local Open Scope N_scope.

Lemma auth_required_iff c pk r : auth_required c pk r = true <-> gate_of c pk r = G_auth.
Proof. split; [apply internal_gate_dec_bl | apply internal_gate_dec_lb]. Qed.

Lemma wsubset_In a b : wsubset a b = true <-> forall w, In w a -> In w b.
Proof.
  unfold wsubset. rewrite forallb_forall. split; intros H w Hw.
  - apply H, existsb_exists in Hw as [x [Hx E]]. apply internal_work_dec_bl in E. now subst.
  - apply existsb_exists. exists w. split; [now apply H | now apply internal_work_dec_lb].
Qed.

Lemma all_configs_complete c : In c all_configs.
Proof.
  destruct c as [a b c d e f g h i j k l]. unfold all_configs.
  assert (Hb : forall x : bool, In x bools) by (intros []; cbn; auto).
  repeat (apply in_flat_map; eexists; split; [apply Hb|]).
  apply in_map_iff. eexists; split; [reflexivity | apply Hb].
Qed.

Lemma lattice_size : N.of_nat (length all_configs) = 4096.
Proof.
  eassert (H : N.of_nat (length all_configs) = _).
  { unfold all_configs. repeat (apply nlen_flat_map_const; intro). now rewrite map_length. }
  rewrite H. reflexivity.
Qed.

Lemma all_auth_complete a : In a all_auth.
Proof. destruct a; cbn; repeat first [now left | right]. Qed.

Lemma registered_guard c pk r : In r (registered c pk) <-> guard c pk r = true.
Proof.
  unfold registered. rewrite filter_In. split; [tauto|]. intro H. split; [|assumption].
  apply (existsb_eqb_In rid_beq (fun x y => conj (internal_rid_dec_bl x y) (internal_rid_dec_lb x y))).
  now destruct r.
Qed.

(* The pattern of a route reads the prefix toggle only, and every other toggle
   only ever removes routes from the table. So it is enough to look at the two
   full tables (prefix off / on): [find] returns the same first hit in a
   sub-table that still holds it. *)
Definition full (p : bool) : config :=
  {| c_prefix := p; c_landing := true; c_describe := true; c_notfound := true; c_sticky := true;
     c_pkce := true; c_custom := true; c_upload := true; c_introspect := true; c_oauth := true;
     c_cors := true; c_maxreq := true |}.

Lemma route_pat_full c r : route_pat c r = route_pat (full (c_prefix c)) r.
Proof. destruct c; reflexivity. Qed.

Lemma guard_full c pk r : guard c pk r = true -> guard (full (c_prefix c)) true r = true.
Proof. destruct r; cbn; auto. Qed.

Lemma find_sub_filter {A} (p p' g g' : A -> bool) x : forall l,
  (forall y, p' y = p y) -> (forall y, g' y = true -> g y = true) -> g' x = true ->
  find p (filter g l) = Some x -> find p' (filter g' l) = Some x.
Proof.
  intros l Hp Hsub Hx. induction l as [|y l IH]; cbn [filter]; [discriminate|].
  destruct (g' y) eqn:E'.
  - rewrite (Hsub y E'). cbn [find]. rewrite Hp. destruct (p y); auto.
  - destruct (g y); [|exact IH]. cbn [find]. destruct (p y); [|exact IH].
    intro H. inversion H. congruence.
Qed.

(* in a table, the pattern string of [r] is not empty and is first found at [r] *)
Definition names_route (c : config) (pk : bool) (r : rid) : bool :=
  let s := pat_str (route_pat c r) in
  negb (is_nil s) && match route_of_pat c pk s with Some r' => rid_beq r r' | None => false end.

Lemma full_table_ok p r : In r (registered (full p) true) -> names_route (full p) true r = true.
Proof. revert r. apply forallb_forall. destruct p; vm_compute; reflexivity. Qed.

Lemma pattern_names_route c pk r :
  In r (registered c pk) ->
  pat_str (route_pat c r) <> [] /\ route_of_pat c pk (pat_str (route_pat c r)) = Some r.
Proof.
  intro Hr. apply registered_guard in Hr.
  assert (H : names_route (full (c_prefix c)) true r = true)
    by apply full_table_ok, registered_guard, (guard_full c pk), Hr.
  unfold names_route in H. cbv zeta in H. rewrite <- route_pat_full in H.
  apply andb_true_iff in H as [H1 H2]. split.
  - intro E. rewrite E in H1. discriminate.
  - destruct (route_of_pat (full (c_prefix c)) true (pat_str (route_pat c r))) as [r'|] eqn:E; [|discriminate].
    apply internal_rid_dec_bl in H2. subst r'. revert E. apply find_sub_filter.
    + intro y. now rewrite <- route_pat_full.
    + apply guard_full.
    + exact Hr.
Qed.

Lemma find_in_registered c pk mo ss tr r : find_in c pk mo ss tr = Some r -> In r (registered c pk).
Proof. unfold find_in. intro H. exact (proj1 (find_some _ _ H)). Qed.

Lemma dispatch_registered c pk m ss tr r : dispatch c pk m ss tr = D_route r -> In r (registered c pk).
Proof.
  unfold dispatch.
  (* the method's own bucket, then GET for HEAD, then the method-less bucket *)
  destruct (find_in c pk (Some m) ss tr) eqn:E1; [intros [= <-]; exact (find_in_registered _ _ _ _ _ _ E1)|].
  destruct (match m with M_HEAD => find_in c pk (Some M_GET) ss tr | _ => None end) eqn:E2;
    [intros [= <-]; destruct m; try discriminate; exact (find_in_registered _ _ _ _ _ _ E2)|].
  destruct (find_in c pk None ss tr) eqn:E3; [intros [= <-]; exact (find_in_registered _ _ _ _ _ _ E3)|].
  destruct (existsb _ _); discriminate.
Qed.

(* a route whose first action is the authenticator does nothing
   else when the authenticator rejects, whatever the request *)
Lemma rejected_route c a x r ss q st :
  auth_outcome a = AR_rej st -> auth_required c (pkce_on c a) r = true ->
  run_route c a x r ss q = (st, [], true).
Proof.
  intros Ea Hg. apply auth_required_iff in Hg. unfold run_route, run_route_gen.
  unfold gate_of in Hg. rewrite Hg, Ea. reflexivity.
Qed.

(* routes that do not authenticate never run RPC / control code for a rejected caller *)
Lemma open_handler_work c a x r q :
  r <> R_upload -> wsubset (snd (fst (open_handler c a x r q))) (open_work r) = true.
Proof.
  intro Hr. destruct r; try reflexivity; cbn.
  - congruence.
  - destruct (q_ctype q); reflexivity.
  - destruct (q_sess q); try reflexivity; destruct (delete_principal c a x); reflexivity.
Qed.

Lemma open_route_work c a x r ss q s0 st w cs :
  auth_outcome a = AR_rej s0 -> auth_required c (pkce_on c a) r = false ->
  run_route c a x r ss q = (st, w, cs) -> wsubset w (open_work r) = true.
Proof.
  intros Ea Hg. unfold auth_required in Hg. unfold run_route, run_route_gen. fold gate_of.
  destruct (gate_of c (pkce_on c a) r) eqn:Eg; try discriminate Hg.
  - destruct (auth_err a); intro H; inversion H; reflexivity.
  - intro H; inversion H; reflexivity.
  - intro H. pose proof (open_handler_work c a x r q) as W. rewrite H in W. apply W.
    intro E. now rewrite E in Eg.
Qed.

(* what ServeHTTP answers once the mux has handed the request to route [r] *)
Definition routed_obs (c : config) (a : auth_mode) (r : rid) (res : N * list work * bool) : obs :=
  let '(st, w, cs) := res in
  {| o_status := st; o_work := w; o_consulted := cs; o_pat := pat_str (route_pat c r);
     o_body := match gate_of c (pkce_on c a) r, auth_outcome a with
               | G_auth, AR_rej s0 => Some (bk_of s0)
               | _, _ => None
               end |}.

Lemma serve_routed c a q r :
  routed c a q = Some r ->
  In r (registered c (pkce_on c a)) /\ is_options (q_meth q) = false /\ pre413 c q = false
  /\ exists ss, forall x, serve c a x q = routed_obs c a r (run_route c a x r ss q).
Proof.
  unfold routed, serve, serve_gen.
  destruct (is_options (q_meth q)); [discriminate|].
  destruct (pre413 c q); [discriminate|].
  destruct (parse_path (q_path q)) as [[ss tr]|]; [|discriminate].
  destruct (dispatch c (pkce_on c a) (q_meth q) ss tr) as [r'| |] eqn:Ed; try discriminate.
  intro H. inversion H. subst r'. split; [eapply dispatch_registered; eauto|].
  do 2 (split; [reflexivity|]). exists ss. reflexivity.
Qed.

(* what ServeHTTP answers when it hands the request to no route *)
Lemma serve_unrouted c a x q : routed c a q = None ->
  o_work (serve c a x q) = [] /\ o_consulted (serve c a x q) = false /\
  (exists s, In s [redirect_status; 404; 405] /\
     o_status (serve c a x q) = if is_options (q_meth q) then 204 else if pre413 c q then 413 else s) /\
  (is_options (q_meth q) = false -> pre413 c q = false -> o_pat (serve c a x q) = []).
Proof.
  unfold routed, serve, serve_gen. destruct (parse_path (q_path q)) as [[ss tr]|]; cbv zeta.
  - destruct (is_options (q_meth q)); [|destruct (pre413 c q); [|destruct (dispatch c (pkce_on c a) (q_meth q) ss tr)]].
    + (* preflight: any [s] *) intros _. cbn. repeat split; [exists 404; cbn; auto | easy..].
    + (* over the cap: any [s] *) intros _. cbn. repeat split; [exists 404; cbn; auto | easy..].
    + (* handed to a route *) discriminate.
    + (* the mux's 405 *) intros _. cbn. repeat split; [exists 405; cbn; auto | easy..].
    + (* the mux's 404 *) intros _. cbn. repeat split; [exists 404; cbn; auto | easy..].
  - (* a path the mux redirects *) intros _. cbn. repeat split; [exists redirect_status; cbn; auto | easy..].
Qed.

Theorem spec_ok_model i : spec_ok i (model i) = true.
Proof.
  destruct i as [c a x q]. unfold spec_ok, model.
  destruct (auth_outcome a) as [|s0] eqn:Ea; [reflexivity|].
  destruct (routed c a q) as [r|] eqn:Er.
  - destruct (serve_routed _ _ _ _ Er) as (Hin & -> & -> & ss & ->).
    destruct (pattern_names_route _ _ _ Hin) as [Hne Hrt].
    destruct (run_route c a x r ss q) as [[st w] cs] eqn:Err. cbn [routed_obs o_pat o_status o_work o_consulted o_body].
    destruct (pat_str (route_pat c r)) as [|b s] eqn:Ep; [congruence|].
    rewrite Hrt. destruct (auth_required c (pkce_on c a) r) eqn:Eg.
    + rewrite (rejected_route c a x r ss q s0 Ea Eg) in Err. inversion Err. subst.
      apply auth_required_iff in Eg. rewrite Eg, Ea.
      rewrite N.eqb_refl. now destruct (bk_of st).
    + eapply open_route_work; eauto.
  - destruct (serve_unrouted c a x q Er) as (-> & -> & (s & _ & ->) & Hp).
    destruct (is_options (q_meth q)); [reflexivity|]. destruct (pre413 c q); [reflexivity|]. now rewrite Hp.
Qed.

Lemma rejected_request c a x q r st :
  auth_outcome a = AR_rej st -> routed c a q = Some r -> auth_required c (pkce_on c a) r = true ->
  serve c a x q = {| o_status := st; o_work := []; o_consulted := true;
                     o_pat := pat_str (route_pat c r); o_body := Some (bk_of st) |}.
Proof.
  intros Ea Hr Hg. destruct (serve_routed _ _ _ _ Hr) as (_ & _ & _ & ss & ->).
  rewrite (rejected_route c a x r ss q st Ea Hg). apply auth_required_iff in Hg.
  unfold routed_obs. fold (gate_of c (pkce_on c a) r). now rewrite Hg, Ea.
Qed.

Lemma is_options_true m : is_options m = true <-> m = M_OPTIONS.
Proof. destruct m; cbn; split; congruence. Qed.

(* every open class is really reachable by a rejected caller: a witness per class *)
Definition rq (m : meth) (p : bytes) : request :=
  {| q_meth := m; q_path := p; q_ctype := CT_none; q_body := B_none; q_sess := S_none; q_html := false; q_big := false |}.
Definition class_witness (k : rclass) : request :=
  match k with
  | RC_health => rq M_GET (str "/health")
  | RC_oauth_metadata => rq M_GET (str "/.well-known/oauth-protected-resource/vgi")
  | RC_login => rq M_GET (str "/vgi/_oauth/logout")
  | RC_page => rq M_GET (str "/no/such/page")
  | RC_custom => rq M_GET (str "/c22_custom")
  | RC_session_delete => rq M_DELETE (str "/vgi/__session__")
  | _ => rq M_GET (str "/health")
  end.

(* The 256 rows differ in which routes are registered, but there are only two
   sets of pattern strings (prefix off / on). Their positions in the universe
   are computed once per set and shared by all rows; a row then costs a few
   [N.lor]s instead of some hundred string comparisons. *)
Definition pat_bits (c : config) (l : list rid) : list (rid * N) :=
  map (fun r => (r, nth_bit c22_universe (pat_str (route_pat c r)))) l.

Definition lor_sel (g : rid -> bool) (rb : list (rid * N)) : N :=
  fold_right (fun x a => if g (fst x) then N.lor (snd x) a else a) 0 rb.

Definition row_ok_bits (off on : list (rid * N)) (row : bytes) : bool :=
  let c := config_of_mask (row_cfg row) in
  let pk := c_pkce c && c_oauth c in
  let rb := if c_prefix c then on else off in
  let stop r := guard c pk r && (stops_rejected (gate_of c pk r)
                                 && negb (omeq (p_meth (route_pat c r)) (Some M_OPTIONS))) in
  let stopped := lor_sel stop rb in
  forallb (fun x => negb (guard c pk (fst x)) || negb (snd x =? 0)) rb
  && (lor_sel (guard c pk) rb =? row_reg row)
  && (stopped =? row_rej row)
  && (stopped =? row_cons row)
  && (row_vend row =? 0).

Lemma nth_bit_mem u s : bmem s u = negb (nth_bit u s =? 0).
Proof.
  unfold bmem, nth_bit.
  set (go := fix go (u : list bytes) (i : N) : N :=
         match u with [] => 0 | x :: r => if beqb x s then N.shiftl 1 i else go r (i + 1) end).
  generalize 0 at 1. induction u as [|x u IH]; intro i; [reflexivity|].
  cbn [existsb]. rewrite (IH (i + 1)).
  change (go (x :: u) i) with (if beqb x s then N.shiftl 1 i else go u (i + 1)).
  destruct (beqb x s) eqn:E.
  - apply beqb_eq in E. subst x. rewrite beqb_refl.
    destruct (N.eqb_spec (N.shiftl 1 i) 0) as [H|_]; [|reflexivity].
    apply N.shiftl_eq_0_iff in H. discriminate.
  - destruct (beqb s x) eqn:E'; [|reflexivity]. apply beqb_eq in E'. subst. now rewrite beqb_refl in E.
Qed.

Lemma mask_of_sel c g l :
  mask_of (map (fun r => pat_str (route_pat c r)) (filter g l)) = lor_sel g (pat_bits c l).
Proof.
  unfold mask_of, lor_sel, pat_bits. induction l as [|r l IH]; [reflexivity|].
  cbn [filter map fold_right fst snd]. destruct (g r); cbn [map fold_right]; now rewrite IH.
Qed.

Lemma universe_sel c g l :
  forallb (fun s => bmem s c22_universe) (map (fun r => pat_str (route_pat c r)) (filter g l))
  = forallb (fun x => negb (g (fst x)) || negb (snd x =? 0)) (pat_bits c l).
Proof.
  unfold pat_bits. induction l as [|r l IH]; [reflexivity|].
  cbn [filter map forallb fst snd]. destruct (g r); cbn [map forallb negb orb]; rewrite IH; [|reflexivity].
  now rewrite nth_bit_mem.
Qed.

Lemma pat_bits_full c l : pat_bits c l = pat_bits (full (c_prefix c)) l.
Proof. apply map_ext. intro r. now rewrite <- route_pat_full. Qed.

Lemma row_ok_bits_eq row :
  row_ok row = row_ok_bits (pat_bits (full false) all_routes) (pat_bits (full true) all_routes) row.
Proof.
  unfold row_ok, row_ok_bits, registered. cbv zeta. set (c := config_of_mask (row_cfg row)).
  rewrite filter_filter, universe_sel, !mask_of_sel, (pat_bits_full c).
  now destruct (c_prefix c).
Qed.

Lemma table_ok : forallb row_ok c22_table = true.
Proof.
  apply forallb_forall. intros row H. rewrite row_ok_bits_eq. revert row H.
  apply forallb_forall. vm_compute. reflexivity.
Qed.

Lemma redirect_is_temporary : redirect_status = 307.
Proof. reflexivity. Qed.

(* the code before fix 92a19ba *)
Definition legacy_witness : input :=
  Probe (cfgm 2047) A_fail CX_nil
    {| q_meth := M_POST; q_path := str "/vgi/__upload_url__/init"; q_ctype := CT_arrow;
       q_body := B_req c22_upload_seg; q_sess := S_none; q_html := false; q_big := false |}.

Lemma legacy_refuted :
  exists c a q, rejecting a = true /\ routed c a q = Some R_upload
                /\ auth_required c (pkce_on c a) R_upload = true
                /\ In W_provider (o_work (serve_gen true c a CX_nil q))
                /\ o_status (serve_gen true c a CX_nil q) = 200
                /\ spec_ok (Probe c a CX_nil q) (model_legacy (Probe c a CX_nil q)) = false.
Proof.
  exists (cfgm 2047), A_fail,
    {| q_meth := M_POST; q_path := str "/vgi/__upload_url__/init"; q_ctype := CT_arrow;
       q_body := B_req c22_upload_seg; q_sess := S_none; q_html := false; q_big := false |}.
  vm_compute. repeat split; auto.
Qed.
