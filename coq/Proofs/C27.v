(* Proofs/C27.v — the signed login cookie and the OAuth callback. A cookie is a
   payload (version byte, creation time, length-prefixed fields) followed by
   the MAC tag of that payload; [unpack_raw_app] splits a presented cookie where
   its tag begins, which gives the round trip and the refusal of every other
   tag; under [unforgeable] an accepted cookie is one that was issued
   ([accepted_is_issued]), and the payload determines the fields
   ([payload_injective]). [cb_run] lists the runs of the callback handler,
   [return_case] and [original_case] the answers of the two URL validators. *)
From VR Require Import Model.C27 Lib.Lists Lib.Ints.
Open Scope N_scope.

(* the constants the proofs depend on: a changed constant breaks these *)
Lemma maclen_32 : MACLEN = 32%nat. Proof. reflexivity. Qed.
Lemma version_byte : VERSION < 256. Proof. reflexivity. Qed.
Lemma session_age_pos : (0 < SESSION_MAX_AGE < two63)%Z. Proof. split; reflexivity. Qed.
Lemma rt_max_small : RT_MAX < 65536. Proof. reflexivity. Qed.
Lemma orig_max_small : ORIG_MAX < 65536. Proof. reflexivity. Qed.
Lemma nonce_lens_small : Z.to_N pkce_verifier_len < 65536 /\ 0 < Z.to_N pkce_state_len < 65536.
Proof. repeat split. Qed.

(* [le_bytes] and [le_val] are the digits of Lib.Ints in base 256 *)
Lemma length_le_bytes k n : length (le_bytes k n) = k.
Proof. exact (length_gle 256 k n). Qed.

Lemma le_val_small k n : n < 256 ^ N.of_nat k -> le_val (le_bytes k n) = n.
Proof. exact (gunle_gle_small 256 ltac:(discriminate) k n). Qed.

Lemma le_val_le16 n : n < 65536 -> le_val (le16 n) = n.
Proof. exact (le_val_small 2 n). Qed.

Lemma le_val_le64 n : n < 18446744073709551616 -> le_val (le64 n) = n.
Proof. exact (le_val_small 8 n). Qed.

Lemma le16_shape n : exists a b, le16 n = [a; b].
Proof. unfold le16. cbn [le_bytes]. eauto. Qed.

Lemma to_u64_lt z : to_u64 z < 18446744073709551616.
Proof.
  unfold to_u64. apply N2Z.inj_lt. rewrite Z2N.id; apply Z.mod_pos_bound; reflexivity.
Qed.

(* int64(uint64(z)) is the signed wrap of Lib.Ints, once the passage through N is seen to change nothing *)
Lemma wrap64_swrap z : wrap64 z = swrap two63 two64 z.
Proof.
  unfold wrap64, to_i64, to_u64. rewrite Z2N.id; [reflexivity|]. apply Z.mod_pos_bound. reflexivity.
Qed.

Lemma wrap64_eq z : (- two63 <= z < two64)%Z ->
  wrap64 z = if (z <? two63)%Z then z else (z - two64)%Z.
Proof. rewrite wrap64_swrap. exact (swrap_eq two63 two64 z eq_refl eq_refl). Qed.

Lemma to_i64_to_u64 z : (- two63 <= z < two63)%Z -> to_i64 (to_u64 z) = z.
Proof. fold (wrap64 z). rewrite wrap64_swrap. exact (swrap_id two63 two64 z eq_refl eq_refl). Qed.

(* the code's age test decides exactly [fresh] for a sane clock *)
Lemma stale_fresh now max c :
  (0 <= now < two63)%Z -> (max < two63)%Z -> (- two63 <= c < two63)%Z ->
  stale now max (to_u64 c) = negb (fresh now max c).
Proof.
  intros Hn Hm Hc. unfold stale, fresh. rewrite to_i64_to_u64 by exact Hc.
  rewrite wrap64_eq by (unfold two63, two64 in *; lia). unfold two63, two64 in *.
  (* a difference of 2^63 or more wraps to a negative age; it also exceeds max *)
  destruct (Z.ltb_spec (now - c) 9223372036854775808); lia.
Qed.

Lemma read_field_lp x rest :
  lenN x < 65536 -> read_field (lp x ++ rest) = Some (x, rest).
Proof.
  intro H. unfold lp. destruct (le16_shape (lenN x)) as (a & b & E).
  pose proof (le_val_le16 _ H) as V. rewrite E in V. rewrite E.
  cbn [app]. unfold read_field. rewrite V. unfold lenN.
  rewrite Nnat.Nat2N.id.
  replace (length x <=? length (x ++ rest))%nat with true
    by (symmetry; apply Nat.leb_le; rewrite app_length; lia).
  now rewrite take_app_len, drop_app_len.
Qed.

Lemma read4_fields v s u r :
  lenN v < 65536 -> lenN s < 65536 -> lenN u < 65536 -> lenN r < 65536 ->
  read4 (lp v ++ lp s ++ lp u ++ lp r) = Accepted v s u r.
Proof.
  intros Hv Hs Hu Hr. unfold read4.
  rewrite read_field_lp by exact Hv. rewrite read_field_lp by exact Hs.
  rewrite read_field_lp by exact Hu.
  rewrite <- (app_nil_r (lp r)). rewrite read_field_lp by exact Hr. reflexivity.
Qed.

Lemma fields_ok_spec f : fields_ok f = true <->
  lenN (f_verifier f) < 65536 /\ lenN (f_state f) < 65536 /\ lenN (f_url f) < 65536 /\ lenN (f_rt f) < 65536.
Proof. unfold fields_ok. rewrite !andb_true_iff, !N.ltb_lt. tauto. Qed.

Lemma created_ok_spec f : created_ok f = true <-> (- two63 <= f_created f < two63)%Z.
Proof. unfold created_ok. rewrite andb_true_iff, Z.leb_le, Z.ltb_lt. tauto. Qed.

Definition body (f : fields) : bytes := lp (f_verifier f) ++ lp (f_state f) ++ lp (f_url f) ++ lp (f_rt f).

Lemma read4_body f :
  fields_ok f = true -> read4 (body f) = Accepted (f_verifier f) (f_state f) (f_url f) (f_rt f).
Proof. intro H. apply fields_ok_spec in H as (A & B & C & D). now apply read4_fields. Qed.

Lemma payload_shape f : payload f = VERSION :: le64 (to_u64 (f_created f)) ++ body f.
Proof. reflexivity. Qed.

(* 17 = version byte + 8 bytes of time + four 2-byte length prefixes = MINLEN - MACLEN:
   the length test of [unpack_raw] passes on every packed cookie *)
Lemma length_payload_ge f : (17 <= length (payload f))%nat.
Proof.
  rewrite payload_shape. cbn [length]. rewrite app_length. unfold le64. rewrite length_le_bytes.
  unfold body, lp. rewrite !app_length. unfold le16. rewrite !length_le_bytes. lia.
Qed.

(* for every field tuple: the length guard [fields_ok] is needed only from [read4] on *)
Lemma unpack_payload_payload f now max :
  unpack_payload (payload f) now max =
    if stale now max (to_u64 (f_created f)) then Refused else read4 (body f).
Proof.
  rewrite payload_shape. unfold unpack_payload. rewrite N.eqb_refl. cbn [negb].
  assert (L : length (le64 (to_u64 (f_created f))) = 8%nat) by apply length_le_bytes.
  set (ts := le64 (to_u64 (f_created f))) in *.
  replace (take 8 (ts ++ body f)) with ts by (rewrite <- L; now rewrite take_app_len).
  replace (drop 8 (ts ++ body f)) with (body f) by (rewrite <- L; now rewrite drop_app_len).
  subst ts. rewrite le_val_le64 by apply to_u64_lt. reflexivity.
Qed.

Lemma unpack_payload_ok f now max :
  fields_ok f = true -> created_ok f = true -> (0 <= now < two63)%Z -> (max < two63)%Z ->
  unpack_payload (payload f) now max =
    if fresh now max (f_created f)
    then Accepted (f_verifier f) (f_state f) (f_url f) (f_rt f) else Refused.
Proof.
  intros Hf Hc Hn Hm. rewrite unpack_payload_payload.
  apply created_ok_spec in Hc. rewrite stale_fresh, read4_body by assumption.
  destruct (fresh now max (f_created f)); reflexivity.
Qed.

Section Codec.
  Variable mac : bytes -> bytes -> bytes.

  Lemma unpack_raw_app key p tag now max :
    length tag = MACLEN ->
    unpack_raw mac key (p ++ tag) now max =
      if (length p + MACLEN <? MINLEN)%nat then Refused
      else if beqb tag (mac key p) then unpack_payload p now max else Refused.
  Proof.
    intro L. unfold unpack_raw. rewrite app_length, L, Nat.add_sub.
    rewrite take_app_len, drop_app_len.
    destruct (_ <? _)%nat; [reflexivity|]. destruct (beqb tag (mac key p)); reflexivity.
  Qed.

  Lemma wrong_tag_refused key p tag now max :
    length tag = MACLEN -> tag <> mac key p -> unpack_raw mac key (p ++ tag) now max = Refused.
  Proof.
    intros L Ne. rewrite unpack_raw_app by exact L. destruct (_ <? _)%nat; [reflexivity|].
    destruct (beqb tag (mac key p)) eqn:E; [apply beqb_eq in E; contradiction | reflexivity].
  Qed.

  Lemma accepted_genuine key raw now max v s u r :
    unpack_raw mac key raw now max = Accepted v s u r ->
    exists p, raw = p ++ mac key p /\ unpack_payload p now max = Accepted v s u r.
  Proof.
    unfold unpack_raw. destruct (_ <? _)%nat; [discriminate|].
    destruct (beqb (drop (length raw - MACLEN) raw) (mac key (take (length raw - MACLEN) raw))) eqn:T;
      cbn [negb]; [|discriminate].
    intro H. apply beqb_eq in T. exists (take (length raw - MACLEN) raw). split; [|exact H].
    rewrite <- T. symmetry. apply firstn_skipn.
  Qed.

  (* unforgeability as a premise about ONE presented cookie: if it carries a
     genuine tag, its payload is one the key holder MACed *)
  Definition unforgeable (key : bytes) (issued : list fields) (raw : bytes) : Prop :=
    forall p, raw = p ++ mac key p -> exists f, In f issued /\ p = payload f.

  (* no premise on the clock: the age test appears as the code makes it *)
  Lemma accepted_is_issued key issued raw now max v s u r :
    unforgeable key issued raw ->
    (forall f, In f issued -> fields_ok f = true) ->
    unpack_raw mac key raw now max = Accepted v s u r ->
    exists f, In f issued /\ raw = pack_raw mac key f
      /\ v = f_verifier f /\ s = f_state f /\ u = f_url f /\ r = f_rt f
      /\ stale now max (to_u64 (f_created f)) = false.
  Proof.
    intros U G E. apply accepted_genuine in E as (p & R & P).
    destruct (U p R) as (f & Hin & ->). exists f.
    rewrite unpack_payload_payload, read4_body in P by exact (G f Hin).
    destruct (stale _ _ _); [discriminate|].
    inversion P. subst. split; [exact Hin|]. repeat split; reflexivity.
  Qed.

  Hypothesis mac_len : forall k m, length (mac k m) = MACLEN.

  Lemma unpack_raw_split key p now max :
    (17 <= length p)%nat ->
    unpack_raw mac key (p ++ mac key p) now max = unpack_payload p now max.
  Proof.
    intro L. rewrite unpack_raw_app, beqb_refl by apply mac_len.
    apply Nat.ltb_ge in L. rewrite maclen_32. unfold MINLEN.
    replace (length p + 32 <? 49)%nat with (length p <? 17)%nat by (rewrite Nat.add_comm; reflexivity).
    now rewrite L.
  Qed.

  Lemma roundtrip_raw key f now max :
    fields_ok f = true -> created_ok f = true -> (0 <= now < two63)%Z -> (max < two63)%Z ->
    unpack_raw mac key (pack_raw mac key f) now max =
      if fresh now max (f_created f)
      then Accepted (f_verifier f) (f_state f) (f_url f) (f_rt f) else Refused.
  Proof.
    intros. unfold pack_raw. rewrite unpack_raw_split by apply length_payload_ge.
    now apply unpack_payload_ok.
  Qed.

  (* under a collision-freeness premise only *)
  Lemma foreign_key_refused k k' f now max :
    (forall m, mac k m = mac k' m -> k = k') -> k <> k' ->
    unpack_raw mac k (pack_raw mac k' f) now max = Refused.
  Proof.
    intros C Ne. apply wrong_tag_refused; [apply mac_len|]. intro E. symmetry in E. apply C in E. contradiction.
  Qed.
End Codec.

Lemma unpack_text_inv mac enc_raw dec_pad dec_raw key text now max v s u r :
  unpack_text enc_raw dec_pad dec_raw mac key text now max = Accepted v s u r ->
  exists raw, decode dec_pad dec_raw text = Some raw /\ enc_raw raw = trim_pad text /\
              unpack_raw mac key raw now max = Accepted v s u r.
Proof.
  unfold unpack_text. destruct (decode dec_pad dec_raw text) as [raw|]; [|discriminate].
  destruct (beqb (enc_raw raw) (trim_pad text)) eqn:C; cbn [negb]; [|discriminate].
  intro H. exists raw. apply beqb_eq in C. auto.
Qed.

Lemma payload_injective f g :
  fields_ok f = true -> created_ok f = true -> fields_ok g = true -> created_ok g = true ->
  payload f = payload g -> f = g.
Proof.
  intros Ff Cf Fg Cg E. rewrite !payload_shape in E.
  apply (app_eq_len (_ :: _) (_ :: _)) in E as [T B]; [|cbn [length]; unfold le64; now rewrite !length_le_bytes].
  (* the time stamps and the four fields are read back from the two halves *)
  apply (f_equal (fun b => to_i64 (le_val (tl b)))) in T. cbn [tl] in T.
  rewrite !le_val_le64, !to_i64_to_u64 in T by (apply to_u64_lt || now apply created_ok_spec).
  apply (f_equal read4) in B. rewrite !read4_body in B by assumption. injection B as Hv Hs Hu Hr.
  destruct f, g; cbn in *; congruence.
Qed.

Lemma pack_injective mac key f g :
  (forall k m, length (mac k m) = MACLEN) ->
  fields_ok f = true -> created_ok f = true -> fields_ok g = true -> created_ok g = true ->
  pack_raw mac key f = pack_raw mac key g -> f = g.
Proof.
  intros ML Ff Cf Fg Cg E. apply payload_injective; try assumption. unfold pack_raw in E.
  pose proof (f_equal (@length N) E) as L. rewrite !app_length, !ML in L. apply Nat.add_cancel_r in L.
  apply app_eq_len in E as [E _]; [exact E | exact L].
Qed.

Lemma is_nil_spec s : is_nil s = true <-> s = [].
Proof. destruct s; cbn; split; intro H; try reflexivity; discriminate. Qed.
Lemma is_nil_false s : is_nil s = false <-> s <> [].
Proof. destruct s; cbn; split; intro H; try discriminate; try reflexivity; congruence. Qed.

Lemma memb_In x l : memb x l = true <-> In x l.
Proof. apply existsb_beqb_In. Qed.

(* what validateReturnTo answers: nothing, or its input, and then for these reasons *)
Variant return_case (parse : bytes -> option urlrec) (allow : list bytes) (u : bytes) : bytes -> Prop :=
| RetNone : return_case parse allow u []
| RetKept r :
    is_nil u = false -> lenN u <= RT_MAX -> parse u = Some r ->
    web_scheme (u_scheme r) = true -> is_nil (u_host r) = false ->
    origin_allowed allow (u_scheme r) (u_hostname r) (u_port r) = true ->
    return_case parse allow u u.

Lemma validate_return_cases parse allow u : return_case parse allow u (validate_return parse allow u).
Proof.
  unfold validate_return.
  destruct (is_nil u) eqn:Nu; cbn [orb]; [constructor|].
  destruct (N.ltb_spec RT_MAX (lenN u)) as [Lg|Ls]; [constructor|].
  destruct (parse u) as [r|] eqn:P; [|constructor].
  destruct (web_scheme (u_scheme r)) eqn:W; cbn [negb]; [|constructor].
  destruct (is_nil (u_host r)) eqn:H; [constructor|].
  (* the three tests in a row are the disjuncts of [origin_allowed] *)
  destruct (is_localhost (u_hostname r) && beqb (u_scheme r) s_http) eqn:A;
    [|destruct (memb (origin_of (u_scheme r) (u_hostname r)) allow) eqn:B;
      [|destruct (negb (is_nil (u_port r)) && memb (origin_port_of (u_scheme r) (u_hostname r) (u_port r)) allow) eqn:C;
        [|constructor]]];
    (apply (RetKept _ _ _ r); try assumption; unfold origin_allowed; rewrite ?A, ?B, ?C; reflexivity).
Qed.

Lemma validate_return_len parse allow u : lenN (validate_return parse allow u) <= RT_MAX.
Proof. destruct (validate_return_cases parse allow u); [apply N.le_0_l | assumption]. Qed.

Lemma return_go_model parse allow u :
  return_go_ok u allow (parse u) (validate_return parse allow u) = true.
Proof.
  unfold return_go_ok. destruct (validate_return_cases parse allow u) as [|r Nu L P W H A]; [reflexivity|].
  rewrite Nu, beqb_refl, P, W, H, A. apply N.leb_le in L. now rewrite L.
Qed.

Lemma return_spec_model parse allow u :
  parse_sane u allow (parse u) = true ->
  return_spec u allow (parse u) (validate_return parse allow u) = true.
Proof.
  intro Sn. unfold return_spec. rewrite return_go_model. cbn [andb].
  unfold parse_sane in Sn.
  change (validate_return (fun _ => parse u) allow u) with (validate_return parse allow u) in Sn.
  destruct (validate_return_cases parse allow u) as [|r Nu L P W H A]; [reflexivity|].
  rewrite Nu in *. cbn [orb] in *. rewrite P in Sn.
  unfold agrees in Sn. unfold browser_allowed.
  destruct (browser_origin u) as [[[s h] p]|]; [|discriminate].
  apply andb_true_iff in Sn as [Sn Sp]. apply andb_true_iff in Sn as [Ss Sh].
  apply beqb_eq in Ss, Sh, Sp. now subst.
Qed.

Variant original_case (parse : bytes -> option urlrec) (u p : bytes) : bytes -> Prop :=
| OrigFallback : original_case parse u p (fallback p)
| OrigKept r :
    parse (trunc_orig u) = Some r -> is_nil (u_scheme r) = true -> is_nil (u_host r) = true ->
    has_prefix p (trunc_orig u) = true ->
    original_case parse u p (trunc_orig u).

Lemma validate_original_cases parse u p : original_case parse u p (validate_original parse u p).
Proof.
  unfold validate_original. destruct (parse (trunc_orig u)) as [r|] eqn:P; [|constructor].
  destruct (is_nil (u_scheme r)) eqn:Sc; cbn [negb orb]; [|constructor].
  destruct (is_nil (u_host r)) eqn:H; cbn [negb]; [|constructor].
  destruct (is_nil p) eqn:Np; cbn [negb andb].
  - apply is_nil_spec in Np. subst p. now apply (OrigKept _ _ _ r).
  - destruct (has_prefix p (trunc_orig u)) eqn:HP; cbn [negb]; [|constructor].
    now apply (OrigKept _ _ _ r).
Qed.

Lemma orig_go_model parse u p :
  orig_go_ok u p (parse (trunc_orig u)) (validate_original parse u p) = true.
Proof.
  unfold orig_go_ok. destruct (validate_original_cases parse u p) as [|r P Sc H HP]; rewrite beqb_refl; [reflexivity|].
  rewrite P, Sc, H, HP. apply orb_true_r.
Qed.

Lemma lenN_take n s : lenN (take n s) <= N.of_nat n.
Proof. unfold lenN, take. rewrite firstn_length. lia. Qed.

Lemma validate_original_len parse u p :
  lenN (validate_original parse u p) <= N.max ORIG_MAX (N.max (lenN p) 1).
Proof.
  destruct (validate_original_cases parse u p).
  - unfold fallback. destruct (is_nil p); [change (lenN s_slash) with 1; lia | lia].
  - unfold trunc_orig. destruct (N.ltb_spec ORIG_MAX (lenN u)).
    + pose proof (lenN_take (N.to_nat ORIG_MAX) u). lia.
    + lia.
Qed.

Lemma starts_safe_same t : starts_safe t = true -> browser_kind t = BSame.
Proof.
  destruct t as [|a rest]; [discriminate|]. cbn [starts_safe].
  intro H. apply andb_true_iff in H as [A R]. apply N.eqb_eq in A. subst a.
  unfold browser_kind, clean. cbn [filter].
  change (negb (is_tabnl 47)) with true. cbn iota.
  destruct rest as [|c r].
  - reflexivity.
  - apply andb_true_iff in R as [R1 R2]. cbn [filter]. rewrite R2.
    cbn [drop_c0]. change (47 <=? 32) with false. cbn iota.
    change (is_slash 47) with true. cbn [andb].
    apply negb_true_iff in R1. rewrite R1.
    unfold has_scheme. change (is_alpha 47) with false. reflexivity.
Qed.

Lemma good_prefix_safe p t : good_prefix p = true -> has_prefix p t = true -> starts_safe t = true.
Proof.
  destruct p as [|a [|c p']]; try discriminate. cbn [good_prefix].
  intro G. apply andb_true_iff in G as [G G3]. apply andb_true_iff in G as [G1 G2].
  destruct t as [|a' [|c' t']]; cbn [has_prefix]; try discriminate.
  - intro H. apply andb_true_iff in H as [_ H]. discriminate.
  - intro H. apply andb_true_iff in H as [E1 H]. apply andb_true_iff in H as [E2 _].
    apply N.eqb_eq in E1, E2. subst. cbn [starts_safe]. now rewrite G1, G2, G3.
Qed.

Lemma starts_safe_trunc u : starts_safe u = true -> starts_safe (trunc_orig u) = true.
Proof.
  intro Hs. unfold trunc_orig. destruct (ORIG_MAX <? lenN u); [|exact Hs].
  (* [starts_safe] reads two bytes, and the cut keeps ORIG_MAX = 2048 >= 2 *)
  change (N.to_nat ORIG_MAX) with (S (S (N.to_nat 2046))).
  destruct u as [|a [|c r]]; try exact Hs.
Qed.

Lemma validate_original_under parse u p : has_prefix p (validate_original parse u p) = true.
Proof.
  destruct (validate_original_cases parse u p) as [|r _ _ _ HP]; [|exact HP].
  destruct p; [reflexivity | apply has_prefix_refl].
Qed.

(* a proper route prefix makes whatever lies under it start like a same-origin
   path; with no prefix the input has to be shaped like a route's path *)
Lemma validate_original_safe parse u p :
  good_prefix p = true \/ (p = [] /\ starts_safe u = true) ->
  starts_safe (validate_original parse u p) = true.
Proof.
  intros [G | [-> Su]].
  - exact (good_prefix_safe _ _ G (validate_original_under parse u p)).
  - destruct (validate_original_cases parse u []); [reflexivity | now apply starts_safe_trunc].
Qed.

Lemma orig_spec_model parse u p :
  orig_spec u p (parse (trunc_orig u)) (validate_original parse u p) = true.
Proof.
  unfold orig_spec. rewrite orig_go_model. cbn [andb].
  destruct (good_prefix p || (is_nil p && starts_safe u)) eqn:G; [|reflexivity].
  unfold orig_browser_ok. rewrite validate_original_under, starts_safe_same; [reflexivity|].
  apply validate_original_safe.
  apply orb_true_iff in G as [G|G]; [now left | right].
  apply andb_true_iff in G as [Np Su]. apply is_nil_spec in Np. now split.
Qed.

Section Callback.
  Variables (enc_raw : bytes -> bytes) (dec_pad dec_raw : bytes -> option bytes)
            (mac : bytes -> bytes -> bytes) (parse : bytes -> option urlrec) (key : bytes) (now : Z).

  (* the request passed every check that precedes the token exchange, and its
     cookie [text] unpacked to the four fields *)
  Definition admitted (i : cbin) (text v s u r : bytes) : Prop :=
    cb_cookie i = Some text /\ text <> [] /\
    unpack_text enc_raw dec_pad dec_raw mac key text now SESSION_MAX_AGE = Accepted v s u r /\
    cb_state i = s /\ cb_error i = [] /\ cb_code i <> [] /\ cb_disc i = true.

  (* the runs of the handler: refused before any exchange; one exchange, with the
     packed verifier, that failed; one that succeeded, and the token goes either
     into a redirect to the packed return URL or into the auth cookie with a
     redirect to the validated original URL *)
  Inductive cb_run (i : cbin) : cbout -> Prop :=
  | RunRefused st : st <> 302 -> cb_run i (cb_fail st [])
  | RunFailed text v s u r : admitted i text v s u r -> cb_run i (cb_fail 502 [(cb_code i, v)])
  | RunBearer text v s u r tok :
      admitted i text v s u r -> cb_exch i = ExOk tok -> tok <> [] -> r <> [] ->
      cb_run i {| co_status := 302; co_trace := [(cb_code i, v)]; co_base := r;
                  co_sep := if mem 35 r then 38 else 35; co_bearer := true; co_auth := None; co_leak := false |}
  | RunCookie text v s u tok :
      admitted i text v s u [] -> cb_exch i = ExOk tok -> tok <> [] ->
      cb_run i {| co_status := 302; co_trace := [(cb_code i, v)];
                  co_base := validate_original parse u (cb_prefix i);
                  co_sep := 0; co_bearer := false; co_auth := Some tok; co_leak := false |}.

  Lemma callback_run i : cb_run i (callback enc_raw dec_pad dec_raw mac parse key now i).
  Proof.
    unfold callback.
    destruct (is_nil (cb_error i)) eqn:E; cbn [negb]; [|now constructor].
    destruct (is_nil (cb_code i)) eqn:C; cbn [orb]; [now constructor|].
    destruct (is_nil (cb_state i)); [now constructor|].
    destruct (cb_cookie i) as [[|t0 text]|] eqn:K; try now constructor.
    destruct (unpack_text enc_raw dec_pad dec_raw mac key (t0 :: text) now SESSION_MAX_AGE) as [v s u r|] eqn:U;
      [|now constructor].
    destruct (beqb (cb_state i) s) eqn:St; cbn [negb]; [|now constructor].
    destruct (cb_disc i) eqn:D; cbn [negb]; [|now constructor].
    assert (A : admitted i (t0 :: text) v s u r).
    { apply beqb_eq in St. apply is_nil_spec in E. apply is_nil_false in C. repeat split; assumption || discriminate. }
    destruct (cb_exch i) as [[|k0 tok]|] eqn:X; try exact (RunFailed i _ _ _ _ _ A).
    destruct r as [|r0 r]; cbn [is_nil negb].
    - now apply (RunCookie i _ _ _ _ _ A).
    - now apply (RunBearer i _ _ _ _ _ (k0 :: tok) A).
  Qed.

End Callback.

(* what the server itself packs fits the uint16 length prefixes: both validators
   bound their output *)
Lemma validated_fit parse allow rt u p :
  lenN p < 65536 ->
  lenN (validate_return parse allow rt) < 65536 /\ lenN (validate_original parse u p) < 65536.
Proof.
  intro Hp. pose proof rt_max_small. pose proof orig_max_small.
  pose proof (validate_return_len parse allow rt). pose proof (validate_original_len parse u p). lia.
Qed.

Lemma res_eqb_refl r : res_eqb r r = true.
Proof. destruct r; cbn; [now rewrite !beqb_refl | reflexivity]. Qed.

Lemma time_sane_spec c : time_sane c = true ->
  (0 <= ck_now c < two63)%Z /\ (ck_max_age c < two63)%Z.
Proof. unfold time_sane. rewrite !andb_true_iff, Z.leb_le, !Z.ltb_lt. tauto. Qed.

Lemma tag_ok_of_accepted c raw max v s u r :
  ck_raw c = Some raw ->
  unpack_raw (fun _ _ => ck_mac c) [] raw (ck_now c) max = Accepted v s u r -> ck_tag_ok c = true.
Proof.
  intros R U. unfold ck_tag_ok. rewrite R. unfold unpack_raw in U.
  destruct (length raw <? MINLEN)%nat; [discriminate|]. cbn [negb andb].
  destruct (beqb (drop (length raw - MACLEN) raw) (ck_mac c)); [reflexivity | discriminate].
Qed.

Lemma unpack_spec_model k c :
  mac_sane k c = true -> time_sane c = true -> unpack_spec k c (ck_unpack c) = true.
Proof.
  intros M T. apply time_sane_spec in T as [Tn Tm].
  destruct k as [f | f imac | ]; cbn [unpack_spec mac_sane] in *.
  - (* honest; the harness oracles are constant functions, so what [decode] returns on any text is [ck_raw c] *)
    destruct (fields_ok f && created_ok f) eqn:G; [|reflexivity].
    apply andb_true_iff in G as [Gf Gc]. apply andb_true_iff in M as [M Cn]. apply andb_true_iff in M as [R L].
    apply (opt_eqb_eq beqb beqb_eq) in R. apply Nat.eqb_eq in L.
    unfold ck_unpack, ck_unpack_on, unpack_text. change (decode _ _ (ck_text c)) with (ck_raw c).
    rewrite R. cbv beta. rewrite Cn. cbn [negb].
    change (payload f ++ ck_mac c) with (pack_raw (fun _ _ => ck_mac c) [] f).
    rewrite roundtrip_raw; try assumption; [|intros; exact L].
    destruct (fresh (ck_now c) (ck_max_age c) (f_created f)); apply res_eqb_refl.
  - (* tampered *)
    destruct (ck_unpack c) as [v s u r|] eqn:U; [|reflexivity].
    apply andb_true_iff in M as [M L]. apply Nat.eqb_eq in L.
    apply unpack_text_inv in U as (raw & R & Cn & U). change (ck_raw c = Some raw) in R. cbv beta in Cn.
    rewrite (tag_ok_of_accepted c raw _ _ _ _ _ R U) in M. cbn [negb orb] in M. rewrite M, Cn, beqb_refl. cbn [andb].
    apply (opt_eqb_eq beqb beqb_eq) in M. assert (Rw : raw = payload f ++ imac) by congruence. subst raw.
    destruct (fields_ok f && created_ok f) eqn:G; [|reflexivity].
    apply andb_true_iff in G as [Gf Gc].
    rewrite unpack_raw_app in U by exact L.
    destruct (_ <? _)%nat; [discriminate|]. destruct (beqb imac _); [|discriminate].
    rewrite unpack_payload_ok in U by assumption.
    destruct (fresh (ck_now c) (ck_max_age c) (f_created f)); [|discriminate].
    inversion U. subst. now rewrite res_eqb_refl.
  - (* crafted *)
    destruct (ck_unpack c) as [v s u r|] eqn:U; [|reflexivity].
    apply unpack_text_inv in U as (raw & R & _ & U).
    exact (tag_ok_of_accepted c raw _ _ _ _ _ R U).
Qed.

Lemma cb_spec_model i c pr :
  cb_spec i c pr (callback (fun _ => ck_encraw c) (fun _ => ck_pad c) (fun _ => ck_rawdec c) (fun _ _ => ck_mac c) (fun _ => pr) [] (ck_now c) i) = true.
Proof.
  unfold cb_spec.
  destruct (callback_run (fun _ => ck_encraw c) (fun _ => ck_pad c) (fun _ => ck_rawdec c) (fun _ _ => ck_mac c) (fun _ => pr) [] (ck_now c) i)
    as [st Nst | text v s u r A | text v s u r tok A X Nt Nr | text v s u tok A X Nt];
    cbn [co_trace co_bearer co_auth co_status co_base co_leak cb_fail orb negb andb].
  1: apply N.eqb_neq in Nst; rewrite Nst; reflexivity.
  (* in the admitted runs the spec's own reading of the cookie is the one the handler made *)
  all: destruct A as (K & Ntx & U & <- & E & C & _); rewrite K; destruct text as [|t0 text]; [congruence|];
    unfold ck_unpack_on; rewrite U, !beqb_refl, E; apply is_nil_false in C; rewrite C; cbn [is_nil negb andb].
  - reflexivity.
  - rewrite X. destruct tok; [congruence|]. apply is_nil_false in Nr. rewrite Nr. reflexivity.
  - rewrite X. destruct tok; [congruence|]. rewrite beqb_refl, (orig_spec_model (fun _ => pr) u (cb_prefix i)). reflexivity.
Qed.

(* the decoder before the fix accepted altered texts *)
Definition w_mac : bytes -> bytes -> bytes := fun _ _ => repeat 0 MACLEN.
Definition w_f : fields := {| f_created := 0; f_verifier := []; f_state := []; f_url := []; f_rt := [] |}.
Definition w_canon : bytes := str "BAAA" ++ rep 60 65 ++ str "AA".        (* unpadded base64url of pack_raw w_mac [] w_f *)
Definition w_slack : bytes := str "BAAA" ++ rep 60 65 ++ str "AB==".      (* last symbol altered within its 4 unused bits *)
Definition w_crlf : bytes := str "BAAA" ++ [13; 10] ++ rep 60 65 ++ str "AA==".   (* CR LF inserted *)
