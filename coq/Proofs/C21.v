(* Proofs/C21.v — lemmas for the model of the native HTTP client.
   What the client saw of a POST is a function of its record: [answer], [view], and
   [parsed_as], the parser's verdict on it.  An answer is accepted only if it arrived intact
   or lost nothing but its cursor ([parsed_cases]).  [round] says what a POST leaves behind
   ([posted]) and that the client goes by [parsed_as].
   Two relations then stand for the calls on an open stream: [stepped] for one call, [ran]
   for a run of calls, proved against [step] and [run_ops] by [step_cases] and [run_ran];
   nothing after that unfolds those.  A call's result has to answer for each of its POSTs
   ([accounted]: the rejection and typed-exception clauses, by [parsed_accounted] from what
   the POST parsed as).  The cursor, poisoning, exchange and producer clauses are inductions
   over [ran]; the cursor and poisoning clauses go by what one call does to the cursor held
   ([stepped_exch]).  [open_meets] does the open call, and [model_meets] collects the clauses
   ([meets]) for the property theorems. *)
From VR Require Import Model.C21 Lib.Lists.
Local Open Scope nat_scope.

(* the cursor labels a list of frames carries *)
Definition curs (fs : list frame) : list nat :=
  flat_map (fun f => match f with FBat _ _ _ (Some c) _ => [c] | _ => [] end) fs.

Lemma curs_app a b : curs (a ++ b) = curs a ++ curs b.
Proof. apply flat_map_app. Qed.

Lemma curs_logs l : curs (logs_of l) = [].
Proof. induction l; cbn; auto. Qed.

Lemma curs_strip fs : curs (map strip_tok fs) = [].
Proof. induction fs as [|[] fs IH]; cbn; auto. Qed.

Lemma curs_no_cur fs : curs (filter (fun f => negb (has_cur f)) fs) = [].
Proof. induction fs as [|[| |? ? ? [] ?] fs IH]; cbn; auto. Qed.

Lemma produce_curs limit ts : forall pos count fr r, produce limit ts pos count = (fr, r) -> curs fr = [].
Proof.
  induction ts as [|t ts IH]; intros pos count fr r; cbn [produce]; [intros [= <- _]; reflexivity|].
  destruct (t_act t); try (intros [= <- _]; rewrite ?curs_app, ?curs_logs; reflexivity).
  destruct ((0 <? limit) && (limit <=? S count)); [intros [= <- _]; rewrite curs_app, curs_logs; reflexivity|].
  destruct (produce limit ts (S pos) (S count)) as [fr' r'] eqn:E. intros [= <- _].
  now rewrite !curs_app, curs_logs, (IH _ _ _ _ E).
Qed.

(* the batch loop by cases of the first exception frame *)
Lemma walk_spec tid fs :
  match first_exc fs with
  | Some ty => exists l, walk tid fs = (l, inl (ERpc ty))
  | None => exists p, walk tid fs = (logs_in fs, inr p) /\ pa_items p = items_of tid fs /\
              is_some (pa_tok p) = has_token fs /\ pa_call p = has_call fs /\
              forall t, pa_tok p = Some t -> In t (curs fs)
  end.
Proof.
  induction fs as [|[m|ty|rows v um cur call] fs IH]; cbn [first_exc walk logs_in items_of].
  - eexists; split; [reflexivity|]. cbn. repeat split; discriminate.
  - destruct (first_exc fs); [destruct IH as [l ->]; eauto|]. destruct IH as (p & -> & IH). eauto.
  - eauto.
  - destruct (first_exc fs); [destruct IH as [l ->]; eauto|]. destruct IH as (p & -> & Hi & Ht & Hc & Hin).
    eexists; split; [reflexivity|].
    cbn [pa_items pa_tok pa_call has_cur]. unfold has_token, has_call in *. cbn [existsb has_cur].
    rewrite <- Ht, <- Hc, Hi. split; [destruct cur; reflexivity|]. split; [destruct (pa_tok p), cur; cbn; auto|].
    split; [destruct call; cbn; auto|]. intros t E. unfold curs. cbn [flat_map]. apply in_or_app.
    destruct (pa_tok p); [right; auto|left; subst cur; now left].
Qed.

Lemma parse_main_inr fx tid eh b l p :
  parse_main fx tid eh b = (l, inr p) ->
  parse_stream fx tid b = (l, inr p) /\ eh = false /\ tail_of b <> TTrailing.
Proof.
  unfold parse_main. destruct (parse_stream fx tid b) as [l' [e|p']]; [discriminate|].
  destruct (tail_of b), eh; try discriminate; intros [= -> ->]; repeat split; discriminate.
Qed.

Lemma stream_tok fx tid ok fs tail l q :
  parse_stream fx tid (CStream ok fs tail) = (l, inr q) -> forall t, pa_tok q = Some t -> In t (curs fs).
Proof.
  destruct ok; cbn [parse_stream]; [|discriminate].
  pose proof (walk_spec tid fs) as Hw. destruct (first_exc fs); [destruct Hw as [l' ->]; destruct tail; discriminate|].
  destruct Hw as (p & -> & _ & _ & _ & Hin). destruct tail; intros [= _ <-]; exact Hin.
Qed.

Lemma transparent_view f sr :
  transparent f = true -> post_view f sr = inr (sr_errhdr sr, CStream (sr_ok sr) (sr_frames sr) TClean).
Proof.
  unfold transparent, post_view.
  intros [[[[[Hn Ho]%andb_true_iff He]%andb_true_iff Hb]%andb_true_iff Hh]%andb_true_iff Hs]%andb_true_iff.
  apply negb_true_iff in Ho, Hh. rewrite Ho, He, Hs, Hh, orb_false_r.
  destruct (f_net f); try discriminate. destruct (f_body f); try discriminate. reflexivity.
Qed.

Lemma post_view_inr f sr eh b :
  post_view f sr = inr (eh, b) ->
  reaches_parser f = true /\ eh = sr_errhdr sr || f_errhdr f /\ b = edit (f_body f) sr.
Proof.
  unfold post_view, reaches_parser. destruct (f_net f); try discriminate. destruct (f_over f); try discriminate.
  destruct (enc_accepts (f_enc f)); try discriminate. destruct (status_2xx (eff_status f)); try discriminate.
  intros [= -> ->]. auto.
Qed.

Definition wlen (w : world) : nat := length (w_states w).

(* the one cursor in the server's answer is the label of the state it sealed *)
Lemma server_mints i w init cur cancel x sr mint :
  server i w init cur cancel x = (sr, mint) ->
  curs (sr_frames sr) = match mint with Some _ => [wlen w] | None => [] end.
Proof.
  unfold server, srv_init, srv_exchange, srv_cont, srv_cancel, wlen.
  destruct init; [|destruct cancel; [|destruct (i_exchange i)]].
  - (* init: only a producer's runs the produce loop *)
    destruct (i_init i), (i_exchange i);
      try (intros [= <- <-]; cbn [sr_frames]; rewrite ?curs_app, ?curs_logs; reflexivity).
    destruct (produce _ _ _ _) as [fr r] eqn:E. apply produce_curs in E. intros [= <- <-].
    cbn [sr_frames]. rewrite !curs_app, curs_logs, E. now destruct r.
  - (* cancel *) intros [= <- <-]. reflexivity.
  - (* exchange turn *)
    destruct (t_act _); intros [= <- <-]; cbn [sr_frames]; rewrite ?curs_app, ?curs_logs; reflexivity.
  - (* producer continuation *)
    destruct (produce _ _ _ _) as [fr r] eqn:E. apply produce_curs in E. intros [= <- <-].
    cbn [sr_frames]. rewrite curs_app, E. now destruct r.
Qed.

Definition answer (p : post_rec) : sresp :=
  {| sr_ok := p_sok p; sr_errhdr := p_serrhdr p; sr_frames := p_frames p |}.
Definition view (p : post_rec) : err + (bool * cbody) :=
  if p_reached p then post_view (p_fault p) (answer p) else inl (ERpc transport_error).

Lemma do_post_inr_reached i w init cur call cancel x w' pr eh b :
  do_post i w init cur call cancel x = (w', pr, inr (eh, b)) -> p_reached pr = true.
Proof.
  unfold do_post. destruct (server i w init cur cancel x). destruct (f_net _); intros [= _ <- _]; reflexivity.
Qed.

Lemma item_eqb_eq a b : item_eqb a b = true <-> a = b.
Proof.
  destruct a as [[r v] um], b as [[r' v'] um']. unfold item_eqb. cbn [fst snd].
  rewrite !andb_true_iff, N.eqb_eq, Z.eqb_eq, (list_eqb_eq kv_eqb).
  - split; [intros [[-> ->] ->]; reflexivity|intros [= -> -> ->]; auto].
  - intros [k1 v1] [k2 v2]. unfold kv_eqb, pair_eqb. cbn [fst snd]. rewrite andb_true_iff, !beqb_eq.
    split; [intros [-> ->]; reflexivity|intros [= -> ->]; auto].
Qed.

Lemma result_eqb_eq a b : result_eqb a b = true <-> a = b.
Proof.
  destruct a as [x| | |e], b as [y| | |e']; cbn [result_eqb]; try (split; [discriminate|discriminate]);
    try (split; reflexivity).
  - rewrite item_eqb_eq. split; [intros ->; reflexivity|intros [= ->]; reflexivity].
  - destruct e, e'; cbn [err_eqb]; try (split; [discriminate|discriminate]); try (split; reflexivity).
    + rewrite beqb_eq. split; [intros ->; reflexivity|intros [= ->]; reflexivity].
    + rewrite Z.eqb_eq. split; [intros ->; reflexivity|intros [= ->]; reflexivity].
Qed.

Definition parsed_as (fx tid : bool) (p : post_rec) : list N * (err + parsed) :=
  match view p with inl e => ([], inl e) | inr (eh, b) => parse_main fx tid eh b end.

Lemma seen_view p : seen p = true -> view p = inr (p_serrhdr p, CStream (p_sok p) (p_frames p) TClean).
Proof. unfold seen, view. intros [Ht ->]%andb_true_iff. exact (transparent_view _ (answer p) Ht). Qed.

Lemma good_parsed fx tid p : good p = true ->
  exists q, parsed_as fx tid p = (logs_in (p_frames p), inr q) /\ pa_items q = items_of tid (p_frames p)
            /\ is_some (pa_tok q) = has_token (p_frames p) /\ pa_call q = has_call (p_frames p).
Proof.
  unfold good, parsed_as.
  intros [[[Hs Hk]%andb_true_iff Hh%negb_true_iff]%andb_true_iff He%negb_true_iff]%andb_true_iff.
  pose proof (walk_spec tid (p_frames p)) as Hw. destruct (first_exc (p_frames p)); [discriminate He|].
  destruct Hw as (q & Hw & Hi & Ht & Hc & _). exists q.
  rewrite (seen_view p Hs), Hk, Hh. unfold parse_main. cbn [parse_stream]. now rewrite Hw.
Qed.

Lemma failed_undelivered fx tid p l e : parsed_as fx tid p = (l, inl e) -> delivered p = [].
Proof.
  intro H. unfold delivered. destruct (good p) eqn:Hg; [|reflexivity].
  destruct (good_parsed fx tid p Hg) as (q & Hq & _). congruence.
Qed.

(* a server exception that reached the client intact is what the current parser reports *)
Lemma parsed_typed tid p l out res : parsed_as true tid p = (l, out) ->
  match out with inl e => res = RErr e | inr _ => True end -> typed_post res p = true.
Proof.
  unfold typed_post, parsed_as. destruct (seen p) eqn:Hs; [|reflexivity].
  rewrite (seen_view p Hs). pose proof (walk_spec tid (p_frames p)) as Hw.
  destruct (first_exc (p_frames p)) as [ty|] eqn:Ee; [|reflexivity].
  (* whatever the schema and the error header say, the first exception frame is what is reported *)
  unfold parse_main. destruct (p_sok p); cbn [parse_stream]; [destruct Hw as [l' ->]|rewrite Ee];
    intros [= _ <-] ->; now apply result_eqb_eq.
Qed.

Lemma is_some_true {A} (o : option A) : is_some o = true -> exists t, o = Some t.
Proof. destruct o; [eauto|discriminate]. Qed.

(* The client accepts an answer only if it arrived intact or lost nothing but its cursor,
   and a cursor it reads out of an accepted answer is one the server put there. *)
Lemma parsed_cases fx tid p l q : parsed_as fx tid p = (l, inr q) ->
  (forall t, pa_tok q = Some t -> In t (curs (p_frames p))) /\
  (good p = true \/ lossy (p_fault p) = true /\ reaches_parser (p_fault p) = true /\ pa_tok q = None).
Proof.
  unfold parsed_as, view. destruct (p_reached p) eqn:Hr; [|discriminate].
  destruct (post_view (p_fault p) (answer p)) as [e|[eh b]] eqn:Ev; [discriminate|].
  apply post_view_inr in Ev as (Hrp & -> & ->). intros (Hp & [Heh Hfe]%orb_false_iff & Htl)%parse_main_inr.
  cbn [answer sr_errhdr] in Heh.
  unfold good, seen, transparent, lossy. rewrite Hr, Heh, Hfe, Hrp. unfold reaches_parser in Hrp.
  apply andb_true_iff in Hrp as [[[-> ->]%andb_true_iff ->]%andb_true_iff ->].
  destruct (f_body (p_fault p)); cbn [edit] in Hp, Htl; try discriminate Hp.
  all: cbn [answer sr_frames sr_ok bodyf_eqb andb orb negb] in *.
  - split; [exact (stream_tok _ _ _ _ _ _ _ Hp)|left]. destruct (p_sok p); [|discriminate Hp].
    pose proof (walk_spec tid (p_frames p)) as Hw. destruct (first_exc (p_frames p)); [|reflexivity].
    destruct Hw as [l' Hl']. cbn in Hp. rewrite Hl' in Hp. discriminate Hp.
  - now destruct Htl.
  - pose proof (stream_tok _ _ _ _ _ _ _ Hp) as Htok. rewrite curs_no_cur in Htok.
    destruct (pa_tok q) as [t|]; [destruct (Htok t eq_refl)|]. split; [discriminate|auto].
  - pose proof (stream_tok _ _ _ _ _ _ _ Hp) as Htok. rewrite curs_strip in Htok.
    destruct (pa_tok q) as [t|]; [destruct (Htok t eq_refl)|]. split; [discriminate|auto].
  - destruct (p_frames p) as [|f fs]; [discriminate Hp|]. cbn [parse_stream] in Hp. destruct (p_sok p); [|discriminate Hp].
    destruct (walk tid (removelast (f :: fs))) as [l1 [e1|p1]]; discriminate Hp.
Qed.

Lemma parsed_delivered fx p l q :
  parsed_as fx false p = (l, inr q) -> lossy (p_fault p) = false -> delivered p = pa_items q.
Proof.
  intros H Hlo. destruct (parsed_cases _ _ _ _ _ H) as [_ [Hg|[Hl _]]]; [|congruence].
  unfold delivered. rewrite Hg. destruct (good_parsed fx false p Hg) as (q' & Hq & Hi & _). congruence.
Qed.

(* a response that parsed is one the property lets through, provided a lossy one is not
   taken for an exchange turn: there the client insists on a cursor, and none is left *)
Lemma parsed_rej fx tid ex p l q res : parsed_as fx tid p = (l, inr q) ->
  ex = false \/ p_cancel p = true \/ is_some (pa_tok q) = true -> rej_post ex res p = true.
Proof.
  intros H Hside. unfold rej_post. destruct (parsed_cases _ _ _ _ _ H) as [_ [Hg|(-> & -> & Hn)]].
  - unfold good, seen in Hg. destruct (transparent (p_fault p)); [now rewrite orb_true_r|discriminate].
  - rewrite Hn in Hside. destruct Hside as [->|[->|[=]]]; [|destruct ex]; apply orb_true_r.
Qed.

Definition accounted (fx ex : bool) (res : result) (p : post_rec) : Prop :=
  rej_post ex res p = true /\ (fx = true -> typed_post res p = true).

(* How a call's result answers for one of its POSTs: the POST failed and the call reports
   that error, or it parsed and then either the call fails all the same or the response is
   one the property lets through. *)
Lemma parsed_accounted fx tid ex p l out res : parsed_as fx tid p = (l, out) ->
  match out with
  | inl e => res = RErr e
  | inr q => is_err res = true \/ ex = false \/ p_cancel p = true \/ is_some (pa_tok q) = true
  end -> accounted fx ex res p.
Proof.
  intros H Hout. split; [|intros ->; apply (parsed_typed _ _ _ _ _ H); now destruct out].
  destruct out as [e|q]; [now rewrite Hout|].
  destruct Hout as [He|Hs]; [unfold rej_post; now rewrite He|exact (parsed_rej _ _ _ _ _ _ _ H Hs)].
Qed.

Lemma rej_err ex e p : rej_post ex (RErr e) p = true.
Proof. reflexivity. Qed.

(* the test every call makes before it goes to the network *)
Definition dead (c : cst) : bool := c_fin c || negb (is_some (c_tok c)).

Lemma not_dead_tok c : dead c = false -> c_fin c = false /\ exists t, c_tok c = Some t.
Proof. intros [Hf Ht%negb_false_iff%is_some_true]%orb_false_iff. auto. Qed.

(* what a POST leaves behind: the record says what was sent, no frame answers a cancel, and the
   cursors in the answer are labels minted by this very POST *)
Set Implicit Arguments.
Record posted (w : world) (init : bool) (cur : option nat) (cancel : bool) (x : Z) (w' : world) (pr : post_rec)
  : Prop := {
  po_init : p_init pr = init;
  po_cur : p_cur pr = cur;
  po_cancel : p_cancel pr = cancel;
  po_x : p_x pr = x;
  po_len : wlen w <= wlen w';
  po_frames : init = false -> cancel = true -> p_frames pr = [];
  po_minted : forall t, In t (curs (p_frames pr)) -> wlen w <= t < wlen w' }.
Unset Implicit Arguments.

(* what the client does next goes by [parsed_as] *)
Lemma round fx tid i w init cur call cancel x w' pr v :
  do_post i w init cur call cancel x = (w', pr, v) ->
  posted w init cur cancel x w' pr /\
  parsed_as fx tid pr = match v with inl e => ([], inl e) | inr (eh, b) => parse_main fx tid eh b end.
Proof.
  unfold do_post. destruct (server i w init cur cancel x) as [sr mint] eqn:Es.
  assert (Hcan : init = false -> cancel = true -> sr_frames sr = []) by (intros -> ->; now injection Es as <-).
  apply server_mints in Es. destruct sr as [ok eh fs]. cbn [sr_frames] in *.
  assert (Hm : wlen w <= length (match mint with Some p => w_states w ++ [p] | None => w_states w end) /\
               forall t, In t (curs fs) -> wlen w <= t < length (match mint with Some p => w_states w ++ [p] | None => w_states w end)).
  { rewrite Es. unfold wlen. destruct mint; [rewrite app_length; cbn; split; [lia|intros t [<-|[]]; lia]|split; [lia|intros t []]]. }
  destruct Hm as [Hl Hm].
  destruct (f_net (fault_at i (w_n w))); intros [= <- <- <-]; (split; [split; try reflexivity; auto|reflexivity]).
  intros t [].
Qed.

Lemma posted_wf [w t cancel x w' pr] : posted w false (Some t) cancel x w' pr -> wf_post pr = true /\ cursors_of [pr] = [t].
Proof. intros [Hi Hc]. unfold wf_post, cursors_of. cbn. now rewrite Hi, Hc. Qed.

Definition nl_posts (ps : list post_rec) : bool := forallb (fun p => negb (lossy (p_fault p))) ps.

(* what Next leaves pending, given the POSTs [new] it made *)
Definition refilled (c c' : cst) (res : result) (new : list post_rec) : Prop :=
  match res with
  | ROk it => c_pend c ++ flat_map delivered new = it :: c_pend c'
  | REnd => c_pend c ++ flat_map delivered new = [] /\ c_pend c' = []
  | RErr _ => c_pend c ++ flat_map delivered new = c_pend c'
  | RNil => False
  end.

Lemma next_idle fx c c' ps ls res : refilled c c' res [] ->
  exists new, o_posts (mk_op ps ls res) = ps ++ new /\ forallb wf_post new = true /\
    Forall (accounted fx false res) new /\ (nl_posts new = true -> refilled c c' res new).
Proof. intro H. exists []. rewrite app_nil_r. do 3 (split; [constructor|]). intros _. exact H. Qed.

(* Next hands out what is pending, and refills from POSTs whose responses it accepted: short
   of a fault that drops the cursor, those are exactly the [good] ones. *)
Lemma next_loop_spec fx i : forall fuel w c ps ls w' c' r,
  next_loop fx i fuel w c ps ls = (w', c', r) ->
  exists new, o_posts r = ps ++ new /\ forallb wf_post new = true /\ Forall (accounted fx false (o_res r)) new /\
    (nl_posts new = true -> refilled c c' (o_res r) new).
Proof.
  induction fuel as [|k IH]; intros w c ps ls w' c' r Hs; cbn [next_loop] in Hs;
    (destruct (c_pend c) as [|it rest] eqn:Epd; [destruct (c_fin c || negb (is_some (c_tok c))) eqn:Ed|]).
  (* With no fuel, and with fuel: the stream is over, it is not, an item is pending.  Only the
     fifth case goes to the network. *)
  1, 2, 3, 4, 6: injection Hs as <- <- <-; apply next_idle; red; cbn; rewrite app_nil_r, Epd; auto.
  unfold refilled in *.
  destruct (not_dead_tok _ Ed) as (_ & t & Ht). rewrite Ht in Hs.
  destruct (do_post i w false (Some t) (c_call c) false 0%Z) as [[w1 pr] v] eqn:Ep.
  destruct (round fx false _ _ _ _ _ _ _ _ _ _ Ep) as ([Hwf _]%posted_wf & Hpa).
  destruct v as [e|[eh b]]; [|destruct (parse_main fx false eh b) as [l [e|q]]].
  (* the POST failed, or its answer did not parse: Next reports that and keeps what it held *)
  1,2: injection Hs as <- <- <-; exists [pr]; split; [reflexivity|]; (split; [cbn; now rewrite Hwf|]);
    (split; [apply Forall_cons, Forall_nil; exact (parsed_accounted _ _ _ _ _ _ _ Hpa eq_refl)|]); intros _; cbn;
    now rewrite (failed_undelivered _ _ _ _ _ Hpa), Epd.
  (* it parsed: the loop goes on with what the answer delivered *)
  destruct (IH _ _ _ _ _ _ _ Hs) as (new & Hposts & Hwfs & Hacc & Hres). exists (pr :: new).
  split; [rewrite Hposts, <- app_assoc; reflexivity|]. split; [cbn [forallb]; now rewrite Hwf, Hwfs|]. split.
  { constructor; [apply (parsed_accounted _ _ _ _ _ _ _ Hpa); auto|exact Hacc]. }
  cbn [nl_posts forallb flat_map app]. intros [Hl1%negb_true_iff Hl2]%andb_true_iff.
  rewrite Epd, (parsed_delivered _ _ _ _ Hpa Hl1). exact (Hres Hl2).
Qed.

(* Exchange keeps the stream alive only if the answer parses to one item and a cursor *)
Definition exch_end (out : err + parsed) (c' : cst) (res : result) : Prop :=
  match out with
  | inl e => c_tok c' = None /\ res = RErr e
  | inr q =>
      match pa_items q, pa_tok q with
      | [it], Some t' => c_tok c' = Some t' /\ res = ROk it
      | _, _ => c_tok c' = None /\ res = RErr (ERpc protocol_error)
      end
  end.

Lemma exch_end_cases out c' res : exch_end out c' res ->
  match out with inl e => res = RErr e | inr _ => True end /\
  (c_tok c' = None /\ is_err res = true \/
   exists q t', out = inr q /\ pa_tok q = Some t' /\ c_tok c' = Some t' /\ is_err res = false).
Proof.
  destruct out as [e|q]; cbn [exch_end]; [intros [? ->]; auto|]. split; [exact I|].
  destruct (pa_items q) as [|it [|]], (pa_tok q) as [t'|] eqn:Et; destruct H as [? ->]; eauto 10.
Qed.

(* What one call can do.  The constructors say of a POST what [posted] says, not how
   [do_post] made it: a [do_post] equation would bring [view] and the world's oracle into
   every later case analysis, and none of the clauses needs more than these facts. *)
Inductive stepped (fx : bool) (i : sinput) (w : world) (c : cst) : cop -> world -> cst -> op_rec -> Prop :=
| st_idle op c' r
    (Hp : o_posts r = []) (Htok : c_tok c' = c_tok c) (Hfin : c_fin c = true -> c_fin c' = true)
    (Hcl : c_closed c = true -> c_closed c' = true) (Hok : is_ok (o_res r) = false)
    (Hop : match op with
           | OpExchange _ _ | OpNext => is_err (o_res r) = true /\ c_pend c' = c_pend c
           | OpCancel => c_pend c' = c_pend c
           | OpClose => c_closed c' = true
           end) :
    stepped fx i w c op w c' r
| st_exchange x bad t w' pr l out c' r
    (Hx : i_exchange i = true) (Hcl : c_closed c = false) (Htok : c_tok c = Some t) (Hfin : c_fin c = false)
    (Hpo : posted w false (Some t) false x w' pr) (Hpa : parsed_as fx true pr = (l, out))
    (Hp : o_posts r = [pr]) (Hl : o_logs r = l) (Hend : exch_end out c' (o_res r)) :
    stepped fx i w c (OpExchange x bad) w' c' r
| st_cancel t w' pr l out r
    (Hcl : c_closed c = false) (Htok : c_tok c = Some t) (Hfin : c_fin c = false)
    (Hpo : posted w false (Some t) true 0%Z w' pr) (Hpa : parsed_as fx false pr = (l, out)) (Hp : o_posts r = [pr])
    (Hout : match out with inl e => o_res r = RErr e | inr _ => True end) (Hok : is_ok (o_res r) = false) :
    stepped fx i w c OpCancel w' (poison c) r
| st_next w' c' r
    (Hx : i_exchange i = false) (Hcl : c_closed c = false)
    (Hwf : forallb wf_post (o_posts r) = true) (Hacc : Forall (accounted fx false (o_res r)) (o_posts r))
    (Hres : nl_posts (o_posts r) = true -> refilled c c' (o_res r) (o_posts r)) :
    stepped fx i w c OpNext w' c' r.

Lemma exchange_stepped fx i w c x bad w' c' r :
  exchange_op fx i w c x bad = (w', c', r) -> stepped fx i w c (OpExchange x bad) w' c' r.
Proof.
  unfold exchange_op.
  destruct (c_closed c) eqn:Hcl; [intros [= <- <- <-]; apply st_idle; cbn; auto|].
  destruct (i_exchange i) eqn:Hex; cbn [negb]; [|intros [= <- <- <-]; apply st_idle; cbn; auto].
  destruct (c_fin c || negb (is_some (c_tok c))) eqn:Ed; [intros [= <- <- <-]; apply st_idle; cbn; auto|].
  destruct bad; [intros [= <- <- <-]; apply st_idle; cbn; auto|].
  destruct (not_dead_tok _ Ed) as (Hf & t & Ht). rewrite Ht.
  destruct (do_post i w false (Some t) (c_call c) false x) as [[w1 pr] v] eqn:Ep.
  (* Hpa follows the case analysis below and ends as the value of [parsed_as] on each branch *)
  destruct (round fx true _ _ _ _ _ _ _ _ _ _ Ep) as (Hpo & Hpa). clear Ep. intro Hs.
  destruct v as [e|[eh b]]; [|destruct (parse_main fx true eh b) as [l [e|q]]].
  - injection Hs as <- <- <-. apply (st_exchange _ _ _ _ x false t w1 pr [] (inl e)); cbn; auto.
  - injection Hs as <- <- <-. apply (st_exchange _ _ _ _ x false t w1 pr l (inl e)); cbn; auto.
  - assert (H : w' = w1 /\ o_posts r = [pr] /\ o_logs r = l /\ exch_end (inr q) c' (o_res r))
      by (unfold exch_end; destruct (pa_items q) as [|it [|]], (pa_tok q); injection Hs as <- <- <-; auto 6).
    destruct H as (-> & Hp & Hl & Hend). now apply (st_exchange _ _ _ _ x false t w1 pr l (inr q)).
Qed.

Lemma cancel_stepped fx i w c w' c' r :
  cancel_op fx i w c = (w', c', r) -> stepped fx i w c OpCancel w' c' r.
Proof.
  unfold cancel_op.
  destruct (c_closed c || c_fin c || negb (is_some (c_tok c))) eqn:Ed; [intros [= <- <- <-]; apply st_idle; cbn; auto|].
  apply orb_false_iff in Ed as [[Hcl Hf]%orb_false_iff [t Ht]%negb_false_iff%is_some_true]. rewrite Ht.
  destruct (do_post i w false (Some t) (c_call c) true 0%Z) as [[w1 pr] v] eqn:Ep.
  destruct (round fx false _ _ _ _ _ _ _ _ _ _ Ep) as (Hpo & Hpa). clear Ep. intro Hs.
  destruct v as [e|[eh b]]; [|destruct (parse_main fx false eh b) as [l [e|q]]].
  - injection Hs as <- <- <-. now apply (st_cancel _ _ _ _ t w1 pr [] (inl e)).
  - injection Hs as <- <- <-. now apply (st_cancel _ _ _ _ t w1 pr l (inl e)).
  - destruct (negb (is_nil (pa_items q)) || is_some (pa_tok q)); injection Hs as <- <- <-;
      now apply (st_cancel _ _ _ _ t w1 pr l (inr q)).
Qed.

Lemma step_cases fx i w c op w' c' r : step fx i w c op = (w', c', r) -> stepped fx i w c op w' c' r.
Proof.
  destruct op as [x bad| | |]; cbn [step]; [apply exchange_stepped| |apply cancel_stepped|].
  - unfold next_op. destruct (c_closed c) eqn:Hcl; [intros [= <- <- <-]; apply st_idle; cbn; auto|].
    destruct (i_exchange i) eqn:Hex; [intros [= <- <- <-]; apply st_idle; cbn; auto|].
    intros (new & Hp & Hwf & Hacc & Hres)%next_loop_spec. cbn [app] in Hp. subst new. now apply st_next.
  - intros [= <- <- <-]. apply st_idle; cbn; auto.
Qed.

Lemma stepped_accounted fx i w c op w' c' r : stepped fx i w c op w' c' r ->
  forallb wf_post (o_posts r) = true /\ Forall (accounted fx (i_exchange i) (o_res r)) (o_posts r).
Proof.
  intros [].
  - (* no POST *) rewrite Hp. split; [reflexivity|apply Forall_nil].
  - (* Exchange *)
    rewrite Hp. split; [cbn; now rewrite (proj1 (posted_wf Hpo))|]. apply Forall_cons, Forall_nil.
    apply (parsed_accounted _ _ _ _ _ _ _ Hpa).
    destruct (exch_end_cases _ _ _ Hend) as [Hout [[_ He]|(q & t' & -> & Et & _)]]; [destruct out; auto|rewrite Et; auto].
  - (* Cancel *)
    rewrite Hp. split; [cbn; now rewrite (proj1 (posted_wf Hpo))|]. apply Forall_cons, Forall_nil.
    apply (parsed_accounted _ _ _ _ _ _ _ Hpa). destruct out; [exact Hout|rewrite (po_cancel Hpo); auto].
  - (* Next *) rewrite Hx. now split.
Qed.

(* One client call on an exchange stream either leaves the network alone, or POSTs exactly
   the cursor held; after that the stream holds no cursor, unless the call succeeded and
   then the cursor is one minted by that POST. *)
Variant exch_step (w : world) (c : cst) (op : cop) (w' : world) (c' : cst) (r : op_rec) : Prop :=
| xs_idle (Hp : o_posts r = []) (Hw : w' = w) (Htok : c_tok c' = c_tok c) (Hfin : c_fin c = true -> c_fin c' = true)
    (Hok : is_ok (o_res r) = false)
    (Hop : match op with OpExchange _ _ => is_err (o_res r) = true | _ => True end)
| xs_post t (Htok : c_tok c = Some t) (Hfin : c_fin c = false) (Hp : cursors_of (o_posts r) = [t])
    (Hw : wlen w <= wlen w')
    (Hc' : c_tok c' = None \/ is_err (o_res r) = false /\ exists t', c_tok c' = Some t' /\ wlen w <= t' < wlen w').

Lemma stepped_exch fx i w c op w' c' r :
  i_exchange i = true -> stepped fx i w c op w' c' r -> exch_step w c op w' c' r.
Proof.
  intros Hex [op'| | |].
  - (* no POST *) apply xs_idle; auto. destruct op'; tauto.
  - (* Exchange: the stream keeps a cursor only if the answer brought one *)
    apply (xs_post _ _ _ _ _ _ t Htok Hfin); [rewrite Hp; exact (proj2 (posted_wf Hpo))|exact (po_len Hpo)|].
    destruct (exch_end_cases _ _ _ Hend) as [_ [[Hn _]|(q & t' & -> & Et & Hc' & He)]]; [now left|].
    right. split; [exact He|]. exists t'.
    split; [exact Hc'|exact (po_minted Hpo _ (proj1 (parsed_cases _ _ _ _ _ Hpa) _ Et))].
  - (* Cancel leaves the stream poisoned *)
    apply (xs_post _ _ _ _ _ _ t Htok Hfin); [rewrite Hp; exact (proj2 (posted_wf Hpo))|exact (po_len Hpo)|now left].
  - (* [st_next] is for producer streams *) congruence.
Qed.

Lemma stepped_exch_one fx i w c x bad w' c' r : stepped fx i w c (OpExchange x bad) w' c' r -> exch_one x r = true.
Proof.
  inversion 1; subst; unfold exch_one; rewrite Hp; [reflexivity|].
  rewrite (po_cancel Hpo), (po_x Hpo), Z.eqb_refl. cbn [negb andb].
  destruct (good pr) eqn:Hg; [|reflexivity].
  destruct (good_parsed fx true pr Hg) as (q & Hq & Hit & Htk & _). rewrite Hq in Hpa. injection Hpa as Hl <-.
  rewrite <- Hit, <- Htk, <- Hl. cbn [exch_end] in Hend.
  destruct (pa_items q) as [|it [|]]; try reflexivity. destruct (pa_tok q); [|reflexivity].
  destruct Hend as [_ ->]. cbn [is_some].
  now rewrite (proj2 (result_eqb_eq _ _) eq_refl), (list_eqb_refl _ N.eqb_refl).
Qed.

Inductive ran (fx : bool) (i : sinput) : world -> cst -> list cop -> list op_rec -> Prop :=
| ran_nil w c : ran fx i w c [] []
| ran_cons w c op ops w' c' r rs :
    stepped fx i w c op w' c' r -> ran fx i w' c' ops rs -> ran fx i w c (op :: ops) (r :: rs).

Lemma run_ran fx i : forall ops w c, ran fx i w c ops (run_ops fx i w c ops).
Proof.
  induction ops as [|op ops IH]; intros w c; cbn [run_ops]; [constructor|].
  destruct (step fx i w c op) as [[w' c'] r] eqn:Es. exact (ran_cons _ _ _ _ _ _ _ _ _ _ (step_cases _ _ _ _ _ _ _ _ Es) (IH _ _)).
Qed.

Lemma ran_accounted fx i w c ops rs : ran fx i w c ops rs -> forall r, In r rs ->
  forallb wf_post (o_posts r) = true /\ Forall (accounted fx (i_exchange i) (o_res r)) (o_posts r).
Proof.
  induction 1 as [|? ? ? ? ? ? ? ? Hs _ IH]; [intros r0 []|].
  intros r0 [<-|Hr]; [exact (stepped_accounted _ _ _ _ _ _ _ _ Hs)|exact (IH _ Hr)].
Qed.

Lemma nodupb_NoDup l : nodupb l = true <-> NoDup l.
Proof. exact (nodupb_by_NoDup Nat.eqb Nat.eqb_eq l). Qed.

Definition tok_lt (w : world) (c : cst) : Prop := forall t, c_tok c = Some t -> t < wlen w.

(* the cursors POSTed by any run on an exchange stream: no duplicates, and each is
   the one currently held or one minted later *)
Lemma ran_cursors fx i w c ops rs : i_exchange i = true -> ran fx i w c ops rs -> tok_lt w c ->
  NoDup (posted_cursors rs) /\ forall x, In x (posted_cursors rs) -> c_tok c = Some x \/ wlen w <= x.
Proof.
  intro Hex. induction 1 as [|w c op ops w' c' r rs Hs _ IH]; intro Hlt; [split; [constructor|intros x []]|].
  change (posted_cursors (r :: rs)) with (cursors_of (o_posts r) ++ posted_cursors rs).
  destruct (stepped_exch _ _ _ _ _ _ _ _ Hex Hs) as [-> -> Ht _ _ _|t Ht _ -> Hw Hc'].
  - rewrite <- Ht. apply IH. intro t. rewrite Ht. apply Hlt.
  - assert (Hnew : forall x, c_tok c' = Some x -> wlen w <= x < wlen w').
    { intros x Hx. destruct Hc' as [Hn|(_ & t' & Ht' & Hb)]; [congruence|]. now replace x with t' by congruence. }
    destruct IH as (Hnd & Hin); [intros x Hx; apply (Hnew x Hx)|].
    assert (Hfresh : forall x, In x (posted_cursors rs) -> wlen w <= x).
    { intros x Hx. destruct (Hin x Hx) as [H|H]; [apply (Hnew x H)|lia]. }
    pose proof (Hlt t Ht). split.
    + constructor; [intro Hx; apply Hfresh in Hx; lia|exact Hnd].
    + intros x [<-|Hx]; [left; exact Ht|right; auto].
Qed.

Lemma ran_quiet fx i w c ops rs : i_exchange i = true -> ran fx i w c ops rs -> dead c = true -> quiet ops rs = true.
Proof.
  intro Hex. induction 1 as [|w c op ops w' c' r rs Hs _ IH]; intro Hd; cbn [quiet]; [reflexivity|]. unfold dead in *.
  destruct (stepped_exch _ _ _ _ _ _ _ _ Hex Hs) as [-> _ Ht Hf -> Hop|t Ht Hf _ _ _].
  - rewrite IH; [destruct op; auto; now rewrite Hop|].
    rewrite Ht. destruct (c_fin c); [now rewrite Hf|cbn in Hd; rewrite Hd; apply orb_true_r].
  - rewrite Ht, Hf in Hd. discriminate.
Qed.

Lemma ran_poison fx i w c ops rs : i_exchange i = true -> ran fx i w c ops rs -> poison_ok ops rs = true.
Proof.
  intro Hex. induction 1 as [|w c op ops w' c' r rs Hs Hr IH]; cbn [poison_ok]; [reflexivity|]. rewrite IH, andb_true_r.
  destruct (stepped_exch _ _ _ _ _ _ _ _ Hex Hs) as [-> _ _ _ _ _|t _ _ _ _ [Hn|[-> _]]];
    [reflexivity| |now rewrite andb_false_r].
  destruct (_ && _); [|reflexivity]. apply (ran_quiet _ _ _ _ _ _ Hex Hr). unfold dead. rewrite Hn. apply orb_true_r.
Qed.

Lemma ran_exch fx i w c ops rs : ran fx i w c ops rs -> exch_ok ops rs = true.
Proof.
  induction 1 as [|w c op ops w' c' r rs Hs _ IH]; cbn [exch_ok]; [reflexivity|]. rewrite IH, andb_true_r.
  destruct op; auto. exact (stepped_exch_one _ _ _ _ _ _ _ _ _ Hs).
Qed.

Lemma ran_closed fx i w c ops rs : ran fx i w c ops rs -> c_closed c = true ->
  forallb (fun r => negb (is_ok (o_res r))) rs = true.
Proof.
  induction 1 as [|w c op ops w' c' r rs Hs _ IH]; intro Hc; [reflexivity|]. cbn [forallb].
  destruct Hs; [rewrite Hok; auto|congruence..].
Qed.

Lemma ran_prod fx i w c ops rs : i_exchange i = false -> ran fx i w c ops rs ->
  forallb (fun r => nl_posts (o_posts r)) rs = true -> prod_ok (c_pend c) ops rs = true.
Proof.
  intro Hex. induction 1 as [|w c op ops w' c' r rs Hs Hr IH]; [reflexivity|]. cbn [forallb prod_ok].
  intros [Hnl1 Hnl2]%andb_true_iff. specialize (IH Hnl2).
  destruct Hs as [op' c1 r1|x bad t w1 pr l out c1 r1|t w1 pr l out r1|w1 c1 r1]; [|congruence| |].
  - rewrite Hp, app_nil_r, Hok.
    destruct op'; [destruct Hop as [-> <-]; exact IH | | now rewrite <- Hop | exact (ran_closed _ _ _ _ _ _ Hr Hop)].
    destruct Hop as [He <-]. now destruct (o_res r1).
  - rewrite Hp, Hok. unfold flat_map, delivered. rewrite (po_frames Hpo eq_refl eq_refl).
    destruct (good pr); cbn; rewrite app_nil_r; exact IH.
  - specialize (Hres Hnl1). destruct (o_res r1) as [it| | |e].
    + rewrite Hres. now rewrite (proj2 (item_eqb_eq it it) eq_refl).
    + destruct Hres as [-> Hpd]. cbn. now rewrite <- Hpd.
    + destruct Hres.
    + now rewrite Hres.
Qed.

Definition ready (q : parsed) : bool := is_nil (pa_items q) && is_some (pa_tok q) && pa_call q.

(* openStream is one init POST read like a continuation, plus the demand that an exchange
   stream opens with no data, a cursor and the call token.  The model makes its checks in
   the order of the Go code; all fail alike, so the order does not show. *)
Lemma open_op_eq fx i w :
  open_op fx i w =
  let '(w', pr, v) := do_post i w true None false false 0%Z in
  let '(l, out) := match v with inl e => ([], inl e) | inr (eh, b) => parse_main fx false eh b end in
  match out with
  | inl e => (w', None, mk_op [pr] l (RErr e))
  | inr q =>
      if i_exchange i && negb (ready q) then (w', None, mk_op [pr] l (RErr (ERpc protocol_error)))
      else (w', Some {| c_tok := pa_tok q; c_call := pa_call q; c_fin := negb (is_some (pa_tok q));
                        c_closed := false; c_pend := pa_items q |}, mk_op [pr] l RNil)
  end.
Proof.
  unfold open_op, parse_main, ready.
  destruct (do_post i w true None false false 0%Z) as [[w' pr] [e|[eh b]]]; [reflexivity|].
  destruct (parse_stream fx false b) as [l [e|q]]; [reflexivity|].
  destruct (tail_of b); [| |reflexivity]. (* trailing bytes fail on both sides *)
  all: destruct eh.
  (* the error header: every branch of the two demands fails alike *)
  1, 3: destruct (i_exchange i && negb (is_nil (pa_items q))),
          (i_exchange i && (negb (is_some (pa_tok q)) || negb (pa_call q))); reflexivity.
  (* no error header: the two demands together are [negb (ready q)] *)
  all: destruct (i_exchange i); [|reflexivity];
    destruct (is_nil (pa_items q)), (is_some (pa_tok q)), (pa_call q); reflexivity.
Qed.

Lemma open_ok_parsed fx i pr l out res : parsed_as fx false pr = (l, out) ->
  match out with
  | inl _ => True
  | inr q => i_exchange i && negb (ready q) = false -> res = RNil
  end -> open_ok i (mk_op [pr] l res) = true.
Proof.
  intros Hpa H. unfold open_ok. cbn [o_posts o_res mk_op]. destruct (good pr) eqn:Hg; [|reflexivity].
  destruct (good_parsed fx false pr Hg) as (q & Hq & Hit & Htk & Hca). rewrite Hq in Hpa. injection Hpa as _ <-.
  unfold ready in H. rewrite Hit, Htk, Hca in H.
  destruct (i_exchange i); [destruct (_ && _ && _)|]; try reflexivity; now rewrite H.
Qed.

(* The open call meets its clauses, and the stream it hands over holds a cursor this POST
   minted and, pending, what the answer delivered. *)
Lemma open_meets fx i w oc r : open_op fx i world0 = (w, oc, r) ->
  exists pr, o_posts r = [pr] /\ p_init pr = true /\ p_cur pr = None /\
    accounted fx (i_exchange i) (o_res r) pr /\ open_ok i r = true /\
    match oc with
    | Some c => tok_lt w c /\ o_res r = RNil /\ (nl_posts [pr] = true -> flat_map delivered [pr] = c_pend c)
    | None => is_err (o_res r) = true
    end.
Proof.
  rewrite open_op_eq. destruct (do_post i world0 true None false false 0%Z) as [[w1 pr] v] eqn:Ep.
  destruct (round fx false _ _ _ _ _ _ _ _ _ _ Ep) as ([Hi Hc _ _ _ _ Hm] & <-).
  destruct (parsed_as fx false pr) as [l [e|q]] eqn:Hpa;
    [|destruct (i_exchange i && negb (ready q)) eqn:Hrd]; intros [= <- <- <-]; exists pr;
    (do 3 (split; [assumption || reflexivity|])); cbn [o_res mk_op].
  - split; [exact (parsed_accounted _ _ _ _ _ _ _ Hpa eq_refl)|]. split; [exact (open_ok_parsed _ _ _ _ _ _ Hpa I)|reflexivity].
  - split; [apply (parsed_accounted _ _ _ _ _ _ _ Hpa); auto|]. split; [|reflexivity].
    apply (open_ok_parsed _ _ _ _ _ _ Hpa). congruence.
  - split; [apply (parsed_accounted _ _ _ _ _ _ _ Hpa)|split; [exact (open_ok_parsed _ _ _ _ _ _ Hpa (fun _ => eq_refl))|]].
    + destruct (i_exchange i); [|auto]. do 3 right. unfold ready in Hrd. cbn in Hrd.
      now destruct (is_some (pa_tok q)); [|rewrite andb_false_r in Hrd].
    + split; [|split; [reflexivity|]].
      2:{ cbn. rewrite andb_true_r, app_nil_r. intros Hnl%negb_true_iff. exact (parsed_delivered _ _ _ _ Hpa Hnl). }
      intros t Ht. apply (Hm t (proj1 (parsed_cases _ _ _ _ _ Hpa) _ Ht)).
Qed.

(* The clauses of the specification, for either parser; [m_acc] carries the typed-exception
   and rejection clauses. *)
Set Implicit Arguments.
Record meets (fx : bool) (i : sinput) (r0 : op_rec) (rs : list op_rec) : Prop := {
  m_wf : posts_wf (r0 :: rs) = true;
  m_acc : forall r p, In r (r0 :: rs) -> In p (o_posts r) -> accounted fx (i_exchange i) (o_res r) p;
  m_open : open_ok i r0 = true;
  m_first : is_ok (o_res r0) = false;
  m_stop : is_err (o_res r0) = true -> rs = [];
  m_cursors : i_exchange i = true -> NoDup (posted_cursors (r0 :: rs));
  m_poison : i_exchange i = true -> poison_ok (i_ops i) rs = true;
  m_exch : exch_ok (i_ops i) rs = true;
  m_prod : i_exchange i = false -> no_lossy (r0 :: rs) = true ->
           prod_ok (flat_map delivered (o_posts r0)) (i_ops i) rs = true }.
Unset Implicit Arguments.

Lemma model_meets fx i : exists r0 rs, model_gen fx i = r0 :: rs /\ meets fx i r0 rs.
Proof.
  unfold model_gen. destruct (open_op fx i world0) as [[w oc] r0] eqn:Eo.
  destruct (open_meets _ _ _ _ _ Eo) as (pr & Hpr & Hi & Hc & Hacc0 & Hop & Hoc).
  set (rs := match oc with Some c => run_ops fx i w c (i_ops i) | None => [] end).
  assert (Hr : match oc with Some c => ran fx i w c (i_ops i) rs | None => rs = [] end)
    by (destruct oc; [apply run_ran|reflexivity]).
  clearbody rs. exists r0, rs. split; [reflexivity|].
  assert (Hcur : posted_cursors (r0 :: rs) = posted_cursors rs).
  { unfold posted_cursors. cbn [flat_map]. rewrite Hpr. unfold cursors_of at 1. cbn [flat_map]. now rewrite Hi. }
  assert (Hwf : posts_wf (r0 :: rs) = true).
  { unfold posts_wf. rewrite Hpr, Hi, Hc. destruct oc; [|now subst].
    apply forallb_forall. intros r Hin. exact (proj1 (ran_accounted _ _ _ _ _ _ Hr _ Hin)). }
  assert (Hacc : forall r p, In r (r0 :: rs) -> In p (o_posts r) -> accounted fx (i_exchange i) (o_res r) p).
  { intros r p [<-|Hin]; [rewrite Hpr; now intros [<-|[]]|]. apply Forall_forall.
    destruct oc; [exact (proj2 (ran_accounted _ _ _ _ _ _ Hr _ Hin))|subst; destruct Hin]. }
  destruct oc as [c|].
  - destruct Hoc as (Hlt & Hnil & Hpend). split; auto; rewrite ?Hnil; [reflexivity|discriminate| | | |].
    + intro Hex. rewrite Hcur. exact (proj1 (ran_cursors _ _ _ _ _ _ Hex Hr Hlt)).
    + intro Hex. exact (ran_poison _ _ _ _ _ _ Hex Hr).
    + exact (ran_exch _ _ _ _ _ _ Hr).
    + unfold no_lossy. cbn [forallb]. rewrite Hpr. intros Hex [Hn0 Hn]%andb_true_iff.
      rewrite (Hpend Hn0). exact (ran_prod _ _ _ _ _ _ Hex Hr Hn).
  - subst rs. split; auto; try (destruct (i_ops i); reflexivity); [now destruct (o_res r0)|rewrite Hcur; constructor].
Qed.

Lemma meets_rej fx i r0 rs : meets fx i r0 rs -> reject_ok i (r0 :: rs) = true.
Proof.
  intro M. apply forallb_forall. intros r Hr. apply forallb_forall. intros p Hp.
  exact (proj1 (m_acc M _ Hr Hp)).
Qed.

Lemma meets_typed i r0 rs : meets true i r0 rs -> typed_ok (r0 :: rs) = true.
Proof.
  intro M. apply forallb_forall. intros r Hr. apply forallb_forall. intros p Hp.
  exact (proj2 (m_acc M _ Hr Hp) eq_refl).
Qed.

Lemma smodel_accounted i r p :
  In r (smodel i) -> In p (o_posts r) -> accounted true (i_exchange i) (o_res r) p.
Proof. unfold smodel. destruct (model_meets true i) as (r0 & rs & -> & M). exact (m_acc M (r:=r) p). Qed.

(* a rewritten schema fails the call whatever else the fault did (transport, status, coding, header) *)
Lemma drifted_schema_rejected i r p :
  In r (smodel i) -> In p (o_posts r) -> f_body (p_fault p) = BDrift -> is_err (o_res r) = true.
Proof.
  intros Hr Hp Hb. pose proof (proj1 (smodel_accounted i r p Hr Hp)) as H.
  unfold rej_post, transparent, lossy in H. rewrite Hb, !andb_false_r in H.
  now destruct (is_err (o_res r)).
Qed.

Definition silent (r : op_rec) : Prop := o_posts r = [] /\ is_ok (o_res r) = false.

Lemma quiet_forall : forall ops rs, quiet ops rs = true -> Forall silent rs.
Proof.
  induction ops as [|op ops IH]; intros [|r rs] H; cbn [quiet] in H; try discriminate; constructor.
  - apply andb_true_iff in H as [[[H1 H2%negb_true_iff]%andb_true_iff _]%andb_true_iff _].
    split; [now destruct (o_posts r)|exact H2].
  - apply andb_true_iff in H as [_ H]. auto.
Qed.

Lemma poison_split : forall pre ops r post,
  poison_ok ops (pre ++ r :: post) = true -> o_posts r <> [] -> is_err (o_res r) = true -> Forall silent post.
Proof.
  induction pre as [|r1 pre IH]; intros [|op ops] r post H Hp He; cbn [app poison_ok] in H; try discriminate;
    apply andb_true_iff in H as [H H']; [|eauto].
  rewrite He in H. destruct (o_posts r); [congruence|]. exact (quiet_forall _ _ H).
Qed.

Definition returned (o : sobs) : list item :=
  flat_map (fun r => match o_res r with ROk it => [it] | _ => [] end) o.
Definition all_delivered (o : sobs) : list item := flat_map (fun r => flat_map delivered (o_posts r)) o.

Lemma no_ok_returned rs : forallb (fun r => negb (is_ok (o_res r))) rs = true -> returned rs = [].
Proof.
  induction rs as [|r rs IH]; cbn [forallb]; [reflexivity|]. intros [H1 H2]%andb_true_iff.
  unfold returned. cbn [flat_map]. destruct (o_res r); try discriminate; now apply IH.
Qed.

Lemma prod_prefix : forall ops rs q, prod_ok q ops rs = true ->
  exists rest, q ++ all_delivered rs = returned rs ++ rest.
Proof.
  induction ops as [|op ops IH]; intros [|r rs] q H; try (exists (q ++ all_delivered []); reflexivity);
    try discriminate.
  cbn [prod_ok] in H. unfold all_delivered, returned. cbn [flat_map]. fold (all_delivered rs). fold (returned rs).
  rewrite app_assoc. set (q' := q ++ flat_map delivered (o_posts r)) in *.
  destruct op.
  - apply andb_true_iff in H as [He H]. destruct (o_res r); try discriminate. cbn [app]. eauto.
  - destruct (o_res r) as [it| | |e].
    + destruct q' as [|x t]; [discriminate|]. apply andb_true_iff in H as [->%item_eqb_eq H].
      destruct (IH _ _ H) as [rest Hr]. exists rest. cbn [app]. now rewrite Hr.
    + apply andb_true_iff in H as [Hn H]. destruct q'; [|discriminate]. exact (IH _ _ H).
    + discriminate.
    + cbn [app]. eauto.
  - apply andb_true_iff in H as [He H]. destruct (o_res r); try discriminate; cbn [app]; eauto.
  - apply andb_true_iff in H as [He H]. rewrite (no_ok_returned _ H). destruct (o_res r); try discriminate; cbn [app]; eauto.
Qed.

Definition w_turn (v : Z) : turn := {| t_logs := []; t_act := AEmit; t_val := v; t_meta := [] |}.

(* the client before commit ab71de6 masks an init handler error by a schema-mismatch TypeError *)
Definition w_init_raise : sinput :=
  {| i_exchange := true; i_init_logs := []; i_init := InitRaise (str "ValueError"); i_turns := [];
     i_limit := 0; i_ops := [OpExchange 1%Z false]; i_faults := [] |}.

(* scope: a producer continuation is retried with the same cursor after a failure *)
Definition w_prod_retry : sinput :=
  {| i_exchange := false; i_init_logs := []; i_init := InitOk; i_turns := [w_turn 1; w_turn 2; w_turn 3];
     i_limit := 1; i_ops := [OpNext; OpNext; OpNext];
     i_faults := [no_fault; {| f_net := NetAfter; f_status := 0%Z; f_over := false; f_enc := EncKeep;
                                f_body := BKeep; f_errhdr := false |}] |}.

(* non-vacuity witness: an exchange stream whose second turn is cut short *)
Definition w_exch_fault : sinput :=
  {| i_exchange := true; i_init_logs := [7%N]; i_init := InitOk;
     i_turns := [{| t_logs := [1%N]; t_act := AEmit; t_val := 10%Z; t_meta := [(str "k", str "v")] |}; w_turn 20; w_turn 30];
     i_limit := 0; i_ops := [OpExchange 1%Z false; OpExchange 2%Z false; OpExchange 3%Z false; OpCancel];
     i_faults := [no_fault; no_fault; {| f_net := NetOk; f_status := 0%Z; f_over := false; f_enc := EncKeep;
                                          f_body := BTrunc; f_errhdr := false |}] |}.
