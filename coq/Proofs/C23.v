(* Proofs/C23.v — [status_char]: the mapping from an authenticator error to the response,
   as one equation over the pre-order walk of the error tree; a chain as a fold that stops
   at the first outcome not passed over; [run_list_scripts]: a nested chain runs like the flat
   list of its scripts.  Error trees and chains nest through lists, hence the two
   induction principles at the head. *)
From VR Require Import Model.C23 Lib.Lists.
Open Scope N_scope.

Section AerrInd.
  Variable P : aerr -> Prop.
  Hypothesis HF : forall r d, P (Failure r d).
  Hypothesis HU : forall r, P (Unavailable r).
  Hypothesis HR : forall t m, P (Rpc t m).
  Hypothesis HO : P Other.
  Hypothesis HW : forall e, P e -> P (Wrap e).
  Hypothesis HJ : forall es, Forall P es -> P (Join es).
  Fixpoint aerr_nested_ind (e : aerr) : P e :=
    match e with
    | Failure r d => HF r d
    | Unavailable r => HU r
    | Rpc t m => HR t m
    | Other => HO
    | Wrap e' => HW e' (aerr_nested_ind e')
    | Join es =>
        HJ es ((fix go (l : list aerr) : Forall P l :=
                  match l with
                  | [] => Forall_nil P
                  | x :: t => Forall_cons x (aerr_nested_ind x) (go t)
                  end) es)
    end.
End AerrInd.

Section AuthInd.
  Variable P : auth -> Prop.
  Hypothesis HS : forall o, P (Script o).
  Hypothesis HC : forall l, Forall P l -> P (Chain l).
  Fixpoint auth_nested_ind (a : auth) : P a :=
    match a with
    | Script o => HS o
    | Chain l =>
        HC l ((fix go (l : list auth) : Forall P l :=
                 match l with
                 | [] => Forall_nil P
                 | x :: t => Forall_cons x (auth_nested_ind x) (go t)
                 end) l)
    end.
End AuthInd.

(* an AuthUnavailableError with RetryAfter [r] occurs ANYWHERE in the tree *)
Inductive contains_unavail : aerr -> Z -> Prop :=
| cu_here r : contains_unavail (Unavailable r) r
| cu_wrap e r : contains_unavail e r -> contains_unavail (Wrap e) r
| cu_join es e r : In e es -> contains_unavail e r -> contains_unavail (Join es) r.

(* an AuthFailure occurs anywhere in the tree *)
Inductive contains_failure : aerr -> Prop :=
| cf_here r d : contains_failure (Failure r d)
| cf_wrap e : contains_failure e -> contains_failure (Wrap e)
| cf_join es e : In e es -> contains_failure e -> contains_failure (Join es).

(* [x] is in the Unwrap chain of [e]: reachable through Unwrap() error only *)
Inductive in_unwrap_chain : aerr -> aerr -> Prop :=
| uc_here e : in_unwrap_chain e e
| uc_wrap e x : in_unwrap_chain e x -> in_unwrap_chain (Wrap e) x.

(* "a rejection", with the reason code and detail it has to be reported with *)
Definition rejection (e : aerr) (reason detail : bytes) : Prop :=
  (exists r, in_unwrap_chain e (Failure r detail) /\
             reason = if s_in_set r then r else s_unauthorized)
  \/ (e = Rpc s_permission_error detail /\ reason = s_insufficient_scope)
  \/ (e = Rpc s_value_error detail /\ reason = s_unauthorized).

(* "a directly returned ValueError RpcError" *)
Definition moves_on (o : outcome) : Prop := exists msg, o = Err (Rpc s_value_error msg).

(* The constants regenerated from the code equal the property's literals by computation;
   where a proof needs one spelling for the other it swaps them with [change], or leaves
   a closed test to [reflexivity]. *)
Lemma consts_hdr_reason : c23_hdr_auth_reason = str "VGI-Auth-Reason". Proof. reflexivity. Qed.
Lemma consts_hdr_proxy : c23_hdr_proxy_required = str "VGI-Auth-Proxy-Required". Proof. reflexivity. Qed.
Lemma ve_ne_pe : beqb s_value_error s_permission_error = false. Proof. reflexivity. Qed.

Lemma norm_eq r : norm r = if s_in_set r then r else s_unauthorized.
Proof. reflexivity. Qed.

Lemma s_in_set_In r : s_in_set r = true <-> In r s_closed_set.
Proof. apply existsb_beqb_In. Qed.

Lemma norm_in_set r : s_in_set (norm r) = true.
Proof. rewrite norm_eq. destruct (s_in_set r) eqn:E; [exact E | reflexivity]. Qed.

Lemma retry_after_eq r : retry_after r = if (0 <? r)%Z then r else 5%Z.
Proof. unfold retry_after. now rewrite Z.gtb_ltb. Qed.

Lemma retry_after_pos r : (0 < retry_after r)%Z.
Proof. rewrite retry_after_eq. destruct (0 <? r)%Z eqn:E; lia. Qed.

Lemma hd_error_app {A} (a b : list A) :
  hd_error (a ++ b) = match hd_error a with Some x => Some x | None => hd_error b end.
Proof. destruct a; reflexivity. Qed.

(* errors.As finds the first AuthUnavailableError of the pre-order walk *)
Lemma find_unavail_hd e : find_unavail e = hd_error (s_unavails e).
Proof.
  induction e as [r d|r|t m| |e IH|es IH] using aerr_nested_ind; try reflexivity; [exact IH|].
  cbn [find_unavail s_unavails]. induction IH as [|x t Hx _ IHt]; [reflexivity|].
  cbn [flat_map]. rewrite hd_error_app, <- Hx, <- IHt. reflexivity.
Qed.

Lemma s_unavails_contains e r : In r (s_unavails e) <-> contains_unavail e r.
Proof.
  induction e as [r0 d|r0|t m| |e IH|es IH] using aerr_nested_ind; cbn [s_unavails].
  1, 3, 4: now split; [intros [] | intro H; inversion H].
  - split.
    + intros [H|[]]. subst. constructor.
    + intro H. inversion H; subst. now left.
  - rewrite IH. split; intro H; [now constructor | now inversion H].
  - rewrite in_flat_map. rewrite Forall_forall in IH. split.
    + intros [x [Hin Hx]]. apply (cu_join es x r Hin). now apply IH.
    + intro H. inversion H as [| |es' x r' Hin Hx]; subst. exists x. split; [exact Hin | now apply IH].
Qed.

Lemma no_unavail_nil e : (forall r, ~ contains_unavail e r) -> s_unavails e = [].
Proof.
  intro H. destruct (s_unavails e) as [|r t] eqn:E; [reflexivity|].
  exfalso. apply (H r), s_unavails_contains. rewrite E. now left.
Qed.

(* asAuthFailure: the end of the single-Unwrap chain *)
Lemma find_failure_end e :
  find_failure e = match s_chain_end e with Failure r d => Some (r, d) | _ => None end.
Proof. induction e; cbn [find_failure s_chain_end]; try reflexivity. exact IHe. Qed.

Lemma find_failure_iff e r d : find_failure e = Some (r, d) <-> in_unwrap_chain e (Failure r d).
Proof.
  split.
  - induction e; cbn [find_failure]; try discriminate.
    + intros [= -> ->]. constructor.
    + intro H. constructor. now apply IHe.
  - intro H. remember (Failure r d) as x eqn:Ex. induction H as [e|e x H IH]; subst; [reflexivity|].
    cbn [find_failure]. now apply IH.
Qed.

(* the property's reading of "a rejection", in the terms the code tests:
   asAuthFailure first, then the type of the error value itself *)
Lemma s_rejection_find e :
  s_rejection e =
  match find_failure e with
  | Some (r, d) => Some (norm r, d)
  | None =>
      match e with
      | Rpc ty msg =>
          if beqb ty s_permission_error then Some (s_insufficient_scope, msg)
          else if beqb ty s_value_error then Some (s_unauthorized, msg)
          else None
      | _ => None
      end
  end.
Proof. unfold s_rejection. rewrite find_failure_end. now destruct (s_chain_end e). Qed.

(* The whole mapping at once: the first outage of the walk decides; without one,
   a rejection is a 401 with its own reason and detail; anything else is a 500. *)
Lemma status_char e :
  status_of e =
  match s_unavails e with
  | r0 :: _ => R503 (retry_after r0)
  | [] => match s_rejection e with Some (r, d) => R401 r d | None => R500 end
  end.
Proof.
  unfold status_of, status_with, classify_with. rewrite find_unavail_hd, s_rejection_find.
  destruct (s_unavails e) as [|r0 rest]; [|reflexivity]. cbn [hd_error].
  destruct (find_failure e) as [[r d]|]; cbn [is_some orb].
  - (* writeUnauthorized normalises the normalised reason once more *)
    now rewrite (norm_eq (norm r)), norm_in_set.
  - destruct e as [ | |ty m| | | ]; try reflexivity. unfold direct_reject.
    change ty_value_error with s_value_error. change ty_permission_error with s_permission_error.
    destruct (beqb ty s_permission_error); [now rewrite orb_true_r|]. rewrite orb_false_r.
    now destruct (beqb ty s_value_error).
Qed.

Lemma s_rejection_iff e reason detail :
  s_rejection e = Some (reason, detail) <-> rejection e reason detail.
Proof.
  rewrite s_rejection_find. unfold rejection. split.
  - destruct (find_failure e) as [[r d]|] eqn:Ef.
    + intros [= <- <-]. left. exists r. split; [now apply find_failure_iff | reflexivity].
    + destruct e as [ | |ty m| | | ]; try discriminate.
      destruct (beqb ty s_permission_error) eqn:Ep.
      * apply beqb_eq in Ep. intros [= <- <-]. right; left. now subst.
      * destruct (beqb ty s_value_error) eqn:Ev; [|discriminate].
        apply beqb_eq in Ev. intros [= <- <-]. right; right. now subst.
  - intros [[r [Hc ->]]|[[-> ->]|[-> ->]]]; [|reflexivity..].
    apply find_failure_iff in Hc. now rewrite Hc.
Qed.

Lemma rejection_reason_in_set e reason detail : rejection e reason detail -> In reason s_closed_set.
Proof.
  intros [[r [_ Hr]]|[[_ Hr]|[_ Hr]]]; subst; apply s_in_set_In; try reflexivity.
  destruct (s_in_set r) eqn:E; [exact E | reflexivity].
Qed.

(* Unwrap() error passes no join: the walk finds along the chain what it finds at its end *)
Lemma unwrap_chain_unavails e x : in_unwrap_chain e x -> s_unavails e = s_unavails x.
Proof. induction 1 as [e|e x _ IH]; [reflexivity | exact IH]. Qed.

Lemma rejection_unavails_nil e reason detail : rejection e reason detail -> s_unavails e = [].
Proof.
  intros [[r [Hc _]]|[[-> _]|[-> _]]]; [exact (unwrap_chain_unavails _ _ Hc) | reflexivity..].
Qed.

(* authenticate tests for an outage first; on a rejection that test never applies *)
Lemma rejection_status e reason detail : rejection e reason detail ->
  status_of e = R401 reason detail /\ In reason s_closed_set.
Proof.
  intro Hr. split; [|exact (rejection_reason_in_set e reason detail Hr)].
  rewrite status_char, (rejection_unavails_nil e reason detail Hr).
  apply s_rejection_iff in Hr. now rewrite Hr.
Qed.

Lemma status_503_anywhere e r :
  contains_unavail e r ->
  exists r0, contains_unavail e r0 /\ status_of e = R503 (retry_after r0).
Proof.
  intro H. apply s_unavails_contains in H. rewrite status_char.
  destruct (s_unavails e) as [|r0 rest] eqn:E; [destruct H|].
  exists r0. split; [|reflexivity]. apply s_unavails_contains. rewrite E. now left.
Qed.

(* the pre-fix code let any non-empty reason through *)
Lemma legacy_refuted :
  exists e reason detail, status_legacy e = R401 reason detail /\ ~ In reason s_closed_set.
Proof.
  exists (Failure (str "made_up") []), (str "made_up"), []. split; [reflexivity|].
  intro H. apply s_in_set_In in H. discriminate.
Qed.

Lemma s_moves_on_passes o : s_moves_on o = passes o.
Proof.
  destruct o as [p|e]; [reflexivity|]. unfold passes. destruct e as [r d|r|t m| |e|es]; try reflexivity.
  - destruct (find_unavail (Wrap e)); reflexivity.
  - destruct (find_unavail (Join es)); reflexivity.
Qed.

Lemma passes_iff o : passes o = true <-> moves_on o.
Proof.
  rewrite <- s_moves_on_passes. unfold moves_on. split.
  - destruct o as [p|[ | |t m| | | ]]; try discriminate. cbn [s_moves_on]. intro H.
    apply beqb_eq in H. subst. now exists m.
  - intros [m ->]. reflexivity.
Qed.

Lemma passes_exhausted : passes (Err exhausted) = true. Proof. reflexivity. Qed.

Definition allp (l : list outcome) : bool := forallb passes l.

Lemma allp_Forall l : allp l = true <-> Forall moves_on l.
Proof.
  unfold allp. rewrite forallb_forall, Forall_forall.
  split; intros H x Hx; apply passes_iff, H, Hx.
Qed.

Lemma allp_app a b : allp (a ++ b) = allp a && allp b.
Proof. apply forallb_app. Qed.

Lemma chain_cons o t :
  chain (o :: t) = if passes o then (S (fst (chain t)), snd (chain t)) else (1%nat, o).
Proof. cbn [chain]. destruct (passes o); [|reflexivity]. now destruct (chain t). Qed.

Lemma chain_app_allp l1 l2 :
  allp l1 = true -> chain (l1 ++ l2) = ((length l1 + fst (chain l2))%nat, snd (chain l2)).
Proof.
  induction l1 as [|o t IH]; intro H.
  - cbn [app length Nat.add]. now destruct (chain l2).
  - cbn [allp forallb] in H. apply andb_true_iff in H as [Ho Ht].
    cbn [app]. rewrite chain_cons, Ho, (IH Ht). reflexivity.
Qed.

Lemma chain_allp l : allp l = true -> chain l = (length l, Err exhausted).
Proof.
  intro H. pose proof (chain_app_allp l [] H) as E. rewrite app_nil_r in E.
  rewrite E. cbn [chain fst snd]. now rewrite Nat.add_0_r.
Qed.

Lemma chain_at_stop pre x post :
  allp pre = true -> passes x = false -> chain (pre ++ x :: post) = (S (length pre), x).
Proof.
  intros Hp Hx. rewrite (chain_app_allp _ _ Hp), chain_cons, Hx. cbn [fst snd]. now rewrite Nat.add_1_r.
Qed.

Definition run_list : list auth -> nat -> list nat * origin * outcome :=
  fix go (l : list auth) (base : nat) : list nat * origin * outcome :=
    match l with
    | [] => ([], FromExhausted, Err exhausted)
    | x :: t =>
        let '(tr, og, o) := run x base in
        if passes o then
          let '(tr2, og2, o2) := go t (base + size x)%nat in (tr ++ tr2, og2, o2)
        else (tr, og, o)
    end.

Lemma run_chain l base : run (Chain l) base = run_list l base. Proof. reflexivity. Qed.

Lemma run_list_cons x t base :
  run_list (x :: t) base =
  let '(tr, og, o) := run x base in
  if passes o then
    let '(tr2, og2, o2) := run_list t (base + size x)%nat in (tr ++ tr2, og2, o2)
  else (tr, og, o).
Proof. reflexivity. Qed.

Lemma size_chain_cons x t : size (Chain (x :: t)) = (size x + size (Chain t))%nat.
Proof. reflexivity. Qed.

Lemma scripts_chain_cons x t : s_scripts (Chain (x :: t)) = s_scripts x ++ s_scripts (Chain t).
Proof. reflexivity. Qed.

(* ChainAuthenticate is associative: a chain used as a member runs like its members
   spliced into the outer list *)
Lemma run_list_splice m : forall t base, run_list (Chain m :: t) base = run_list (m ++ t) base.
Proof.
  induction m as [|x m IH]; intros t base; rewrite run_list_cons, run_chain; cbn [app].
  - cbn [run_list size]. rewrite passes_exhausted, Nat.add_0_r.
    now destruct (run_list t base) as [[tr og] o].
  - rewrite !run_list_cons. destruct (run x base) as [[tr og] o]. destruct (passes o) eqn:Ho; [|now rewrite Ho].
    rewrite <- IH, run_list_cons, run_chain, size_chain_cons, Nat.add_assoc.
    destruct (run_list m (base + size x)) as [[tr2 og2] o2]. destruct (passes o2); [|reflexivity].
    destruct (run_list t _) as [[tr3 og3] o3]. now rewrite app_assoc.
Qed.

Lemma run_list_app_cong pre u u' :
  (forall base, run_list u base = run_list u' base) ->
  forall base, run_list (pre ++ u) base = run_list (pre ++ u') base.
Proof.
  intro H. induction pre as [|a pre IH]; intro base; [apply H|]. cbn [app]. rewrite !run_list_cons.
  destruct (run a base) as [[tr og] o]. destruct (passes o); [now rewrite IH | reflexivity].
Qed.

(* ... so every authenticator, in any list, runs like the flat list of its scripts *)
Lemma run_list_scripts a : forall t base,
  run_list (a :: t) base = run_list (map Script (s_scripts a) ++ t) base.
Proof.
  induction a as [o|l IH] using auth_nested_ind; intros t base; [reflexivity|].
  rewrite run_list_splice. revert t base. induction IH as [|x l Hx _ IHl]; intros t base; [reflexivity|].
  rewrite scripts_chain_cons, map_app, <- app_assoc. cbn [app]. rewrite Hx.
  apply run_list_app_cong. intro b. apply IHl.
Qed.

Lemma run_chain_scripts l base : run (Chain l) base = run_list (map Script (s_scripts (Chain l))) base.
Proof.
  pose proof (run_list_scripts (Chain l) [] base) as H. rewrite run_list_splice, !app_nil_r in H. exact H.
Qed.

Lemma run_scripts ss : forall base,
  run_list (map Script ss) base =
    (seq base (fst (chain ss)),
     (if allp ss then FromExhausted else FromScript (base + fst (chain ss) - 1)),
     snd (chain ss)).
Proof.
  induction ss as [|o ss IH]; intro base; [reflexivity|].
  cbn [map]. rewrite run_list_cons, chain_cons. change (allp (o :: ss)) with (passes o && allp ss).
  cbn [run size]. destruct (passes o).
  - rewrite IH. cbn [fst snd seq app andb]. rewrite Nat.add_1_r.
    destruct (allp ss); [reflexivity|]. do 3 f_equal. lia.
  - cbn [fst snd seq andb]. now rewrite Nat.add_sub.
Qed.

Lemma nats_refl l : list_eqb Nat.eqb l l = true. Proof. apply list_eqb_refl, Nat.eqb_refl. Qed.
Lemma bl_refl l : list_eqb beqb l l = true. Proof. apply list_eqb_refl, beqb_refl. Qed.

Lemma respond_proj c tr og o :
  o_built (respond c tr og o) = true /\ o_dtrace (respond c tr og o) = tr
  /\ o_trace (respond c tr og o) = tr /\ o_dres (respond c tr og o) = dres_of og o.
Proof.
  unfold respond. destruct o as [p|e]; [|destruct (status_of e)]; repeat split; reflexivity.
Qed.

(* The status is settled while [s_response_ok] is still folded, so that only the
   branch that applies is ever spelled out. *)
Lemma response_ok_script c tr id o :
  s_response_ok c (FromScript id) o (respond c tr (FromScript id) o) = true.
Proof.
  destruct o as [p|e]; unfold respond.
  - unfold s_response_ok, s_no401. cbn [mk_obs o_status o_reached o_retry o_reason o_proxy o_body].
    now rewrite bl_refl.
  - rewrite status_char. destruct (s_unavails e) as [|r0 rest] eqn:Eu.
    + destruct (s_rejection e) as [[r d]|] eqn:Er; unfold s_response_ok, s_no401; rewrite Eu, Er.
      * (* a rejection: 401 *)
        cbn [mk_obs o_status o_reached o_retry o_reason o_proxy o_body o_cache o_www b_error b_reason b_detail b_hint].
        assert (Hin : s_in_set r = true).
        { apply s_in_set_In, (rejection_reason_in_set e r d), s_rejection_iff, Er. }
        (* what remains are closed tests on the regenerated literals *)
        rewrite Hin, !bl_refl, !beqb_refl, Bool.eqb_reflx. reflexivity.
      * (* neither: 500 *) reflexivity.
    + (* an outage: 503 *)
      unfold s_response_ok, s_no401. rewrite Eu. cbn [mk_obs o_status o_reached o_retry o_reason o_proxy o_body].
      rewrite retry_after_eq. now rewrite (list_eqb_refl _ Z.eqb_refl).
Qed.

Lemma response_ok_exhausted c tr :
  s_response_ok c FromExhausted (Err (Rpc s_value_error [])) (respond c tr FromExhausted (Err exhausted)) = true.
Proof.
  unfold respond. change (status_of exhausted) with (R401 s_unauthorized c23_chain_exhausted_msg).
  unfold s_response_ok.
  cbn [s_unavails mk_obs o_status o_reached o_retry o_reason o_proxy o_body o_cache o_www b_error b_reason b_detail b_hint].
  rewrite !bl_refl, Bool.eqb_reflx. reflexivity.
Qed.

Lemma forallb_moves_allp l : forallb s_moves_on l = allp l.
Proof. apply forallb_ext, s_moves_on_passes. Qed.

Lemma buildable_scripts a : buildable a = true -> s_scripts a <> [].
Proof.
  induction a as [o|l IH] using auth_nested_ind; intro H; [discriminate|].
  destruct l as [|x t]; [discriminate|]. inversion IH as [|x' t' Hx Ht]; subst.
  rewrite scripts_chain_cons. intro E. apply app_eq_nil in E as [E _].
  cbn [buildable andb] in H. apply andb_true_iff in H as [H _]. exact (Hx H E).
Qed.

(* [s_stop] on a trace that ends at a script before which all were passed over *)
Lemma stop_at a pre x post :
  s_scripts a = pre ++ x :: post -> allp pre = true ->
  s_stop a (seq 0 (S (length pre))) =
  if s_moves_on x && s_is_chain a then
    if Nat.eqb (S (length pre)) (length (pre ++ x :: post))
    then Some (FromExhausted, Err (Rpc s_value_error [])) else None
  else Some (FromScript (length pre), x).
Proof.
  intros E Hp. unfold s_stop. rewrite E, seq_length, nats_refl. cbn [negb].
  replace (firstn (length pre) (pre ++ x :: post)) with pre by (symmetry; apply take_app_len).
  rewrite forallb_moves_allp, Hp, nth_error_app2 by apply le_n. now rewrite Nat.sub_diag.
Qed.

Lemma stop_script o : s_stop (Script o) [0%nat] = Some (FromScript 0, o).
Proof.
  pose proof (stop_at (Script o) [] o [] eq_refl eq_refl) as H. cbn [s_is_chain] in H.
  rewrite andb_false_r in H. exact H.
Qed.

Lemma stop_chain l :
  buildable (Chain l) = true ->
  s_stop (Chain l) (seq 0 (fst (chain (s_scripts (Chain l))))) =
  Some (if allp (s_scripts (Chain l)) then (FromExhausted, Err (Rpc s_value_error []))
        else (FromScript (fst (chain (s_scripts (Chain l))) - 1), snd (chain (s_scripts (Chain l))))).
Proof.
  intro Hb. apply buildable_scripts in Hb. destruct (allp (s_scripts (Chain l))) eqn:Ea.
  - (* all were passed over: the trace ends at the last script *)
    destruct (exists_last Hb) as (pre & x & E). rewrite E, allp_app in Ea.
    apply andb_true_iff in Ea as [Hp Hx]. cbn [allp forallb] in Hx. rewrite andb_true_r in Hx.
    rewrite chain_allp by (rewrite E, allp_app, Hp; cbn [allp forallb]; now rewrite Hx).
    cbn [fst]. rewrite E, app_length, Nat.add_1_r, (stop_at _ _ _ _ E Hp).
    now rewrite s_moves_on_passes, Hx, app_length, Nat.add_1_r, Nat.eqb_refl.
  - destruct (forallb_false_split passes _ Ea) as (pre & x & post & E & Hp & Hx).
    rewrite E, (chain_at_stop _ _ _ Hp Hx). cbn [fst snd Nat.sub]. rewrite Nat.sub_0_r, (stop_at _ _ _ _ E Hp).
    now rewrite s_moves_on_passes, Hx.
Qed.

Lemma dres_ok_script id o : s_dres_ok (FromScript id) o (dres_of (FromScript id) o) = true.
Proof. destruct o as [p|e]; cbn [s_dres_ok dres_of]; [apply beqb_refl | apply Nat.eqb_refl]. Qed.

(* what is left of [spec_ok] once the trace has been recognised *)
Lemma spec_ok_respond c a tr og o o' :
  buildable a = true -> s_stop a tr = Some (og, o') ->
  s_dres_ok og o' (dres_of og o) = true -> s_response_ok c og o' (respond c tr og o) = true ->
  spec_ok {| i_cfg := c; i_auth := a |} (respond c tr og o) = true.
Proof.
  intros Hb Hs Hd Hr. unfold spec_ok. cbn [i_auth i_cfg]. rewrite Hb. cbn [negb].
  destruct (respond_proj c tr og o) as [P1 [P2 [P3 P4]]].
  now rewrite P1, P2, P3, P4, nats_refl, Hs, Hd, Hr.
Qed.
