(* Part 1, any correct AEAD: [resolve_some] reads resolveCall backwards, [cont_cases] lists the
   three kinds of exit of handleStreamExchange, [run_turn_eq] gives the turn field by field.
   Part 2, the symbolic AEAD: [inv] says that every minted token and every cache entry of a
   call carries what /init of the call's method sealed. [cont_hist_cases] is [cont_cases] read
   through [inv]: a continuation of a history refuses, or runs the turn on a cursor the route's
   own method minted, and what it stores is that call's entry. The property's clause for the
   response and the invariant afterwards are read off it; [step_inv] puts the operations
   together, and both inductions over a history ([spec_run_model], [reach_inv]) rest on it. *)
From VR Require Import Model.C14 Lib.Lists.
Open Scope N_scope.

Section Generic.
  Variable CT : Type.
  Variable seal : N -> bytes -> payload -> CT.
  Variable open : bytes -> CT -> option payload.
  Hypothesis open_seal : forall n a p, open a (seal n a p) = Some p.

  (* suffix G: over the section's AEAD; the S twins after the section are over the symbolic one *)
  Notation mintG := (mint CT seal).
  Notation openG := (open_slot CT open).
  Notation contG := (continue_dec CT open).

  Lemma open_slot_mint n p : openG (pl_kind p) (mintG n p) = Some p.
  Proof.
    unfold open_slot, mint; cbn [t_ver t_ct]. rewrite N.eqb_refl, open_seal. now destruct (pl_kind p).
  Qed.

  Lemma open_cursor_mint n c s : openG KCursor (mintG n (PCursor c s)) = Some (PCursor c s).
  Proof. exact (open_slot_mint n (PCursor c s)). Qed.
  Lemma open_call_mint n c r : openG KCall (mintG n (PCall c r)) = Some (PCall c r).
  Proof. exact (open_slot_mint n (PCall c r)). Qed.

  Lemma reenvelope_own n p : reenvelope CT (pl_kind p) (mintG n p) = mintG n p.
  Proof. reflexivity. Qed.

  Definition cache_names (on : bool) (ch : cache) (c : N) (name : bytes) : Prop :=
    forall r, on = true -> cache_get c ch = Some r -> r_meth r = name.
  Definition slot_names (tk : option (token CT)) (c : N) (name : bytes) : Prop :=
    forall t r, tk = Some t -> openG KCall t = Some (PCall c r) -> r_meth r = name.

  (* resolveCall, read backwards: what it hands back is an entry of the enabled cache, or,
     on the miss path, what the call token in the slot says about call c; only the latter
     is stored *)
  Lemma resolve_some on ch c tk call stored :
    resolve_dec CT open on ch c tk = Some (call, stored) ->
    if stored then exists t, tk = Some t /\ openG KCall t = Some (PCall c call)
    else on = true /\ cache_get c ch = Some call.
  Proof.
    unfold resolve_dec. destruct (if on then cache_get c ch else None) as [r|] eqn:Eg.
    - intros [= <- <-]. destruct on; [split; [reflexivity | exact Eg] | discriminate].
    - destruct tk as [t|]; [|discriminate].
      destruct (openG KCall t) as [[? ?|c' r]|] eqn:Eo; try discriminate.
      destruct (c' =? c) eqn:Ec; [|discriminate]. apply N.eqb_eq in Ec; subst c'.
      intros [= <- <-]. exists t. auto.
  Qed.

  Lemma resolve_names on ch c tk name call stored :
    cache_names on ch c name -> slot_names tk c name ->
    resolve_dec CT open on ch c tk = Some (call, stored) -> r_meth call = name.
  Proof.
    intros Hc Hs H. apply resolve_some in H. destruct stored.
    - destruct H as (t & Ht & Ho). exact (Hs t call Ht Ho).
    - destruct H as [Hon Hg]. exact (Hc call Hon Hg).
  Qed.

  Lemma resolve_hit_or_stored on ch c tk call stored :
    resolve_dec CT open on ch c tk = Some (call, stored) ->
    (stored = false /\ on = true /\ cache_get c ch = Some call) \/ stored = true.
  Proof. intros H. apply resolve_some in H. destruct stored; [right; reflexivity | left; tauto]. Qed.

  (* handleStreamExchange has three kinds of exit: a refusal before the call is resolved
     (nothing stored, nothing touched); and, once the route is registered, the input cast
     passed, the cursor slot opened as the cursor (c, s) and resolveCall answered: a refusal
     (method or state type do not fit), or the turn *)
  Variant exit_case reg route b cancel rfail on ch tc tk (out : outcome) : Prop :=
  | XEarly exc :
      out = refuse (match lookup reg route with Some _ => 400 | None => 404 end) exc None None ->
      exc = match lookup reg route with
            | None => c14_exc_not_implemented
            | Some info => if cast_blocks info b cancel then c14_exc_cast else exc_runtime_error
            end ->
      exit_case reg route b cancel rfail on ch tc tk out
  | XResolved info tcur c s call (stored : bool) :
      lookup reg route = Some info -> cast_blocks info b cancel = false ->
      tc = Some tcur -> openG KCursor tcur = Some (PCursor c s) ->
      resolve_dec CT open on ch c tk = Some (call, stored) ->
      (let put := if stored then Some (c, call) else None in
       let tch := if stored then None else Some c in
       out = refuse 400 exc_runtime_error put tch
       \/ r_meth call = m_name info /\ state_fits (m_mode info) (st_ty s) = true
          /\ out = run_turn route info c s cancel rfail put tch) ->
      exit_case reg route b cancel rfail on ch tc tk out.

  Lemma cont_cases reg route b cancel rfail on ch tc tk :
    exit_case reg route b cancel rfail on ch tc tk (contG reg route b cancel rfail on ch tc tk).
  Proof.
    unfold continue_dec.
    (* the failing side of each of the first five checks is an early exit *)
    destruct (lookup reg route) as [info|] eqn:El; [|eapply XEarly; rewrite El; reflexivity].
    destruct (cast_blocks info b cancel) eqn:Ecast; [eapply XEarly; rewrite El, ?Ecast; reflexivity|].
    destruct tc as [tcur|]; [|eapply XEarly; rewrite El, ?Ecast; reflexivity].
    destruct (openG KCursor tcur) as [[c s|? ?]|] eqn:Eo; [|eapply XEarly; rewrite El, ?Ecast; reflexivity..].
    destruct (resolve_dec CT open on ch c tk) as [[call stored]|] eqn:Er; [|eapply XEarly; rewrite El, ?Ecast; reflexivity].
    apply (XResolved _ _ _ _ _ _ _ _ _ _ info tcur c s call stored El Ecast eq_refl Eo Er). cbv zeta.
    destruct (beqb (r_meth call) (m_name info)) eqn:Em; [|now left].
    destruct (state_fits (m_mode info) (st_ty s)); [|now left].
    apply beqb_eq in Em. auto.
  Qed.

  Definition turn_trace (route : nat) (info : method) (s : state) (cancel : bool) : list act :=
    [ARehyd (ty_id (st_ty s)) route; AHook route cancel] ++
    (if cancel then (if ty_canc (st_ty s) then [ACancel (st_pos s)] else [])
     else [if is_producer (m_mode info) (st_ty s) then AProduce (st_pos s) else AExchange (st_pos s)]).

  Lemma run_turn_eq route info c s cancel rfail put tch :
    run_turn route info c s cancel rfail put tch
    = {| o_res := if rfail then R 500 exc_runtime_error false [ARehyd (ty_id (st_ty s)) route] false
                  else R 200 [] false (turn_trace route info s cancel) (negb cancel);
         o_put := put; o_touch := tch;
         o_next := if rfail || cancel then None
                   else Some (c, {| st_ty := st_ty s; st_pos := st_pos s + 1 |}) |}.
  Proof. unfold run_turn, turn_trace. destruct rfail, cancel; reflexivity. Qed.

  Lemma tags_turn_trace route info s cancel st exc tok :
    tags_ok route (R st exc false (turn_trace route info s cancel) tok) = true.
  Proof.
    unfold tags_ok, turn_trace. cbn [r_trace app forallb]. rewrite Nat.eqb_refl.
    now destruct cancel, (ty_canc (st_ty s)), (is_producer (m_mode info) (st_ty s)).
  Qed.

  Lemma own_tokens_one_turn reg route info c s n n' r b cancel on ch :
    lookup reg route = Some info ->
    r_meth r = m_name info -> state_fits (m_mode info) (st_ty s) = true ->
    cache_names on ch c (m_name info) ->
    cast_blocks info b cancel = false ->
    let out := contG reg route b cancel false on ch
                 (Some (mintG n (PCursor c s))) (Some (mintG n' (PCall c r))) in
    o_res out = R 200 [] false (turn_trace route info s cancel) (negb cancel)
    /\ o_next out = (if cancel then None else Some (c, {| st_ty := st_ty s; st_pos := st_pos s + 1 |})).
  Proof.
    intros Hl Hr Hf Hc Hcast out. subst out. unfold continue_dec. rewrite Hl, Hcast, open_cursor_mint.
    assert (Hres : exists call stored, resolve_dec CT open on ch c (Some (mintG n' (PCall c r))) = Some (call, stored)
                   /\ r_meth call = m_name info).
    { unfold resolve_dec. destruct (if on then cache_get c ch else None) as [r0|] eqn:Eg.
      - exists r0, false. split; [reflexivity|]. destruct on; [exact (Hc r0 eq_refl Eg) | discriminate].
      - rewrite open_call_mint, N.eqb_refl. eauto. }
    destruct Hres as (call & stored & -> & Hn).
    rewrite Hn, beqb_refl, Hf. cbn [negb]. unfold run_turn, turn_trace.
    destruct cancel; split; reflexivity.
  Qed.

End Generic.

Notation tokS := (token sym_ct).
Notation mintS := (mint sym_ct sym_seal).
Notation openS := (open_slot sym_ct sym_open).
Notation contS := (continue_dec sym_ct sym_open).
Notation stS := (st sym_ct).

Lemma sym_open_seal n a p : sym_open a (sym_seal n a p) = Some p.
Proof. unfold sym_open, sym_seal. now rewrite beqb_refl. Qed.

(* the constants are regenerated from the Go code: the version byte separates the two
   kinds, and so does the associated data *)
Lemma kinds_separate k k' :
  (version_of k =? version_of k') = kind_eqb k k' /\ beqb (aad_of k) (aad_of k') = kind_eqb k k'.
Proof. destruct k, k'; vm_compute; split; reflexivity. Qed.

Lemma openS_env slot (re : bool) n p :
  openS slot (if re then reenvelope sym_ct slot (mintS n p) else mintS n p)
  = if kind_eqb (pl_kind p) slot then Some p else None.
Proof.
  unfold open_slot, reenvelope, mint, sym_seal, sym_open.
  destruct re; cbn [t_ver t_ct];
    rewrite ?N.eqb_refl, ?(proj1 (kinds_separate _ _)), (proj2 (kinds_separate _ _));
    destruct p, slot; reflexivity.
Qed.

Variant pay_ok (reg : registry) : payload -> prov -> Prop :=
| PayCursor c s m info :
    lookup reg m = Some info -> st_ty s = m_sty info -> pay_ok reg (PCursor c s) (KCursor, m, c)
| PayCall c m info :
    lookup reg m = Some info -> pay_ok reg (PCall c (resolved_for info c)) (KCall, m, c).
Definition wf_tok (reg : registry) (t : tokS) (pv : prov) : Prop :=
  exists n p, t = mintS n p /\ pay_ok reg p pv.
Definition toks_ok (reg : registry) (toks : list tokS) (ptoks : list prov) (nc : N) : Prop :=
  Forall2 (wf_tok reg) toks ptoks
  /\ (forall k m c, In (k, m, c) ptoks -> c < nc)
  /\ (forall k m c k' m', In (k, m, c) ptoks -> In (k', m', c) ptoks -> m = m').
(* r is the fixed half that /init sealed for call c (so it names the method that minted c) *)
Definition minted (reg : registry) (ptoks : list prov) (c : N) (r : resolved) : Prop :=
  exists k m info, In (k, m, c) ptoks /\ lookup reg m = Some info /\ r = resolved_for info c.
Definition cache_ok (reg : registry) (ch : cache) (ptoks : list prov) : Prop :=
  forall c r, cache_get c ch = Some r -> minted reg ptoks c r.
(* the third conjunct is kept only for [reachable_cache_entries_are_the_minted_calls]; the
   first two are preserved without it *)
Definition inv (reg : registry) (s : stS) (ptoks : list prov) : Prop :=
  toks_ok reg (s_toks _ s) ptoks (s_ncalls _ s)
  /\ (forall i, cache_ok reg (ch_of _ s i) ptoks)
  /\ (forall i, (length (ch_of _ s i) <= cap_of _ s i)%nat).

Lemma get_remove_key c c0 ch :
  cache_get c0 (remove_key c ch) = if c =? c0 then None else cache_get c0 ch.
Proof.
  induction ch as [|[c' r] t IH]; cbn [remove_key cache_get]; [now destruct (c =? c0)|].
  destruct (c' =? c) eqn:E1.
  - apply N.eqb_eq in E1; subst c'. rewrite IH. destruct (c =? c0); reflexivity.
  - cbn [cache_get]. rewrite IH. destruct (c' =? c0) eqn:E2; [|reflexivity].
    apply N.eqb_eq in E2; subst c'. rewrite N.eqb_sym in E1. now rewrite E1.
Qed.

Lemma get_firstn n c ch r : cache_get c (firstn n ch) = Some r -> cache_get c ch = Some r.
Proof.
  revert ch; induction n as [|n IH]; intros [|[c' r'] t]; cbn [firstn cache_get]; try discriminate.
  destruct (c' =? c); auto.
Qed.

Lemma get_put cap c r ch c0 r0 :
  cache_get c0 (cache_put cap c r ch) = Some r0 ->
  (c0 = c /\ r0 = r) \/ (c0 <> c /\ cache_get c0 ch = Some r0).
Proof.
  unfold cache_put. intros H. apply get_firstn in H. cbn [cache_get] in H.
  destruct (c =? c0) eqn:E.
  - apply N.eqb_eq in E; subst. inversion H; auto.
  - rewrite get_remove_key, E in H. apply N.eqb_neq in E. right; split; auto.
Qed.

Lemma get_touch c ch c0 : cache_get c0 (touch c ch) = cache_get c0 ch.
Proof.
  unfold touch. destruct (cache_get c ch) as [r|] eqn:E; [|reflexivity].
  cbn [cache_get]. destruct (c =? c0) eqn:E0.
  - apply N.eqb_eq in E0; subst. now rewrite E.
  - now rewrite get_remove_key, E0.
Qed.

Lemma length_remove_key c ch : (length (remove_key c ch) <= length ch)%nat.
Proof.
  induction ch as [|[c' r] t IH]; cbn [remove_key length]; [lia|].
  destruct (c' =? c); cbn [length]; lia.
Qed.
Lemma length_remove_key_hit c ch r :
  cache_get c ch = Some r -> (S (length (remove_key c ch)) <= length ch)%nat.
Proof.
  induction ch as [|[c' r'] t IH]; cbn [remove_key cache_get length]; [discriminate|].
  destruct (c' =? c); intros H.
  - pose proof (length_remove_key c t). lia.
  - cbn [length]. specialize (IH H). lia.
Qed.
Lemma length_touch c ch : (length (touch c ch) <= length ch)%nat.
Proof.
  unfold touch. destruct (cache_get c ch) as [r|] eqn:E; [|lia].
  cbn [length]. eapply length_remove_key_hit; eauto.
Qed.
Lemma length_put cap c r ch : (length (cache_put cap c r ch) <= cap)%nat.
Proof. unfold cache_put. rewrite firstn_length. lia. Qed.

Lemma cache_ok_nil reg ptoks : cache_ok reg [] ptoks.
Proof. intros c r H; discriminate. Qed.
Lemma cache_ok_app reg ch ptoks more : cache_ok reg ch ptoks -> cache_ok reg ch (ptoks ++ more).
Proof.
  intros H c r Hg. destruct (H c r Hg) as (k & m & info & Hin & Hl & Hn).
  exists k, m, info. split; [apply in_or_app; auto | auto].
Qed.
Lemma cache_ok_put reg cap ch ptoks c r :
  cache_ok reg ch ptoks -> minted reg ptoks c r -> cache_ok reg (cache_put cap c r ch) ptoks.
Proof.
  intros H Hm c0 r0 Hg. apply get_put in Hg as [[-> ->] | [_ Hg]]; [exact Hm | exact (H _ _ Hg)].
Qed.
Lemma cache_ok_touch reg ch ptoks c : cache_ok reg ch ptoks -> cache_ok reg (touch c ch) ptoks.
Proof. intros H c0 r0. rewrite get_touch. apply H. Qed.

Lemma toks_set_cache (s : stS) i cap ch : s_toks _ (set_cache _ s i cap ch) = s_toks _ s.
Proof. destruct i; reflexivity. Qed.
Lemma ncalls_set_cache (s : stS) i cap ch : s_ncalls _ (set_cache _ s i cap ch) = s_ncalls _ s.
Proof. destruct i; reflexivity. Qed.
Lemma ch_set_cache (s : stS) i cap ch j :
  ch_of _ (set_cache _ s i cap ch) j = if Bool.eqb i j then ch else ch_of _ s j.
Proof. destruct i, j; reflexivity. Qed.
Lemma cap_set_cache (s : stS) i cap ch j :
  cap_of _ (set_cache _ s i cap ch) j = if Bool.eqb i j then cap else cap_of _ s j.
Proof. destruct i, j; reflexivity. Qed.
Lemma toks_store (s : stS) i p : s_toks _ (store _ s i p) = s_toks _ s.
Proof. unfold store. destruct p as [[c r]|]; [apply toks_set_cache|reflexivity]. Qed.
Lemma ncalls_store (s : stS) i p : s_ncalls _ (store _ s i p) = s_ncalls _ s.
Proof. unfold store. destruct p as [[c r]|]; [apply ncalls_set_cache|reflexivity]. Qed.
Lemma toks_touched (s : stS) i t : s_toks _ (touched _ s i t) = s_toks _ s.
Proof. unfold touched. destruct t; [apply toks_set_cache|reflexivity]. Qed.
Lemma ncalls_touched (s : stS) i t : s_ncalls _ (touched _ s i t) = s_ncalls _ s.
Proof. unfold touched. destruct t; [apply ncalls_set_cache|reflexivity]. Qed.
Lemma ch_add_toks (s : stS) ts a b j : ch_of _ (add_toks _ s ts a b) j = ch_of _ s j.
Proof. destruct j; reflexivity. Qed.
Lemma cap_add_toks (s : stS) ts a b j : cap_of _ (add_toks _ s ts a b) j = cap_of _ s j.
Proof. destruct j; reflexivity. Qed.

Lemma inv_set_cache reg s ptoks i cap ch :
  inv reg s ptoks -> cache_ok reg ch ptoks -> (length ch <= cap)%nat ->
  inv reg (set_cache _ s i cap ch) ptoks.
Proof.
  intros (Ht & Hc & Hl) Hch Hlen. split; [|split].
  - now rewrite toks_set_cache, ncalls_set_cache.
  - intros j. rewrite ch_set_cache. destruct (Bool.eqb i j); auto.
  - intros j. rewrite ch_set_cache, cap_set_cache. destruct (Bool.eqb i j); auto.
Qed.

Lemma inv_empty_cache reg s ptoks i cap : inv reg s ptoks -> inv reg (set_cache _ s i cap []) ptoks.
Proof. intros H. apply inv_set_cache; [exact H | apply cache_ok_nil | cbn; lia]. Qed.

Lemma inv_store reg s ptoks i c r :
  inv reg s ptoks -> minted reg ptoks c r -> inv reg (store _ s i (Some (c, r))) ptoks.
Proof.
  intros Hi Hm. unfold store.
  apply inv_set_cache; [exact Hi | | apply length_put]. destruct Hi as (_ & Hc & _). now apply cache_ok_put.
Qed.

Lemma inv_touched reg s ptoks i t : inv reg s ptoks -> inv reg (touched _ s i t) ptoks.
Proof.
  intros Hi. unfold touched. destruct t as [c|]; [|exact Hi].
  pose proof Hi as (_ & Hc & Hl).
  apply inv_set_cache; [exact Hi | apply cache_ok_touch, Hc |].
  etransitivity; [apply length_touch | apply Hl].
Qed.

(* the tokens of one call, added by its one minter *)
Lemma inv_add reg s ptoks ts ks m c dc dn :
  inv reg s ptoks -> Forall2 (wf_tok reg) ts (map (fun k => (k, m, c)) ks) ->
  c < s_ncalls _ s + dc -> (forall k' m', In (k', m', c) ptoks -> m' = m) ->
  inv reg (add_toks _ s ts dc dn) (ptoks ++ map (fun k => (k, m, c)) ks).
Proof.
  intros ((Hf & Hfr & Hown) & Hc & Hlen) Hts Hlt Hm.
  assert (Hnew : forall k0 m0 c0, In (k0, m0, c0) (map (fun k => (k, m, c)) ks) -> m0 = m /\ c0 = c)
    by (intros k0 m0 c0 H; apply in_map_iff in H as (k1 & [= _ <- <-] & _); auto).
  split; [split; [|split]|split].
  - cbn [add_toks s_toks]. apply Forall2_app; assumption.
  - cbn [add_toks s_ncalls]. intros k0 m0 c0 Hin. apply in_app_or in Hin as [Hin|Hin].
    + specialize (Hfr _ _ _ Hin). lia.
    + now destruct (Hnew _ _ _ Hin) as [_ ->].
  - intros k1 m1 c1 k2 m2 H1 H2. apply in_app_or in H1 as [H1|H1], H2 as [H2|H2].
    + eauto.
    + destruct (Hnew _ _ _ H2) as [-> ->]. eauto.
    + destruct (Hnew _ _ _ H1) as [-> ->]. symmetry. eauto.
    + destruct (Hnew _ _ _ H1) as [-> _], (Hnew _ _ _ H2) as [-> _]. reflexivity.
  - intros j. rewrite ch_add_toks. apply cache_ok_app, Hc.
  - intros j. rewrite ch_add_toks, cap_add_toks. apply Hlen.
Qed.

Lemma deref_some reg (s : stS) ptoks slot id re pv :
  Forall2 (wf_tok reg) (s_toks _ s) ptoks -> nth_error ptoks id = Some pv ->
  exists n p, pay_ok reg p pv /\
    deref _ s slot (TTok id re) = Some (if re then reenvelope _ slot (mintS n p) else mintS n p).
Proof.
  intros Hf Hn. pose proof (Forall2_nth _ _ _ Hf id) as H. rewrite Hn in H. cbn [deref].
  destruct (nth_error (s_toks _ s) id) as [t|]; [|contradiction].
  destruct H as (n & p & -> & Hp). eauto.
Qed.

Lemma deref_none reg (s : stS) ptoks slot r :
  Forall2 (wf_tok reg) (s_toks _ s) ptoks -> pderef ptoks r = None -> deref _ s slot r = None.
Proof.
  intros Hf. destruct r as [|id re]; [reflexivity|]. cbn [pderef deref]. intros Hn.
  pose proof (Forall2_nth _ _ _ Hf id) as H. rewrite Hn in H.
  now destruct (nth_error (s_toks _ s) id).
Qed.

Lemma slot_opens reg (s : stS) ptoks slot r t p :
  Forall2 (wf_tok reg) (s_toks _ s) ptoks ->
  deref _ s slot r = Some t -> openS slot t = Some p ->
  exists pv, pderef ptoks r = Some pv /\ In pv ptoks /\ pay_ok reg p pv.
Proof.
  intros Hf Hd Ho. destruct r as [|id re]; [discriminate|].
  destruct (pderef ptoks (TTok id re)) as [pv|] eqn:Ep.
  - cbn [pderef] in Ep. destruct (deref_some reg s ptoks slot id re pv Hf Ep) as (n & p' & Hp & Hd').
    rewrite Hd' in Hd. injection Hd as <-. rewrite openS_env in Ho.
    destruct (kind_eqb (pl_kind p') slot); [|discriminate]. injection Ho as <-.
    exists pv. repeat split; auto. eapply nth_error_In; eauto.
  - rewrite (deref_none reg s ptoks slot _ Hf Ep) in Hd. discriminate.
Qed.

Lemma call_slot_opens reg (s : stS) ptoks call t c r :
  Forall2 (wf_tok reg) (s_toks _ s) ptoks ->
  deref _ s KCall call = Some t -> openS KCall t = Some (PCall c r) ->
  minted reg ptoks c r.
Proof.
  intros Hf Hd Ho.
  destruct (slot_opens reg s ptoks _ _ _ _ Hf Hd Ho) as (pv & _ & Hin & Hpay).
  inversion Hpay; subst. exists KCall, m, info. auto.
Qed.

(* a call has one minter, so what /init sealed for it is what that method seals *)
Lemma minted_by reg toks ptoks nc c r k m info :
  toks_ok reg toks ptoks nc -> minted reg ptoks c r -> In (k, m, c) ptoks -> lookup reg m = Some info ->
  r = resolved_for info c.
Proof.
  intros (_ & _ & Hown) (k2 & m2 & info2 & Hin2 & Hl2 & ->) Hin Hl.
  rewrite (Hown _ _ _ _ _ Hin2 Hin) in Hl2. congruence.
Qed.

Lemma inv_cache_names reg s ptoks i k m c info :
  inv reg s ptoks -> In (k, m, c) ptoks -> lookup reg m = Some info ->
  cache_names (on_of _ s i) (ch_of _ s i) c (m_name info).
Proof.
  intros (Ht & Hc & _) Hin Hl r _ Hg. now rewrite (minted_by _ _ _ _ _ _ _ _ _ Ht (Hc i c r Hg) Hin Hl).
Qed.

Lemma inv_slot_names reg s ptoks call k m c info :
  inv reg s ptoks -> In (k, m, c) ptoks -> lookup reg m = Some info ->
  slot_names sym_ct sym_open (deref _ s KCall call) c (m_name info).
Proof.
  intros (Ht & _) Hin Hl t r Hd Ho.
  now rewrite (minted_by _ _ _ _ _ _ _ _ _ Ht (call_slot_opens reg s ptoks call t c r (proj1 Ht) Hd Ho) Hin Hl).
Qed.

(* in a state of a history, a request that got as far as resolving the call presents a cursor
   some method m minted, and what resolveCall answered (from the cache or from the call-token
   slot) is what /init of m sealed for that call: a call has one minter *)
Lemma resolved_own reg s ptoks i cur call tcur c s0 call0 stored :
  inv reg s ptoks ->
  deref _ s KCursor cur = Some tcur -> openS KCursor tcur = Some (PCursor c s0) ->
  resolve_dec sym_ct sym_open (on_of _ s i) (ch_of _ s i) c (deref _ s KCall call) = Some (call0, stored) ->
  exists m info, pderef ptoks cur = Some (KCursor, m, c) /\ In (KCursor, m, c) ptoks
    /\ lookup reg m = Some info /\ st_ty s0 = m_sty info /\ call0 = resolved_for info c.
Proof.
  intros (Ht & Hc & _) Hd Ho Er. pose proof Ht as (Hf & _).
  destruct (slot_opens reg s ptoks _ _ _ _ Hf Hd Ho) as (pv & Hp & Hin & Hpay).
  inversion Hpay as [? ? m info Hl Hs|]; subst pv. exists m, info. repeat split; auto.
  eapply minted_by; [exact Ht | | exact Hin | exact Hl].
  apply resolve_some in Er. destruct stored.
  - destruct Er as (t & Hk & Hok). exact (call_slot_opens reg s ptoks call t c call0 Hf Hk Hok).
  - exact (Hc i c call0 (proj2 Er)).
Qed.

Lemma names_distinct_inj reg : names_distinct reg = true ->
  forall i j a b, nth_error reg i = Some a -> nth_error reg j = Some b -> m_name a = m_name b -> i = j.
Proof.
  induction reg as [|m t IH]; intros Hd i j a b Hi Hj He; [destruct i; discriminate|].
  cbn [names_distinct] in Hd. apply andb_true_iff in Hd as [Hn Ht].
  (* the head's name occurs nowhere in the tail *)
  assert (Hhd : forall k x, nth_error t k = Some x -> m_name m <> m_name x).
  { intros k x Hk E. apply nth_error_In in Hk. apply negb_true_iff, not_true_iff_false in Hn.
    apply Hn, existsb_exists. exists x. split; [exact Hk | now apply beqb_eq]. }
  destruct i as [|i], j as [|j]; cbn [nth_error] in Hi, Hj.
  - reflexivity.
  - injection Hi as <-. now destruct (Hhd j b Hj).
  - injection Hj as <-. symmetry in He. now destruct (Hhd i a Hi).
  - f_equal. eapply IH; eauto.
Qed.

Lemma reg_ok_names reg i j a b : reg_ok reg = true -> lookup reg i = Some a -> lookup reg j = Some b ->
  m_name a = m_name b -> i = j.
Proof.
  unfold reg_ok. intros H. apply andb_true_iff in H as [H _]. exact (names_distinct_inj reg H i j a b).
Qed.

(* what a continuation of a history can do: refuse before the call is resolved; or, its cursor
   being one that method m minted for call c, refuse, or (names are distinct: m is the route)
   run the turn; what it stores or touches in the cache is c's entry as /init sealed it *)
Variant hist_case (reg : registry) (ptoks : list prov) (route : nat) (cur : tokref)
        (cancel rfail : bool) (out : outcome) : Prop :=
| HEarly exc :
    out = refuse (match lookup reg route with Some _ => 400 | None => 404 end) exc None None ->
    hist_case reg ptoks route cur cancel rfail out
| HResolved m c info s0 (stored : bool) :
    pderef ptoks cur = Some (KCursor, m, c) -> In (KCursor, m, c) ptoks ->
    lookup reg m = Some info -> st_ty s0 = m_sty info ->
    (let put := if stored then Some (c, resolved_for info c) else None in
     let tch := if stored then None else Some c in
     out = refuse (match lookup reg route with Some _ => 400 | None => 404 end) exc_runtime_error put tch
     \/ m = route /\ out = run_turn route info c s0 cancel rfail put tch) ->
    hist_case reg ptoks route cur cancel rfail out.

Lemma cont_hist_cases reg s ptoks i route cur call cancel b rfail :
  reg_ok reg = true -> inv reg s ptoks ->
  hist_case reg ptoks route cur cancel rfail
    (contS reg route b cancel rfail (on_of _ s i) (ch_of _ s i)
           (deref _ s KCursor cur) (deref _ s KCall call)).
Proof.
  intros Hreg Hinv.
  destruct (cont_cases sym_ct sym_open reg route b cancel rfail (on_of _ s i) (ch_of _ s i)
              (deref _ s KCursor cur) (deref _ s KCall call))
    as [exc E _ | info tcur c s0 call0 stored El _ Hd Ho Er Hout]; [exact (HEarly _ _ _ _ _ _ _ exc E)|].
  destruct (resolved_own reg s ptoks i cur call tcur c s0 call0 stored Hinv Hd Ho Er)
    as (m & info' & Hp & Hin & Hl & Hs & ->).
  apply (HResolved _ _ _ _ _ _ _ m c info' s0 stored Hp Hin Hl Hs).
  cbv zeta. rewrite El. destruct Hout as [E | (Hm & _ & E)]; [left; exact E | right].
  pose proof (reg_ok_names reg route m info info' Hreg El Hl (eq_sym Hm)) as <-. split; congruence.
Qed.

Lemma one_turn_trace route info s cancel :
  one_turn route cancel (turn_trace route info s cancel) = true.
Proof.
  unfold turn_trace, one_turn.
  destruct cancel, (ty_canc (st_ty s)), (is_producer (m_mode info) (st_ty s));
    cbn [app negb Bool.eqb andb]; rewrite ?Nat.eqb_refl; reflexivity.
Qed.

Lemma foreign_ok_refuse reg route pc exc put tch :
  foreign_ok reg route pc
    (o_res (refuse (match lookup reg route with Some _ => 400 | None => 404 end) exc put tch)) = true.
Proof.
  unfold foreign_ok, no_code. cbn [refuse o_res r_status r_tok r_trace negb andb].
  destruct pc as [[[[] m] c]|]; [destruct (Nat.eqb m route)|..]; destruct (lookup reg route); reflexivity.
Qed.

Lemma init_fits_state_fits md t : init_fits md t = true -> state_fits md t = true.
Proof. unfold init_fits, state_fits, is_producer. destruct md, (ty_prod t), (ty_exch t); auto. Qed.

Lemma reg_ok_fits reg m info : reg_ok reg = true -> lookup reg m = Some info ->
  init_fits (m_mode info) (m_sty info) = true.
Proof.
  unfold reg_ok, lookup. intros H Hl. apply andb_true_iff in H as [_ H].
  exact (forallb_nth _ _ _ _ H Hl).
Qed.

(* both slots hold what the route's /init minted for call c, as minted: the turn runs *)
Lemma cont_live reg s ptoks i route cur call cancel b rfail :
  reg_ok reg = true -> inv reg s ptoks ->
  live_ok reg route cur call cancel b rfail (pderef ptoks cur) (pderef ptoks call)
    (o_res (contS reg route b cancel rfail (on_of _ s i) (ch_of _ s i)
                  (deref _ s KCursor cur) (deref _ s KCall call))) = true.
Proof.
  intros Hreg Hinv. pose proof Hinv as ((Hf & _) & _). unfold live_ok.
  destruct (pderef ptoks cur) as [[[[] m] c]|] eqn:Ep; try reflexivity.
  destruct (pderef ptoks call) as [[[[] m'] c']|] eqn:Epk; try reflexivity.
  destruct cur as [|id []]; try reflexivity. destruct call as [|id' []]; try reflexivity.
  destruct (lookup reg route) as [info|] eqn:El; [|reflexivity].
  destruct (Nat.eqb m route && Nat.eqb m' route && (c =? c') && negb rfail
            && negb (cast_blocks info b cancel)) eqn:Econd; [|reflexivity].
  apply andb_true_iff in Econd as [Econd Hcast]. apply andb_true_iff in Econd as [Econd Hrf].
  apply andb_true_iff in Econd as [Econd Hcc]. apply andb_true_iff in Econd as [Hm Hm'].
  apply Nat.eqb_eq in Hm, Hm'. apply N.eqb_eq in Hcc. apply negb_true_iff in Hrf, Hcast.
  subst m m' c' rfail.
  cbn [pderef] in Ep, Epk.
  destruct (deref_some reg s ptoks KCursor id false _ Hf Ep) as (n & p & Hp & ->).
  inversion Hp as [? s1 ? info1 Hl1 Hs1|]; subst p.
  destruct (deref_some reg s ptoks KCall id' false _ Hf Epk) as (n' & p' & Hp' & ->).
  inversion Hp' as [|? ? info2 Hl2]; subst p'.
  assert (info1 = info /\ info2 = info) as [-> ->] by (split; congruence).
  destruct (own_tokens_one_turn sym_ct sym_seal sym_open sym_open_seal reg route info c s1 n n'
              (resolved_for info c) b cancel (on_of _ s i) (ch_of _ s i) El eq_refl) as [-> _].
  + rewrite Hs1. apply init_fits_state_fits. eapply reg_ok_fits; eauto.
  + eapply inv_cache_names; eauto. eapply nth_error_In; eauto.
  + exact Hcast.
  + cbn [r_status r_trace r_tok]. rewrite one_turn_trace, N.eqb_refl. now destruct cancel.
Qed.

Lemma cont_ok_model reg s ptoks i route cur call cancel b rfail :
  reg_ok reg = true -> inv reg s ptoks ->
  cont_ok reg route cur call cancel b rfail (pderef ptoks cur) (pderef ptoks call)
    (o_res (contS reg route b cancel rfail (on_of _ s i) (ch_of _ s i)
                  (deref _ s KCursor cur) (deref _ s KCall call))) = true.
Proof.
  intros Hreg Hinv. unfold cont_ok. rewrite (cont_live reg s ptoks i) by assumption.
  destruct (cont_hist_cases reg s ptoks i route cur call cancel b rfail Hreg Hinv)
    as [exc -> | m c info s0 stored -> _ _ _ [-> | (-> & ->)]];
    rewrite ?foreign_ok_refuse; [reflexivity.. |].
  rewrite run_turn_eq. cbn [o_res foreign_ok]. rewrite Nat.eqb_refl.
  destruct rfail; [cbn; now rewrite Nat.eqb_refl | now rewrite tags_turn_trace].
Qed.

Lemma cont_inv reg s ptoks i route cur call cancel b rfail :
  reg_ok reg = true -> inv reg s ptoks ->
  let out := contS reg route b cancel rfail (on_of _ s i) (ch_of _ s i)
                   (deref _ s KCursor cur) (deref _ s KCall call) in
  let s1 := store _ (touched _ s i (o_touch out)) i (o_put out) in
  let s2 := match o_next out with
            | Some (c, nx) => add_toks _ s1 [mintS (s_nonce _ s1) (PCursor c nx)] 0 1
            | None => s1
            end in
  inv reg s2 (next_ptoks ptoks (pderef ptoks cur) (o_res out)) /\ s_ncalls _ s2 = s_ncalls _ s.
Proof.
  intros Hreg Hinv out.
  (* all that matters of the outcome is which case it is *)
  pose proof (cont_hist_cases reg s ptoks i route cur call cancel b rfail Hreg Hinv : hist_case _ _ _ _ _ _ out) as H.
  clearbody out. cbv zeta.
  destruct H as [exc -> | m c info s0 stored Hp Hin Hl Hs Hout]; [split; [exact Hinv | reflexivity]|].
  (* the cache update is sound whether or not the turn runs *)
  assert (H1 : let s1 := store _ (touched _ s i (if stored then None else Some c)) i
                              (if stored then Some (c, resolved_for info c) else None) in
               inv reg s1 ptoks /\ s_ncalls _ s1 = s_ncalls _ s).
  { split; [|now rewrite ncalls_store, ncalls_touched].
    destruct stored; [|apply inv_touched, Hinv]. apply inv_store; [exact Hinv|]. exists KCursor, m, info. auto. }
  destruct Hout as [-> | (-> & ->)]; [exact H1|].
  rewrite run_turn_eq. cbn [o_res o_put o_touch o_next]. unfold next_ptoks.
  destruct rfail; [exact H1|]. destruct cancel; [exact H1|]. cbn [orb negb r_tok]. rewrite Hp.
  destruct H1 as [H1 Hn]. pose proof Hinv as ((_ & Hfr & Hown) & _). split.
  - apply (inv_add reg _ ptoks _ [KCursor] route c 0 1).
    + exact H1.
    + constructor; [|constructor]. eexists _, _. split; [reflexivity|]. now apply (PayCursor reg c _ route info).
    + rewrite Hn, N.add_0_r. exact (Hfr _ _ _ Hin).
    + intros k' m' H. exact (Hown _ _ _ _ _ H Hin).
  - cbn [add_toks s_ncalls]. rewrite Hn. apply N.add_0_r.
Qed.

Lemma init_inv reg s ptoks i m info :
  inv reg s ptoks -> lookup reg m = Some info ->
  let c := s_ncalls _ s in
  let s0 := {| st_ty := m_sty info; st_pos := if is_producer (m_mode info) (m_sty info) then 1 else 0 |} in
  let r := resolved_for info c in
  let s' := store _ (add_toks _ s [mintS (s_nonce _ s) (PCursor c s0); mintS (s_nonce _ s + 1) (PCall c r)] 1 2)
                  i (Some (c, r)) in
  inv reg s' (ptoks ++ [(KCursor, m, c); (KCall, m, c)]) /\ s_ncalls _ s' = c + 1.
Proof.
  intros Hinv Hl. cbv zeta. pose proof Hinv as ((Hf & Hfr & Hown) & Hc & _). split.
  - apply inv_store.
    + apply (inv_add reg s ptoks _ [KCursor; KCall] m _ 1 2).
      * exact Hinv.
      * constructor; [|constructor; [|constructor]].
        -- eexists _, _. split; [reflexivity|]. now apply (PayCursor reg _ _ m info).
        -- eexists _, _. split; [reflexivity|]. now apply PayCall.
      * now apply N.lt_add_pos_r.
      * intros k' m' H. specialize (Hfr _ _ _ H). lia.
    + exists KCall, m, info. split; [apply in_or_app; right; right; left; reflexivity|]. auto.
  - rewrite ncalls_store. reflexivity.
Qed.

Lemma run_length reg dec (s : stS) ops : length (run sym_ct sym_seal reg dec s ops) = length ops.
Proof.
  revert s; induction ops as [|o ops IH]; intros s; [reflexivity|].
  cbn [run]. destruct (step sym_ct sym_seal reg dec s o) as [s' x]. cbn [length]. now rewrite IH.
Qed.

Lemma inv_st0 reg : inv reg (st0 sym_ct) [].
Proof.
  split; [split; [|split]|split].
  - constructor.
  - intros k m c [].
  - intros k m c k' m' [].
  - intros [|]; apply cache_ok_nil.
  - intros [|]; cbn; lia.
Qed.

(* who minted which token along a history (the model's own run decides which continuations
   returned a cursor) *)
Definition ptoks_step (reg : registry) (s : stS) (ptoks : list prov) (o : op) (x : result) : list prov :=
  match o with
  | OInit _ m => match lookup reg m with
                 | Some _ => ptoks ++ [(KCursor, m, s_ncalls _ s); (KCall, m, s_ncalls _ s)]
                 | None => ptoks
                 end
  | OCont _ _ cur _ _ _ _ => next_ptoks ptoks (pderef ptoks cur) x
  | _ => ptoks
  end.
Fixpoint ptoks_after (reg : registry) (s : stS) (ptoks : list prov) (ops : list op) : list prov :=
  match ops with
  | [] => ptoks
  | o :: r => let '(s', x) := step sym_ct sym_seal reg contS s o in
              ptoks_after reg s' (ptoks_step reg s ptoks o x) r
  end.

(* one operation of a history keeps the invariant, the provenance moving on as the property
   moves it, and the property's clause for that operation holds of the response *)
Lemma step_inv reg s ptoks o : reg_ok reg = true -> inv reg s ptoks ->
  let (s', x) := step sym_ct sym_seal reg contS s o in
  inv reg s' (ptoks_step reg s ptoks o x)
  /\ forall ops obs, spec_run reg (o :: ops) (x :: obs) ptoks (s_ncalls _ s)
                     = spec_run reg ops obs (ptoks_step reg s ptoks o x) (s_ncalls _ s').
Proof.
  intros Hreg Hinv. destruct o as [i m|i|i|i cap|i route cur call cancel b rfail]; cbn [step ptoks_step spec_run].
  (* reset, off, on: the cache of process i is emptied, with whatever capacity *)
  2-4: (split; [apply inv_empty_cache, Hinv | intros; now rewrite ncalls_set_cache]).
  - destruct (lookup reg m) as [info|] eqn:El; [|split; [exact Hinv | reflexivity]].
    rewrite (reg_ok_fits reg m info Hreg El). cbn [negb].
    destruct (init_inv reg s ptoks i m info Hinv El) as [Hi Hn]. split; [exact Hi|].
    intros. rewrite Hn. reflexivity.
  - destruct (cont_inv reg s ptoks i route cur call cancel b rfail Hreg Hinv) as [Hi Hn].
    split; [exact Hi|]. intros. now rewrite cont_ok_model, Hn.
Qed.

Lemma spec_run_model reg : reg_ok reg = true ->
  forall ops s ptoks, inv reg s ptoks ->
  spec_run reg ops (run sym_ct sym_seal reg contS s ops) ptoks (s_ncalls _ s) = true.
Proof.
  intros Hreg. induction ops as [|o ops IH]; intros s ptoks Hinv; [reflexivity|].
  cbn [run]. pose proof (step_inv reg s ptoks o Hreg Hinv) as H.
  destruct (step sym_ct sym_seal reg contS s o) as [s' x]. destruct H as [Hi ->]. apply IH, Hi.
Qed.

Lemma reach_inv reg : reg_ok reg = true ->
  forall ops s ptoks, inv reg s ptoks ->
  inv reg (exec sym_ct sym_seal reg contS s ops) (ptoks_after reg s ptoks ops).
Proof.
  intros Hreg. induction ops as [|o ops IH]; intros s ptoks Hinv; [exact Hinv|].
  cbn [exec ptoks_after]. pose proof (step_inv reg s ptoks o Hreg Hinv) as H.
  destruct (step sym_ct sym_seal reg contS s o) as [s' x]. apply IH, H.
Qed.

(* two requests on which handleStreamExchange as it was before its repair goes wrong: the tokens
   of p2 (state type ty_p, a producer only) at the route of e2, and the tokens of prod at the
   route of exch (both of state type ty_both) *)
Definition legacy_panic_witness : input :=
  {| i_reg := std_reg;
     i_ops := [OInit false 6; OCont false 7 (TTok 0 false) (TTok 1 false) false Data false] |}.
Definition legacy_shared_witness : input :=
  {| i_reg := std_reg;
     i_ops := [OInit false 0; OCont false 2 (TTok 0 false) (TTok 1 false) false Data false] |}.

Lemma legacy_panic_run :
  reg_ok (i_reg legacy_panic_witness) = true
  /\ model_legacy legacy_panic_witness
     = [R 200 [] false [] true; R 0 [] true [ARehyd 3 7; AHook 7 false] false]
  /\ spec_ok legacy_panic_witness (model_legacy legacy_panic_witness) = false.
Proof. vm_compute. repeat split. Qed.

Lemma legacy_shared_run :
  reg_ok (i_reg legacy_shared_witness) = true
  /\ model_legacy legacy_shared_witness
     = [R 200 [] false [] true; R 200 [] false [ARehyd 1 2; AHook 2 false; AExchange 1] true]
  /\ spec_ok legacy_shared_witness (model_legacy legacy_shared_witness) = false.
Proof. vm_compute. repeat split. Qed.

(* the repaired handler on the same two requests *)
Lemma repaired_on_witnesses :
  model legacy_panic_witness = [R 200 [] false [] true; R 400 exc_runtime_error false [] false]
  /\ model legacy_shared_witness = [R 200 [] false [] true; R 400 exc_runtime_error false [] false].
Proof. vm_compute. split; reflexivity. Qed.
