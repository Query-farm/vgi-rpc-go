(* Proofs/C26.v — the token introspection route. [handled] lists what [handle] does by
   stage (authorisation, limiter, body, resolver); the per-request clauses of the property
   are read off its cases and lifted to histories by [run_from_Forall2]. The rate bound
   counts, for one window label, how many admissions a caller has left ([bound]). *)
From VR Require Import Model.C26 Lib.Lists.
From Coq Require Import ZifyBool.
Local Open Scope Z_scope.

Lemma eff_rate_pos c : 0 < eff_rate c.
Proof.
  unfold eff_rate. assert (0 < introspect_default_rate) by reflexivity.
  destruct (c_rate c <=? 0) eqn:E; lia.
Qed.
Lemma max_token_pos : 0 < introspect_max_token_chars.
Proof. reflexivity. Qed.
(* the fixed 404 "unresolved" body differs from the other four fixed bodies: a
   caller can tell it from every other refusal, 404-not-enabled included *)
Lemma bodies_distinct :
  introspect_body_403 <> introspect_body_404 /\ introspect_body_404 <> introspect_body_not_enabled
  /\ introspect_body_404 <> introspect_body_429 /\ introspect_body_404 <> introspect_body_503.
Proof. repeat split; intro H; apply beqb_eq in H; vm_compute in H; discriminate. Qed.

(* the regular expression the model's automaton was written against *)
Lemma jws_regex_text :
  introspect_jws_regex = str "\A[A-Za-z0-9_-]+\.[A-Za-z0-9_-]+\.[A-Za-z0-9_-]*\z".
Proof. reflexivity. Qed.

Lemma loop_b64 st : (st = J1 \/ st = J3 \/ st = J4) ->
  forall a, forallb b64url a = true -> fold_left jstep a st = st.
Proof.
  intros Hst. apply fold_left_silent. intros x Hx.
  destruct Hst as [->|[->| ->]]; cbn [jstep]; now rewrite Hx.
Qed.

Lemma enter_b64 st st' : (st = J0 /\ st' = J1) \/ (st = J2 /\ st' = J3) ->
  forall a, a <> [] -> forallb b64url a = true -> fold_left jstep a st = st'.
Proof.
  intros Hst [|x a] Hne; [congruence|]. cbn [fold_left forallb]. intro H.
  apply andb_true_iff in H as [Hx Ha].
  replace (jstep st x) with st' by (destruct Hst as [[-> ->]|[-> ->]]; cbn [jstep]; now rewrite Hx).
  apply loop_b64; [destruct Hst as [[_ ->]|[_ ->]]; auto | exact Ha].
Qed.

Lemma jws_sound_chars s : jws_shaped s = true -> forallb (fun x => b64url x || N.eqb x DOT) s = true.
Proof.
  unfold jws_shaped. generalize J0. induction s as [|x s IH]; intro st; cbn [fold_left forallb]; [reflexivity|].
  intro H. assert (Hx : jstep st x <> JX).
  { intro E. rewrite E in H. clear -H. induction s as [|y s IHs]; cbn in H; [discriminate | auto]. }
  apply andb_true_iff; split; [| apply (IH _ H)].
  (* a byte that is neither steps every state to JX *)
  destruct (b64url x) eqn:B; [reflexivity|]. destruct (N.eqb x DOT) eqn:D; [reflexivity|].
  destruct Hx. destruct st; cbn [jstep]; rewrite ?B, ?D; reflexivity.
Qed.

Lemma read_token_some b t : read_token b = Some t ->
  b_tok b = Some t /\ 0 < blen t <= introspect_max_token_chars
  /\ b_len b <= introspect_max_body_bytes /\ b_clen b <= introspect_max_body_bytes.
Proof.
  unfold read_token.
  destruct (b_clen b >? introspect_max_body_bytes) eqn:E1; [discriminate|].
  destruct (b_len b >? introspect_max_body_bytes) eqn:E2; [discriminate|].
  destruct (b_tok b) as [t'|]; [|discriminate].
  destruct (negb (nonempty t') || (blen t' >? introspect_max_token_chars)) eqn:E3; [discriminate|].
  intro H; inversion H; subst t'. apply orb_false_iff in E3 as [E3 E4].
  repeat split; try lia.
  destruct t; [discriminate|]. unfold blen; cbn [length]. lia.
Qed.

Lemma read_token_len b t : read_token b = Some t ->
  (0 <? blen t) && (blen t <=? introspect_max_token_chars) = true.
Proof. intro H. apply read_token_some in H. lia. Qed.

Lemma read_token_body_read b t : read_token b = Some t -> body_is_read b = true.
Proof. intro H. apply read_token_some in H as (_ & _ & _ & H). unfold body_is_read. lia. Qed.

Definition resp (o : rout) : Z * rbody * option Z := (o_status o, o_body o, o_retry o).

Definition resp_of_answer (a : answer) : Z * rbody * option Z :=
  match a with
  | AnsUnres => (404, BRaw introspect_body_404, None)
  | AnsUnavail r => (503, BRaw introspect_body_503, Some r)
  | AnsIdent p n t => (200, BIdent p n t, None)
  end.

(* the route as a function of (config, limiter, now, authenticator outcome,
   effective answer): no credential text among its arguments *)
Definition handle2 (c : config) (s : lim) (now : Z) (a : auth_out) (ans : answer) : (Z * rbody * option Z) * lim :=
  if negb (enabled c) then ((404, BRaw introspect_body_not_enabled, None), s) else
  match a with
  | AUnavail n => ((503, BAuthLayer, Some (retry_of n)), s)
  | AReject => ((401, BAuthLayer, None), s)
  | AOther => ((500, BAuthLayer, None), s)
  | ACtx au p =>
      if negb (au && allowlisted c p) then ((403, BRaw introspect_body_403, None), s) else
      let '(ok, s') := lim_allow (c_window c) (eff_rate c) now p s in
      if negb ok then ((429, BRaw introspect_body_429, Some 1), s') else (resp_of_answer ans, s')
  end.

(* what a caller that may not introspect is answered, and the resolver call (if any)
   made for one that the limiter lets through *)
Definition refusal (c : config) (q : req) (tr : list action) : rout :=
  match eff_auth c q with
  | ACtx _ _ => mk 403 (BRaw introspect_body_403) None tr
  | AUnavail n => mk 503 BAuthLayer (Some (retry_of n)) tr
  | AReject => mk 401 BAuthLayer None tr
  | AOther => mk 500 BAuthLayer None tr
  end.
Definition resolve_call (q : req) : list action :=
  match read_token (q_body q) with
  | Some cred => if jws_shaped cred then [] else [AResolve cred]
  | None => []
  end.

Lemma refusal_trace c q tr : o_trace (refusal c q tr) = tr.
Proof. unfold refusal. destruct (eff_auth c q); reflexivity. Qed.

Lemma answer_not_429 a : fst (fst (resp_of_answer a)) <> 429.
Proof. destruct a; discriminate. Qed.

(* [handle] in the terms the property is stated with. An answered request's response is a
   function of [eff_answer] alone; its trace is kept as [pre ++ resolve_call q] because
   [trace_pre] and [resolves_ok_pre] speak of [pre]. *)
Variant handled (c : config) (s : lim) (q : req) : rout * lim -> Prop :=
| HOff : enabled c = false ->
    handled c s q (mk 404 (BRaw introspect_body_not_enabled) None [], s)
| HRefused : enabled c = true -> authorized c q = false ->
    handled c s q (refusal c q (if c_has_auth c then [AAuth] else []), s)
| HLimited s' : enabled c = true -> authorized c q = true ->
    lim_allow (c_window c) (eff_rate c) (q_now q) (caller c q) s = (false, s') ->
    handled c s q (mk 429 (BRaw introspect_body_429) (Some 1) ((if c_has_auth c then [AAuth] else []) ++ [ALimit]), s')
| HAnswered s' st b ra : enabled c = true -> authorized c q = true ->
    lim_allow (c_window c) (eff_rate c) (q_now q) (caller c q) s = (true, s') ->
    resp_of_answer (eff_answer c q) = (st, b, ra) ->
    handled c s q
      (mk st b ra (((if c_has_auth c then [AAuth] else []) ++ [ALimit]
                    ++ (if body_is_read (q_body q) then [ARead] else [])) ++ resolve_call q), s').

Lemma handle_cases c s q : handled c s q (handle c s q).
Proof.
  (* the constructors are unfolded beside [handle], so that one destruct decides both *)
  pose proof (HRefused c s q) as Href. pose proof (HLimited c s q) as Hlim. pose proof (HAnswered c s q) as Hans.
  unfold handle, authorized, caller, refusal, resolve_call, eff_answer, res_answer in *.
  destruct (enabled c) eqn:He; cbn [negb]; [|now constructor].
  destruct (eff_auth c q) as [au p|n| |]; try (now apply Href).
  destruct (au && allowlisted c p); cbn [negb]; [|now apply Href].
  destruct (lim_allow (c_window c) (eff_rate c) (q_now q) p s) as [[|] s']; cbn [negb]; [|now apply Hlim].
  specialize (Hans s'). cbv zeta.
  destruct (read_token (q_body q)) as [cred|]; [|rewrite app_nil_r in Hans; now eapply Hans].
  destruct (jws_shaped cred); [rewrite app_nil_r in Hans; now eapply Hans|].
  destruct (r_err (q_res q)) as [[n|]|]; try (now eapply Hans).
  destruct (r_ok (q_res q)); now eapply Hans.
Qed.

Lemma handle_factor c s q :
  (resp (fst (handle c s q)), snd (handle c s q)) = handle2 c s (q_now q) (eff_auth c q) (eff_answer c q).
Proof.
  unfold handle2.
  destruct (handle_cases c s q) as [He|He Ha|s' He Ha Hl|s' st b ra He Ha Hl Hr]; rewrite He; cbn [negb fst snd].
  - reflexivity.
  - unfold authorized, refusal in *. destruct (eff_auth c q) as [au p|n| |]; try reflexivity. now rewrite Ha.
  - unfold authorized, caller in *. destruct (eff_auth c q) as [au p|n| |]; try discriminate. now rewrite Ha, Hl.
  - unfold authorized, caller in *. destruct (eff_auth c q) as [au p|n| |]; try discriminate. now rewrite Ha, Hl, Hr.
Qed.

Lemma tr0_cases c : (if c_has_auth c then [AAuth] else []) = [AAuth] \/ (if c_has_auth c then [AAuth] else []) = [].
Proof. destruct (c_has_auth c); auto. Qed.

Lemma tr0_only (a : bool) x : In x (if a then [AAuth] else []) -> x = AAuth.
Proof. destruct a; [intros [H|[]]; now symmetry | intros []]. Qed.

Lemma step_unauthorized c s q : enabled c = true -> authorized c q = false ->
  let o := fst (handle c s q) in
  ~ In ARead (o_trace o) /\ ~ In ALimit (o_trace o) /\ (forall cr, ~ In (AResolve cr) (o_trace o))
  /\ match eff_auth c q with
     | ACtx _ _ => o_status o = 403 /\ o_body o = BRaw introspect_body_403
     | AUnavail _ => o_status o = 503 /\ o_body o = BAuthLayer
     | AReject => o_status o = 401 /\ o_body o = BAuthLayer
     | AOther => o_status o = 500 /\ o_body o = BAuthLayer
     end.
Proof.
  intros He Ha. destruct (handle_cases c s q) as [E|_ _|s' _ E _|s' st b ra _ E _ _]; try congruence.
  cbn [fst]. rewrite refusal_trace.
  repeat split; [intro H | intro H | intros cr H | ]; try (apply tr0_only in H; discriminate H).
  unfold refusal. destruct (eff_auth c q); split; reflexivity.
Qed.

Lemma trace_pre (a b : bool) cr :
  let pre := (if a then [AAuth] else []) ++ [ALimit] ++ (if b then [ARead] else []) in
  In ALimit pre /\ ~ In (AResolve cr) pre.
Proof. destruct a, b; cbn; intuition discriminate. Qed.

Lemma step_resolve c s q cr : In (AResolve cr) (o_trace (fst (handle c s q))) ->
  enabled c = true /\ authorized c q = true /\ read_token (q_body q) = Some cr /\ jws_shaped cr = false
  /\ exists pre, o_trace (fst (handle c s q)) = pre ++ [AResolve cr] /\ In ALimit pre
                 /\ forall cr', ~ In (AResolve cr') pre.
Proof.
  destruct (handle_cases c s q) as [He|He Ha|s' He Ha Hl|s' st b ra He Ha Hl Hr]; cbn [fst mk o_trace]; intro H.
  - destruct H.
  - rewrite refusal_trace in H. apply tr0_only in H. discriminate H.
  - apply in_app_or in H as [H|[H|[]]]; [apply tr0_only in H|]; discriminate H.
  - apply in_app_or in H as [H|H]; [exfalso; exact (proj2 (trace_pre _ _ cr) H)|].
    unfold resolve_call in *. destruct (read_token (q_body q)) as [cred|]; [|destruct H].
    destruct (jws_shaped cred) eqn:J; [destruct H|]. destruct H as [H|[]]. injection H as ->.
    repeat split; auto. eexists; split; [reflexivity|].
    split; [apply (trace_pre _ _ cr) | intro cr'; apply trace_pre].
Qed.

Lemma run_from_Forall2 c (P : req -> rout -> Prop) :
  (forall s q, P q (fst (handle c s q))) -> forall h s, Forall2 P h (run_from c s h).
Proof.
  intros HP h; induction h as [|q t IH]; intro s; cbn [run_from]; [constructor|].
  specialize (HP s q). destruct (handle c s q) as [o s'] eqn:E. constructor; [exact HP | apply IH].
Qed.

Lemma run_from_length c h : forall s, length (run_from c s h) = length h.
Proof. induction h as [|q t IH]; intro s; cbn [run_from]; [reflexivity|]. destruct (handle c s q). cbn. now rewrite IH. Qed.

Definition answered_ok (c : config) (q : req) (o : rout) : Prop :=
  authorized c q = true -> o_status o <> 429 -> resp o = resp_of_answer (eff_answer c q).

Lemma step_answered c s q : enabled c = true -> answered_ok c q (fst (handle c s q)).
Proof.
  intros He Ha Hs. destruct (handle_cases c s q) as [| |s' _ _ _|s' st b ra _ _ _ Hr]; try congruence; cbn [fst] in *.
  - now destruct Hs.
  - symmetry. exact Hr.
Qed.

Lemma answered_all c h : enabled c = true -> Forall2 (answered_ok c) h (run c h).
Proof. intro He. apply run_from_Forall2. intros s q. exact (step_answered c s q He). Qed.

Lemma unresolvable_answer c q :
  read_token (q_body q) = None
  \/ (exists cr, read_token (q_body q) = Some cr /\ jws_shaped cr = true)
  \/ (r_err (q_res q) = None /\ r_ok (q_res q) = false) ->
  eff_answer c q = AnsUnres.
Proof.
  unfold eff_answer, res_answer. intros [H|[(cr & H & J)|(H & K)]].
  - now rewrite H.
  - now rewrite H, J.
  - destruct (read_token (q_body q)) as [cr|]; [|reflexivity].
    destruct (jws_shaped cr); [reflexivity|]. now rewrite H, K.
Qed.

Lemma noninterference_from c h1 h2 :
  Forall2 (fun q1 q2 => q_now q1 = q_now q2 /\ eff_auth c q1 = eff_auth c q2 /\ eff_answer c q1 = eff_answer c q2) h1 h2 ->
  forall s, map resp (run_from c s h1) = map resp (run_from c s h2).
Proof.
  induction 1 as [|q1 q2 t1 t2 (Hn & Ha & He) _ IH]; intro s; [reflexivity|].
  cbn [run_from]. pose proof (handle_factor c s q1) as F1. pose proof (handle_factor c s q2) as F2.
  rewrite Hn, Ha, He in F1. rewrite <- F2 in F1.
  destruct (handle c s q1) as [o1 s1]. destruct (handle c s q2) as [o2 s2].
  cbn [fst snd] in F1. assert (Hr : resp o1 = resp o2) by congruence. assert (Hs : s1 = s2) by congruence.
  subst s2. cbn [map]. f_equal; [exact Hr | apply IH].
Qed.

Definition counts_ok (R : Z) (s : lim) : Prop := forall who, 0 <= l_counts s who <= R.

Lemma lim_allow_spec W R now p s ok s' : counts_ok R s -> lim_allow W R now p s = (ok, s') ->
  counts_ok R s'
  /\ l_ws s' = (if lim_reset W now s then Some now else l_ws s)
  /\ forall who, l_counts s' who
       = (if lim_reset W now s then 0 else l_counts s who) + (if ok && beqb p who then 1 else 0).
Proof.
  intro Hc. pose proof (Hc p) as HR. unfold lim_allow, lim_roll. set (reset := lim_reset W now s).
  set (s1 := if reset then _ else s).
  assert (H1 : counts_ok R s1 /\ l_ws s1 = (if reset then Some now else l_ws s)
               /\ forall who, l_counts s1 who = if reset then 0 else l_counts s who).
  { subst s1. destruct reset; repeat split; try apply Hc; cbn; lia. }
  clearbody s1. destruct H1 as (Hc1 & <- & Hn).
  destruct (l_counts s1 p >=? R) eqn:E; intro H; injection H as <- <-;
    (split; [|split; [reflexivity|]]); intro who; cbn [l_counts andb]; rewrite <- ?Hn.
  - apply Hc1.
  - lia.
  - unfold upd. pose proof (Hc1 who). pose proof (Hc1 p). destruct (beqb who p); lia.
  - unfold upd. rewrite (beqb_sym who p).
    destruct (beqb p who) eqn:Eb; [apply beqb_eq in Eb; subst who|]; lia.
Qed.

Lemma handle_limiter c s q :
  (admitted c q (fst (handle c s q)), snd (handle c s q))
  = if enabled c && authorized c q
    then lim_allow (c_window c) (eff_rate c) (q_now q) (caller c q) s else (false, s).
Proof.
  unfold admitted.
  destruct (handle_cases c s q) as [He|He Ha|s' He Ha Hl|s' st b ra He Ha Hl Hr]; rewrite He, ?Ha, ?Hl; try reflexivity.
  pose proof (answer_not_429 (eff_answer c q)) as Hne. rewrite Hr in Hne. cbn [fst snd mk o_status andb] in *.
  apply Z.eqb_neq in Hne. now rewrite Hne.
Qed.

(* How many more admissions of one caller a window label can still see, from a
   limiter state in which the caller's count is [cnt]: the window in force has
   [R - cnt] left, an earlier one never comes back, a later one starts empty. *)
Definition bound (R cnt : Z) (past cur : bool) : Z := if cur then R - cnt else if past then 0 else R.

Lemma bound_range R cnt past cur : 0 <= cnt <= R -> 0 <= bound R cnt past cur <= R.
Proof. unfold bound. destruct cur, past; lia. Qed.

(* one request: either the window stays (same label, count bumped on a hit) or a
   fresh one starts, whose label is neither the old one nor an earlier one *)
Lemma bound_step R cnt (hit reset past cur past' cur' : bool) n : 0 <= cnt <= R ->
  (if reset then cur' = true \/ past' = false -> past = false /\ cur = false
   else past' = past /\ cur' = cur) ->
  n <= bound R ((if reset then 0 else cnt) + (if hit then 1 else 0)) past' cur' ->
  (if hit && cur' then 1 else 0) + n <= bound R cnt past cur.
Proof. unfold bound. destruct reset, hit, past, cur, past', cur'; cbn [andb]; lia. Qed.

Lemma rate_gen c : forall h s k, counts_ok (eff_rate c) s -> forall who kk,
  count_adm c who kk h (run_from c s h) (windows c (l_ws s) k h)
  <= bound (eff_rate c) (l_counts s who) (kk <? k)%nat (k =? kk)%nat.
Proof.
  induction h as [|q t IH]; intros s k Hc who kk; [apply bound_range, Hc|].
  cbn [run_from windows]. pose proof (handle_limiter c s q) as Hh.
  destruct (handle c s q) as [o s']. cbn [fst snd count_adm] in Hh |- *.
  destruct (enabled c && authorized c q).
  - symmetry in Hh. destruct (lim_allow_spec _ _ _ _ _ _ _ Hc Hh) as (Hc' & Hws & Hcnt).
    fold (lim_reset (c_window c) (q_now q) s). set (reset := lim_reset _ _ s) in *. rewrite <- Hws.
    apply bound_step with (reset := reset) (past' := (kk <? if reset then S k else k)%nat);
      [apply Hc | destruct reset; [lia | now split] | rewrite <- Hcnt; apply IH, Hc'].
  - injection Hh as -> ->. apply IH, Hc.
Qed.

Lemma rate_bound c h who kk :
  count_adm c who kk h (run c h) (windows c None O h) <= eff_rate c.
Proof.
  pose proof (eff_rate_pos c).
  eapply Z.le_trans; [apply (rate_gen c h lim0 O); intro | apply bound_range]; cbn; lia.
Qed.

(* the trace of an answered request is [pre ++ resolve_call q]: the limiter is in [pre], no
   resolver call is, and the call (if any) hands over the request's own usable credential *)
Lemma resolves_ok_pre b (a r : bool) tl :
  resolves_ok b false (((if a then [AAuth] else []) ++ [ALimit] ++ (if r then [ARead] else [])) ++ tl)
  = resolves_ok b true tl.
Proof. destruct a, r; reflexivity. Qed.

Lemma resolve_call_ok q : resolves_ok (q_body q) true (resolve_call q) = true.
Proof.
  unfold resolve_call. destruct (read_token (q_body q)) as [cred|] eqn:Ert; [|reflexivity].
  destruct (jws_shaped cred) eqn:Ejws; [reflexivity|].
  cbn [resolves_ok existsb]. rewrite Ert, Ejws, beqb_refl. cbn [negb andb].
  now rewrite (read_token_len _ _ Ert).
Qed.

Lemma step_spec c s q : spec_req c q (fst (handle c s q)) = true.
Proof.
  unfold spec_req.
  destruct (handle_cases c s q) as [He|He Ha|s' He Ha Hl|s' st b ra He Ha Hl Hr]; rewrite He, ?Ha; cbn [negb fst].
  - reflexivity.
  - rewrite refusal_trace. unfold refusal.
    destruct (eff_auth c q); cbn [mk o_leak o_status o_body negb andb rbody_eqb]; rewrite ?beqb_refl;
      destruct (c_has_auth c); reflexivity.
  - destruct (c_has_auth c); reflexivity.
  - cbn [mk o_leak o_status o_body o_trace negb andb]. rewrite resolves_ok_pre, resolve_call_ok.
    destruct (eff_answer c q); injection Hr as <- <- <-; cbn [rbody_eqb Z.eqb andb]; rewrite ?beqb_refl; reflexivity.
Qed.

Lemma spec_reqs_run c : forall h s, spec_reqs c h (run_from c s h) = true.
Proof.
  induction h as [|q t IH]; intro s; cbn [run_from spec_reqs]; [reflexivity|].
  pose proof (step_spec c s q) as H. destruct (handle c s q) as [o s']. cbn [fst] in H.
  cbn [spec_reqs]. now rewrite H, IH.
Qed.

Lemma rate_ok_all c h0 os0 ws0 :
  (forall who kk, count_adm c who kk h0 os0 ws0 <= eff_rate c) ->
  forall h ws, rate_ok_at c h0 os0 ws0 h ws = true.
Proof.
  intro H. induction h as [|q t IH]; intros [|w ws]; cbn [rate_ok_at]; try reflexivity.
  apply andb_true_iff; split; [apply Z.leb_le; apply H | apply IH].
Qed.

(* the start of the window governing each request (None before the limiter is first consulted) *)
Fixpoint wstarts (c : config) (ws : option Z) (h : list req) : list (option Z) :=
  match h with
  | [] => []
  | q :: t =>
      if enabled c && authorized c q then
        let reset := match ws with None => true | Some w => q_now q - w >=? c_window c end in
        let ws' := if reset then Some (q_now q) else ws in
        ws' :: wstarts c ws' t
      else ws :: wstarts c ws t
  end.

Fixpoint nondecreasing (lo : Z) (h : list req) : Prop :=
  match h with [] => True | q :: t => lo <= q_now q /\ nondecreasing (q_now q) t end.

Fixpoint count_at (c : config) (who : bytes) (w0 : Z) (h : list req) (os : list rout) (ws : list (option Z)) : Z :=
  match h, os, ws with
  | q :: h', o :: os', w :: ws' =>
      (if admitted c q o && beqb (caller c q) who && opt_eqb Z.eqb w (Some w0) then 1 else 0)
      + count_at c who w0 h' os' ws'
  | _, _, _ => 0
  end.

Definition before (w0 : Z) (ws : option Z) : bool := match ws with Some w => w0 <? w | None => false end.

(* a window opens [c_window] or more after the previous start, so with a positive
   window length the starts increase strictly, whatever the clock does *)
Lemma rate_gen_by_start c : 0 < c_window c -> forall h s, counts_ok (eff_rate c) s -> forall who w0,
  count_at c who w0 h (run_from c s h) (wstarts c (l_ws s) h)
  <= bound (eff_rate c) (l_counts s who) (before w0 (l_ws s)) (opt_eqb Z.eqb (l_ws s) (Some w0)).
Proof.
  intro HW. induction h as [|q t IH]; intros s Hc who w0; [apply bound_range, Hc|].
  cbn [run_from wstarts]. pose proof (handle_limiter c s q) as Hh.
  destruct (handle c s q) as [o s']. cbn [fst snd count_at] in Hh |- *.
  destruct (enabled c && authorized c q).
  - symmetry in Hh. destruct (lim_allow_spec _ _ _ _ _ _ _ Hc Hh) as (Hc' & Hws & Hcnt).
    fold (lim_reset (c_window c) (q_now q) s). rewrite <- Hws.
    apply bound_step with (reset := lim_reset (c_window c) (q_now q) s) (past' := before w0 (l_ws s'));
      [apply Hc | | rewrite <- Hcnt; apply IH, Hc'].
    rewrite Hws. unfold lim_reset. destruct (l_ws s) as [w|]; [destruct (q_now q - w >=? c_window c) eqn:E|];
      cbn [before opt_eqb]; [lia | now split | lia].
  - injection Hh as -> ->. apply IH, Hc.
Qed.

Lemma rate_bound_by_start c h who w0 : 0 < c_window c ->
  count_at c who w0 h (run c h) (wstarts c None h) <= eff_rate c.
Proof.
  intro HW. pose proof (eff_rate_pos c).
  eapply Z.le_trans; [apply (rate_gen_by_start c HW h lim0); intro | apply bound_range]; cbn; lia.
Qed.

Lemma wstarts_interval c : 0 < c_window c -> forall h ws lo,
  (forall w, ws = Some w -> w <= lo) -> nondecreasing lo h ->
  Forall2 (fun q w' => enabled c && authorized c q = true ->
                       exists w, w' = Some w /\ w <= q_now q < w + c_window c) h (wstarts c ws h).
Proof.
  intro HW. induction h as [|q t IH]; intros ws lo Hlo Hm; cbn [wstarts]; [constructor|].
  cbn [nondecreasing] in Hm. destruct Hm as [Hq Hm].
  destruct (enabled c && authorized c q) eqn:Eea.
  - set (ws' := if match ws with None => true | Some w => q_now q - w >=? c_window c end
                then Some (q_now q) else ws).
    assert (H : exists w, ws' = Some w /\ w <= q_now q < w + c_window c).
    { subst ws'. destruct ws as [w|];
        [specialize (Hlo w eq_refl); destruct (q_now q - w >=? c_window c) eqn:Er|];
        eexists; (split; [reflexivity | lia]). }
    constructor; [intros _; exact H |]. apply (IH _ (q_now q)); [|exact Hm].
    intros w1 E. destruct H as (w & E' & Hw). rewrite E' in E. injection E as <-. lia.
  - constructor; [congruence |].
    apply (IH _ (q_now q)); [intros w1 E; specialize (Hlo w1 E); lia | exact Hm].
Qed.
