(* Proofs/C43.v — the OpenTelemetry hook: per-dispatch correctness and the
   span life-cycle invariants, for every schedule and every sampler.
   The model's functions that return pairs are used through their equations on
   projections.  One step of the schedule is the relation [stepR], read off [step]
   and [plan_step] once ([step_shape]); the segment invariant ([stepR_ok]) and the
   life-cycle invariant ([stepR_life]) are proved by cases on it. *)
From VR Require Import Model.C43 Lib.Lists.
From Coq Require Import ZifyBool Permutation.
Open Scope N_scope.

Lemma let_pair {A B C} (p : A * B) (f : A -> B -> C) : (let (a, b) := p in f a b) = f (fst p) (snd p).
Proof. now destruct p. Qed.

Lemma mem_nat_In x l : mem_nat x l = true <-> In x l.
Proof. exact (existsb_eqb_In Nat.eqb Nat.eqb_eq x l). Qed.
Lemma remove_nat_In x n l : In x (remove_nat n l) <-> In x l /\ x <> n.
Proof.
  unfold remove_nat. rewrite filter_In, negb_true_iff, Nat.eqb_neq. split; intros [A B]; auto.
Qed.

Definition is_running (v : cstate) : bool := match v with Running _ => true | Done => false end.
Definition tbl_of (cs : list (nat * cstate)) : list (nat * bool) :=
  map (fun kv => (fst kv, is_running (snd kv))) cs.

Lemma lookup_tbl k cs : lookup k (tbl_of cs) = option_map is_running (lookup k cs).
Proof.
  induction cs as [|[j v] cs IH]; cbn; [reflexivity|]. destruct (Nat.eqb j k); [reflexivity | exact IH].
Qed.

Lemma whole_eq extract sampler g s i err :
  let r := hook_start extract sampler g s i in
  let r' := hook_end g (fst (fst r)) (snd (fst r)) i err in
  whole extract sampler g s i err = (fst r', snd r ++ snd r').
Proof. unfold whole. now rewrite !let_pair. Qed.

Lemma run_conts_eq extract sampler g s i e errs :
  let r := whole extract sampler g s i e in
  let r' := run_conts extract sampler g (fst r) i errs in
  run_conts extract sampler g s i (e :: errs) = (fst r', snd r :: snd r').
Proof. cbn [run_conts]. now rewrite !let_pair. Qed.

Lemma plan_eq calls tbl o r :
  let a := plan_step calls tbl o in
  let b := plan calls (fst a) r in
  plan calls tbl (o :: r) = (fst b, snd a ++ snd b).
Proof. cbn [plan]. now rewrite !let_pair. Qed.

Lemma run_eq extract sampler g calls st o r :
  let a := step extract sampler g calls st o in
  let b := run extract sampler g calls (fst a) r in
  run extract sampler g calls st (o :: r) = (fst b, snd a ++ snd b).
Proof. cbn [run]. now rewrite !let_pair. Qed.

Lemma opt_opar_refl p : opt_eqb opar_eqb p p = true.
Proof. apply opt_eqb_refl. intro q. unfold opar_eqb. now rewrite !beqb_refl, !Bool.eqb_reflx. Qed.

Definition nodash (p : bytes) : bool := forallb (fun c => negb (c =? DASH)) p.

Lemma part_ok_nodash n p : part_ok n p = true -> nodash p = true.
Proof.
  unfold part_ok, nodash. intro H. apply andb_true_iff in H as [_ H].
  rewrite forallb_forall in *. intros c Hc. specialize (H c Hc).
  unfold lhex, DASH in *. lia.
Qed.
Lemma cut_app p r : nodash p = true -> cut (p ++ DASH :: r) = (p, r).
Proof.
  induction p as [|c p IH]; cbn [app cut]; intro H.
  - now rewrite N.eqb_refl.
  - apply andb_true_iff in H as [H1 H2]. apply negb_true_iff in H1. now rewrite H1, (IH H2).
Qed.
Lemma cut_nodash p : nodash p = true -> cut p = (p, []).
Proof.
  induction p as [|c p IH]; cbn [cut]; intro H; [reflexivity|].
  apply andb_true_iff in H as [H1 H2]. apply negb_true_iff in H1. now rewrite H1, (IH H2).
Qed.

Definition flags_val (fl : bytes) : N := 16 * hexv (nth 0 fl 0) + hexv (nth 1 fl 0).

Lemma parse_tp00 tr sp fl :
  part_ok 32 tr = true -> part_ok 16 sp = true -> part_ok 2 fl = true ->
  (flags_val fl <=? 3) = true -> all_zero tr = false -> all_zero sp = false ->
  parse_tp (tp00 tr sp fl) = Some {| p_trace := tr; p_span := sp; p_sampled := N.odd (flags_val fl) |}.
Proof.
  intros Ht Hs Hf Hv Zt Zs. unfold parse_tp, tp00.
  change (str "00" ++ [DASH] ++ tr ++ [DASH] ++ sp ++ [DASH] ++ fl)
    with ([48; 48] ++ DASH :: (tr ++ DASH :: (sp ++ DASH :: fl))).
  rewrite (cut_app [48; 48]) by reflexivity.
  cbn [app is_nil].
  change (part_ok 2 [48; 48]) with true. cbn [negb].
  change (beqb [48; 48] (str "ff")) with false. cbv iota.
  rewrite (cut_app tr), Ht by exact (part_ok_nodash _ _ Ht). cbn [negb].
  rewrite (cut_app sp), Hs by exact (part_ok_nodash _ _ Hs). cbn [negb].
  rewrite (cut_nodash fl), Hf by exact (part_ok_nodash _ _ Hf). cbn [negb is_nil orb].
  change (beqb [48; 48] (str "00")) with true. cbn [andb].
  fold (flags_val fl). rewrite N.ltb_antisym, Hv, Zt, Zs. reflexivity.
Qed.

(* the model's parent computation is the parent the property demands *)
Lemma want_parent_eq g i :
  option_map opar_of (match extract_fn (g_propagate g) (n_tp i) (n_ts i) with Some p => Some p | None => n_amb i end)
  = want_parent g i.
Proof.
  unfold want_parent, extract_fn. destruct (g_propagate g); [|reflexivity].
  destruct (parse_tp (n_tp i)); reflexivity.
Qed.

Definition end_ev (g : cfg) (sid : nat) (p : option opar) (err : option bytes) : bev :=
  match err with
  | None => BEnd sid SOk false [] true p
  | Some ty => BEnd sid SError (g_recexc g) ty true p
  end.

Definition ev_status (e : bev) : option stcode := match e with BEnd _ st _ _ _ _ => Some st | _ => None end.

Variant hook_ended g (s : sdk) (t : token) i err : sdk * list bev -> Prop :=
| ended_none : (forall sid p, tk_span t = Some (sid, p) -> ~ In sid (s_live s)) ->
    hook_ended g s t i err (s, end_metrics g i err)
| ended_span sid p : tk_span t = Some (sid, p) -> In sid (s_live s) ->
    hook_ended g s t i err ({| s_next := s_next s; s_live := remove_nat sid (s_live s) |},
                            end_ev g sid p err :: end_metrics g i err).

Lemma hook_end_shape g s t i err : hook_ended g s t i err (hook_end g s t i err).
Proof.
  unfold hook_end, end_span. destruct (tk_span t) as [[sid p]|] eqn:E; [|left; congruence].
  destruct (mem_nat sid (s_live s)) eqn:M.
  - apply mem_nat_In in M. now apply (ended_span g s t i err sid p).
  - left. intros sid' p' E' H. apply mem_nat_In in H. congruence.
Qed.

Lemma metrics_filters g i err :
  filter is_start (end_metrics g i err) = [] /\ filter is_end (end_metrics g i err) = []
  /\ filter is_metric (end_metrics g i err) = end_metrics g i err.
Proof. unfold end_metrics. destruct (g_metrics g); cbn; auto. Qed.

Lemma end_ev_kind g sid p err :
  is_start (end_ev g sid p err) = false /\ is_end (end_ev g sid p err) = true
  /\ is_metric (end_ev g sid p err) = false.
Proof. destruct err; cbn; auto. Qed.

Section HookFacts.
  Variable sampler : option sctx -> bool.
  Variable g : cfg.
  Let extract := extract_fn (g_propagate g).

  Lemma counts_ok_metrics i err : counts_ok g (Some (i, err)) (end_metrics g i err) = true.
  Proof.
    unfold counts_ok, end_metrics. destruct (g_metrics g); [|reflexivity].
    now rewrite !beqb_refl.
  Qed.

  Lemma end_matches_end_ev sid i err :
    end_matches g (i, err) (end_ev g sid (want_parent g i) err) = true.
  Proof.
    unfold end_matches, end_ev. destruct err; cbn [fst snd andb]; rewrite opt_opar_refl; cbn;
      now rewrite ?beqb_refl, ?Bool.eqb_reflx.
  Qed.

  (* a token whose recorded parent is the one the property demands for [i]: the caller's
     traceparent, else the ambient span context, else none *)
  Definition tok_for (i : info) (t : token) : Prop :=
    forall sid p, tk_span t = Some (sid, p) -> g_tracing g = true /\ p = want_parent g i.

  Lemma hook_start_tok s i :
    tok_for i (snd (fst (hook_start extract sampler g s i))).
  Proof.
    unfold hook_start, tok_for. destruct (g_tracing g) eqn:T; cbn; intros sid p H; [|discriminate].
    inversion H; subst. split; [reflexivity | apply want_parent_eq].
  Qed.

  Lemma seg_nil : seg_ok g (None, None) [] = true.
  Proof. unfold seg_ok, starts_ok, ends_ok, counts_ok. cbn. destruct (g_tracing g), (g_metrics g); reflexivity. Qed.

  Lemma seg_end s t i err : tok_for i t ->
    seg_ok g (None, Some (i, err)) (snd (hook_end g s t i err)) = true.
  Proof.
    intro Ht. destruct (metrics_filters g i err) as (M1 & M2 & M3).
    assert (St : starts_ok g None [] = true) by (unfold starts_ok; now destruct (g_tracing g)).
    unfold seg_ok.
    destruct (hook_end_shape g s t i err) as [_ | sid p Hs _]; cbn [fst snd].
    - rewrite M1, M2, M3, St, counts_ok_metrics. cbn [ends_ok andb length Nat.add]. apply Nat.eqb_refl.
    - destruct (Ht sid p Hs) as [T ->]. destruct (end_ev_kind g sid (want_parent g i) err) as (K1 & K2 & K3).
      cbn [filter]. rewrite K1, K2, K3, M1, M2, M3, St, counts_ok_metrics.
      unfold ends_ok. rewrite T, end_matches_end_ev. cbn [andb length Nat.add]. apply Nat.eqb_refl.
  Qed.

  Lemma starts_ok_none l : starts_ok g None l = true -> l = [].
  Proof. unfold starts_ok. destruct (g_tracing g), l as [|[] [|]]; now try discriminate. Qed.

  Lemma seg_with_start s i pe evs :
    seg_ok g (None, pe) evs = true ->
    seg_ok g (Some i, pe) (snd (hook_start extract sampler g s i) ++ evs) = true.
  Proof.
    unfold hook_start. destruct (g_tracing g) eqn:T; cbn [negb snd app].
    - unfold seg_ok. cbn [fst snd filter is_start is_end is_metric length]. intro H.
      apply andb_true_iff in H as [H L]. apply andb_true_iff in H as [H C]. apply andb_true_iff in H as [S0 En].
      apply starts_ok_none in S0. rewrite S0 in *. rewrite En, C.
      unfold starts_ok, extract. rewrite T, beqb_refl, want_parent_eq, opt_opar_refl. exact L.
    - unfold seg_ok, starts_ok. now rewrite T.
  Qed.

  Lemma seg_start s i :
    seg_ok g (Some i, None) (snd (hook_start extract sampler g s i)) = true.
  Proof. rewrite <- (app_nil_r (snd _)). apply seg_with_start, seg_nil. Qed.

  Lemma seg_whole s i err :
    seg_ok g (Some i, Some (i, err)) (snd (whole extract sampler g s i err)) = true.
  Proof. rewrite whole_eq. apply seg_with_start, seg_end, hook_start_tok. Qed.
End HookFacts.

Section Step.
  Variable extract : bytes -> bytes -> option sctx.
  Variable sampler : option sctx -> bool.
  Variable g : cfg.
  Variable calls : list call.

  Definition entered (st : state) (s : sdk) (k : nat) (v : cstate) : state :=
    {| st_sdk := s; st_calls := (k, v) :: st_calls st |}.

  (* What a step of the schedule does, beside what the plan says of it: nothing (an op the
     dispatch layer ignores); a call that never reaches the hook; a gated call, whose token is
     kept; a call that ends at once; the end of a gated call and its continuations. *)
  Inductive stepR (st : state) : op -> state -> list (list bev) -> list seg_plan -> Prop :=
  | step_skip o : stepR st o st [[]] [(None, None)]
  | step_nohook k : lookup k (st_calls st) = None ->
      stepR st (Begin k) (entered st (st_sdk st) k Done) [[]] [(None, None)]
  | step_begin k cl : nth_error calls k = Some cl -> lookup k (st_calls st) = None ->
      let r := hook_start extract sampler g (st_sdk st) (call_info cl) in
      stepR st (Begin k) (entered st (fst (fst r)) k (Running (snd (fst r)))) [snd r] [(Some (call_info cl), None)]
  | step_whole k cl : lookup k (st_calls st) = None ->
      let r := whole extract sampler g (st_sdk st) (call_info cl) (call_err cl) in
      stepR st (Begin k) (entered st (fst r) k Done) [snd r] [(Some (call_info cl), Some (call_info cl, call_err cl))]
  | step_finish k cl t : nth_error calls k = Some cl -> lookup k (st_calls st) = Some (Running t) ->
      let r := hook_end g (st_sdk st) t (call_info cl) (call_err cl) in
      let rc := run_conts extract sampler g (fst r) (cont_info cl) (conts cl) in
      stepR st (Finish k) (entered st (fst rc) k Done) (snd r :: snd rc)
            ((None, Some (call_info cl, call_err cl))
               :: map (fun e => (Some (cont_info cl), Some (cont_info cl, e))) (conts cl)).

  Lemma step_shape st o :
    stepR st o (fst (step extract sampler g calls st o)) (snd (step extract sampler g calls st o))
          (snd (plan_step calls (tbl_of (st_calls st)) o))
    /\ fst (plan_step calls (tbl_of (st_calls st)) o) = tbl_of (st_calls (fst (step extract sampler g calls st o))).
  Proof.
    destruct o as [k|k]; cbn [step plan_step]; rewrite lookup_tbl;
      (destruct (nth_error calls k) as [cl|] eqn:Hc; [|split; [constructor | reflexivity]]).
    - destruct (lookup k (st_calls st)) as [v|] eqn:Hl; cbn [option_map]; [split; [constructor | reflexivity]|].
      destruct (reaches_hook cl); cbn [negb]; [|split; [now constructor | reflexivity]].
      destruct (enters_gate cl); rewrite !let_pair; cbn [fst snd]; (split; [now constructor | reflexivity]).
    - destruct (lookup k (st_calls st)) as [[t|]|] eqn:Hl; cbn [option_map is_running]; [|split; [constructor | reflexivity]..].
      rewrite !let_pair; cbn [fst snd]. split; [now constructor | reflexivity].
  Qed.

End Step.

Lemma segs_ok_app g p1 p2 s1 s2 :
  segs_ok g p1 s1 = true -> segs_ok g p2 s2 = true -> segs_ok g (p1 ++ p2) (s1 ++ s2) = true.
Proof.
  revert s1; induction p1 as [|p p1 IH]; intros [|e s1]; cbn; intros H1 H2; try discriminate; [exact H2|].
  apply andb_true_iff in H1 as [A B]. rewrite A. cbn. now apply IH.
Qed.

Section Sched.
  Variable sampler : option sctx -> bool.
  Variable g : cfg.
  Variable calls : list call.
  Let extract := extract_fn (g_propagate g).

  Definition toks_ok (cs : list (nat * cstate)) : Prop :=
    forall k t, lookup k cs = Some (Running t) ->
      exists cl, nth_error calls k = Some cl /\ tok_for g (call_info cl) t.

  Lemma conts_ok s i errs :
    segs_ok g (map (fun e => (Some i, Some (i, e))) errs) (snd (run_conts extract sampler g s i errs)) = true.
  Proof.
    revert s; induction errs as [|e r IH]; intro s; [reflexivity|].
    rewrite run_conts_eq. cbn [map snd segs_ok]. unfold extract. now rewrite seg_whole, IH.
  Qed.

  Lemma toks_cons_done k cs : toks_ok cs -> toks_ok ((k, Done) :: cs).
  Proof.
    intros H j t. cbn [lookup st_calls]. destruct (Nat.eqb k j); [discriminate | apply H].
  Qed.

  Lemma toks_cons_running k cl t cs :
    toks_ok cs -> nth_error calls k = Some cl -> tok_for g (call_info cl) t -> toks_ok ((k, Running t) :: cs).
  Proof.
    intros H Hc Ht j t'. cbn [lookup]. destruct (Nat.eqb k j) eqn:E; [|apply H].
    apply Nat.eqb_eq in E. subst j. intros [= <-]. now exists cl.
  Qed.

  Lemma stepR_ok st o st' es ps :
    stepR extract sampler g calls st o st' es ps -> toks_ok (st_calls st) ->
    segs_ok g ps es = true /\ toks_ok (st_calls st').
  Proof.
    intros R Hk. destruct R as [o|k Hl|k cl Hc Hl r|k cl Hl r|k cl t Hc Hl r rc]; cbn [segs_ok entered st_calls].
    - now rewrite seg_nil.
    - rewrite seg_nil. split; [reflexivity | now apply toks_cons_done].
    - unfold r, extract. rewrite seg_start. split; [reflexivity|].
      apply (toks_cons_running k cl); [exact Hk | exact Hc | apply hook_start_tok].
    - unfold r, extract. rewrite seg_whole. split; [reflexivity | now apply toks_cons_done].
    - destruct (Hk k t Hl) as (cl' & Hc' & Ht). rewrite Hc in Hc'. injection Hc' as <-.
      unfold rc, r. rewrite (seg_end g _ _ _ _ Ht), conts_ok. split; [reflexivity | now apply toks_cons_done].
  Qed.

  Lemma run_ok sched : forall st,
    toks_ok (st_calls st) ->
    segs_ok g (snd (plan calls (tbl_of (st_calls st)) sched)) (snd (run extract sampler g calls st sched)) = true
    /\ fst (plan calls (tbl_of (st_calls st)) sched) = tbl_of (st_calls (fst (run extract sampler g calls st sched))).
  Proof.
    induction sched as [|o r IH]; intros st Hk; [split; reflexivity|].
    rewrite plan_eq, run_eq. cbn [fst snd].
    destruct (step_shape extract sampler g calls st o) as [R ->].
    destruct (stepR_ok _ _ _ _ _ R Hk) as [A C]. destruct (IH _ C) as [D E].
    split; [now apply segs_ok_app | exact E].
  Qed.
End Sched.

Lemma toks_ok_init g calls : toks_ok g calls (st_calls init_state).
Proof. intros k t H. discriminate. Qed.

Lemma ended_of_app a b : ended_of (a ++ b) = ended_of a ++ ended_of b.
Proof. induction a as [|e a IH]; cbn; [reflexivity|]. destruct e; cbn; now rewrite ?IH. Qed.
Lemma started_rec_app a b : started_rec (a ++ b) = started_rec a ++ started_rec b.
Proof. induction a as [|e a IH]; cbn; [reflexivity|]. destruct e as [sid [] ? ? ?| | | |]; cbn; now rewrite ?IH. Qed.

Lemma end_ev_books g sid p err r :
  ended_of (end_ev g sid p err :: r) = sid :: ended_of r /\ started_rec (end_ev g sid p err :: r) = started_rec r.
Proof. now destruct err. Qed.

Lemma remove_nat_perm x l : NoDup l -> In x l -> Permutation l (x :: remove_nat x l).
Proof.
  intros ND H. apply NoDup_Permutation; [exact ND | constructor; [rewrite remove_nat_In; tauto | now apply NoDup_filter] |].
  intro y. cbn [In]. rewrite remove_nat_In. destruct (Nat.eq_dec y x) as [-> |]; intuition congruence.
Qed.

(* The SDK's books against the ids seen so far: [st] the spans started recording (each
   once, below the SDK's [next] span id), [en] the spans ended, [live] the SDK's recording
   spans.  The started spans are the ended ones and the live ones. *)
Definition books (live : list nat) (next : nat) (st en : list nat) : Prop :=
  NoDup st /\ Permutation st (en ++ live) /\ forall x, In x st -> (x < next)%nat.

Lemma books_next live next st en : books live next st en -> books live (S next) st en.
Proof. intros (ND & P & B). repeat split; auto. intros x H. apply B in H. lia. Qed.

Lemma books_start live next st en : books live next st en -> books (next :: live) (S next) (st ++ [next]) en.
Proof.
  intros (ND & P & B). split; [|split].
  - apply (NoDup_Add (Add_app next st [])). rewrite app_nil_r. split; [exact ND|]. intro H. apply B in H. lia.
  - rewrite <- Permutation_cons_append. now apply Permutation_cons_app.
  - intros x H. apply in_app_or in H as [H | [<- | []]]; [apply B in H|]; lia.
Qed.

Lemma books_end live next st en sid :
  books live next st en -> In sid live -> books (remove_nat sid live) next st (en ++ [sid]).
Proof.
  intros (ND & P & B) M. split; [exact ND | split; [|exact B]].
  rewrite P, <- app_assoc. apply Permutation_app_head, remove_nat_perm; [|exact M].
  exact (NoDup_app_r _ _ (Permutation_NoDup P ND)).
Qed.

Definition sdk_books (s : sdk) (tr : list bev) : Prop :=
  books (s_live s) (s_next s) (started_rec tr) (ended_of tr).

Section Life.
  Variable extract : bytes -> bytes -> option sctx.
  Variable sampler : option sctx -> bool.
  Variable g : cfg.

  Lemma metrics_none i err : ended_of (end_metrics g i err) = [] /\ started_rec (end_metrics g i err) = [].
  Proof. unfold end_metrics. destruct (g_metrics g); cbn; auto. Qed.

  Lemma sdk_books_start s tr i :
    sdk_books s tr -> sdk_books (fst (fst (hook_start extract sampler g s i))) (tr ++ snd (hook_start extract sampler g s i)).
  Proof.
    unfold sdk_books, hook_start. destruct (g_tracing g); cbn [negb fst snd]; [|now rewrite app_nil_r].
    rewrite ended_of_app, started_rec_app.
    destruct (sampler _); cbn [s_live s_next ended_of started_rec]; rewrite !app_nil_r; intro H;
      [now apply books_start | now apply books_next].
  Qed.

  Lemma start_live s i x :
    In x (s_live (fst (fst (hook_start extract sampler g s i)))) ->
    In x (s_live s) \/ exists p, tk_span (snd (fst (hook_start extract sampler g s i))) = Some (x, p).
  Proof.
    unfold hook_start. destruct (g_tracing g); cbn [negb fst snd s_live tk_span]; [|now left].
    destruct (sampler _); [|now left]. cbn [In].
    intros [<- | H]; [right; eauto | now left].
  Qed.

  Lemma end_live s t i err x :
    In x (s_live (fst (hook_end g s t i err))) ->
    In x (s_live s) /\ forall p, tk_span t <> Some (x, p).
  Proof.
    destruct (hook_end_shape g s t i err) as [Hn | sid p Ht _]; cbn [fst s_live]; intro H.
    - split; [exact H|]. intros p E. exact (Hn x p E H).
    - apply remove_nat_In in H as [A B]. split; [exact A|]. intros q E. rewrite Ht in E. congruence.
  Qed.

  Lemma sdk_books_end s tr t i err :
    sdk_books s tr -> sdk_books (fst (hook_end g s t i err)) (tr ++ snd (hook_end g s t i err)).
  Proof.
    unfold sdk_books. destruct (metrics_none i err) as [M1 M2]. rewrite ended_of_app, started_rec_app.
    destruct (hook_end_shape g s t i err) as [_ | sid p _ M]; cbn [fst snd s_live s_next].
    - now rewrite M1, M2, !app_nil_r.
    - destruct (end_ev_books g sid p err (end_metrics g i err)) as [-> ->].
      rewrite M1, M2, app_nil_r. intro H. now apply books_end.
  Qed.
  Variable calls : list call.

  (* every recording span belongs to the token of a call that is still running *)
  Definition live_owned (st : state) : Prop :=
    forall x, In x (s_live (st_sdk st)) ->
      exists k t p, lookup k (st_calls st) = Some (Running t) /\ tk_span t = Some (x, p).

  Lemma sdk_books_whole s tr i err :
    sdk_books s tr -> sdk_books (fst (whole extract sampler g s i err)) (tr ++ snd (whole extract sampler g s i err)).
  Proof. intro H. rewrite whole_eq. cbn [fst snd]. rewrite app_assoc. now apply sdk_books_end, sdk_books_start. Qed.

  Lemma whole_live s i err x :
    In x (s_live (fst (whole extract sampler g s i err))) -> In x (s_live s).
  Proof.
    rewrite whole_eq. cbn [fst]. intro H. apply end_live in H as [A B].
    destruct (start_live _ _ _ A) as [C | [p C]]; [exact C | now apply B in C].
  Qed.

  Lemma conts_life errs : forall s tr i,
    sdk_books s tr ->
    sdk_books (fst (run_conts extract sampler g s i errs)) (tr ++ concat (snd (run_conts extract sampler g s i errs)))
    /\ forall x, In x (s_live (fst (run_conts extract sampler g s i errs))) -> In x (s_live s).
  Proof.
    induction errs as [|e r IH]; intros s tr i H.
    - cbn. rewrite app_nil_r. auto.
    - rewrite run_conts_eq. cbn [fst snd concat]. rewrite app_assoc.
      destruct (IH _ _ i (sdk_books_whole s tr i e H)) as [A B]. split; [exact A|].
      intros x Hx. exact (whole_live _ _ _ _ (B x Hx)).
  Qed.

  (* a new entry for call k hides k's former token: [live_owned] survives if no span of that token stays
     live and no span becomes live *)
  Lemma live_owned_keep st s' k v :
    live_owned st -> (forall x, In x (s_live s') -> In x (s_live (st_sdk st)) /\
                        forall t p, lookup k (st_calls st) = Some (Running t) -> tk_span t <> Some (x, p)) ->
    live_owned {| st_sdk := s'; st_calls := (k, v) :: st_calls st |}.
  Proof.
    intros H Hs x Hx. cbn [st_sdk st_calls] in *. destruct (Hs x Hx) as [A B].
    destruct (H x A) as (k' & t & p & Hl & Ht). exists k', t, p. split; [|exact Ht].
    cbn [lookup]. destruct (Nat.eqb k k') eqn:E; [|exact Hl].
    apply Nat.eqb_eq in E; subst k'. exfalso. exact (B t p Hl Ht).
  Qed.

  Lemma stepR_life st o st' es ps tr :
    stepR extract sampler g calls st o st' es ps -> sdk_books (st_sdk st) tr -> live_owned st ->
    sdk_books (st_sdk st') (tr ++ concat es) /\ live_owned st'.
  Proof.
    intros R HG HL. destruct R as [o|k Hl|k cl Hc Hl r|k cl Hl r|k cl t Hc Hl r rc];
      cbn [concat entered st_sdk]; rewrite ?app_nil_r.
    - auto.
    - split; [exact HG|]. apply live_owned_keep; [exact HL|]. intros x Hx. split; [exact Hx|]. intros t p E. congruence.
    - split; [now apply sdk_books_start|]. intros x Hx. cbn [entered st_sdk st_calls lookup] in *.
      destruct (start_live _ _ x Hx) as [A | [p A]].
      + destruct (HL x A) as (k' & t' & p & Hk & Ht). exists k', t', p. split; [|exact Ht].
        destruct (Nat.eqb k k') eqn:E; [|exact Hk]. apply Nat.eqb_eq in E; subst. congruence.
      + exists k, (snd (fst r)), p. split; [|exact A]. now rewrite Nat.eqb_refl.
    - split; [now apply sdk_books_whole|]. apply live_owned_keep; [exact HL|].
      intros x Hx. split; [exact (whole_live _ _ _ x Hx)|]. intros t p E. congruence.
    - destruct (conts_life (conts cl) (fst r) (tr ++ snd r) (cont_info cl) (sdk_books_end _ tr t _ _ HG)) as [A B].
      rewrite app_assoc. split; [exact A|]. apply live_owned_keep; [exact HL|].
      intros x Hx. destruct (end_live _ t _ _ x (B x Hx)) as [C D]. split; [exact C|].
      intros t' p E. rewrite Hl in E. injection E as <-. apply D.
  Qed.

  Lemma run_life sched : forall st tr,
    sdk_books (st_sdk st) tr -> live_owned st ->
    sdk_books (st_sdk (fst (run extract sampler g calls st sched))) (tr ++ concat (snd (run extract sampler g calls st sched)))
    /\ live_owned (fst (run extract sampler g calls st sched)).
  Proof.
    induction sched as [|o r IH]; intros st tr HG HL.
    - cbn. rewrite app_nil_r. auto.
    - rewrite run_eq. cbn [fst snd]. rewrite concat_app, app_assoc.
      destruct (step_shape extract sampler g calls st o) as [Hstep _].
      destruct (stepR_life _ _ _ _ _ tr Hstep HG HL) as [A B]. exact (IH _ _ A B).
  Qed.
End Life.

Lemma none_running_lookup tbl : forall seen,
  none_running seen tbl = true -> forall k, ~ In k seen -> lookup k tbl <> Some true.
Proof.
  induction tbl as [|[j r] tbl IH]; intros seen H k Hk; cbn [lookup]; [discriminate|].
  cbn [none_running] in H. apply andb_true_iff in H as [A B].
  destruct (Nat.eqb j k) eqn:E.
  - apply Nat.eqb_eq in E; subst j. apply orb_true_iff in A as [A | A].
    + exfalso. now apply Hk, mem_nat_In.
    + now destruct r.
  - apply (IH _ B). intros [-> | Hin]; [now rewrite Nat.eqb_refl in E | auto].
Qed.

Lemma bev_eqb_refl e : bev_eqb e e = true.
Proof.
  destruct e as [? ? ? ? ?|? [] ? ? ? ?| | |]; cbn;
    now rewrite ?Nat.eqb_refl, ?Bool.eqb_reflx, ?beqb_refl, ?opt_opar_refl, ?Z.eqb_refl.
Qed.

Lemma sdk_books_init : sdk_books (st_sdk init_state) [].
Proof. repeat split; [constructor.. | intros x []]. Qed.
Lemma live_owned_init : live_owned init_state.
Proof. intros x []. Qed.
