(* Proofs/C40.v — invariants of the notifyTransport machine, of the Once cell and
   of the codec-writer pool, for every schedule; the decidable spec holds on every
   model run. *)
From Coq Require Import Permutation.
From VR Require Import Model.C40 Lib.Lists.
Local Open Scope nat_scope.

Lemma bind_eqb_eq a b : bind_eqb a b = true <-> a = b.
Proof.
  destruct a as [a1 a2], b as [b1 b2]; unfold bind_eqb; cbn [fst snd].
  rewrite andb_true_iff, !N.eqb_eq. split; [intros [-> ->]; auto | intros H; inversion H; auto].
Qed.
Lemma bind_eqb_refl a : bind_eqb a a = true.
Proof. apply bind_eqb_eq; auto. Qed.
Lemma bind_eqb_neq a b : bind_eqb a b = false <-> a <> b.
Proof.
  split; intros H.
  - intros E. apply bind_eqb_eq in E. congruence.
  - destruct (bind_eqb a b) eqn:E; auto. apply bind_eqb_eq in E. contradiction.
Qed.

Lemma upd_same f t v : upd f t v t = v.
Proof. exact (fupd_same Nat.eqb Nat.eqb_eq f t v). Qed.
Lemma upd_other f t v x : x <> t -> upd f t v x = f x.
Proof. exact (fupd_other Nat.eqb Nat.eqb_eq f t v x). Qed.

Lemma bind_of_in c t : t < nthreads c -> In (bind_of c t) (c_binds c).
Proof. intros H. apply nth_In. exact H. Qed.

Definition holding (p : pc) : bool :=
  match p with PCheck | PHookEnter | PInHook _ | PCommit | PRelease _ => true | _ => false end.
Definition succeeded (p : pc) : bool :=
  match p with PRelease ROk | PRead | PDone ROk => true | _ => false end.
Definition failed (p : pc) : bool :=
  match p with PRelease RErr | PDone RErr => true | _ => false end.

Fixpoint chain (cs : list (binding * binding)) (b : binding) : Prop :=
  match cs with
  | [] => b = unbound
  | (o, n) :: r => b = n /\ o <> n /\ chain r o
  end.

Definition news (cs : list (binding * binding)) : list binding := map snd cs.

(* v has been the binding at some time *)
Definition was_bound (cs : list (binding * binding)) (v : binding) : Prop := v = unbound \/ In v (news cs).

Lemma was_bound_mono cs cs' v : incl cs cs' -> was_bound cs v -> was_bound cs' v.
Proof. intros H [E|E]; [left; exact E | right; exact (incl_map snd H v E)]. Qed.

Lemma chain_bound cs b : chain cs b -> was_bound cs b.
Proof. destruct cs as [|[o n] r]; cbn; intros H; [left; exact H | right; left; symmetry; apply H]. Qed.

Lemma chain_in cs b o n : chain cs b -> In (o, n) cs -> o <> n.
Proof.
  revert b. induction cs as [|[o' n'] r IH]; intros b H Hin; [contradiction|].
  cbn in H. destruct H as [_ [H1 H2]]. destruct Hin as [E|Hin]; [inversion E; subst; auto | eauto].
Qed.

Lemma ok_binds_in c outs b :
  In b (ok_binds c outs) <-> exists t, In (t, true) outs /\ b = bind_of c t.
Proof.
  unfold ok_binds. rewrite in_map_iff. split.
  - intros [[t o] [E H]]. apply filter_In in H. destruct H as [H1 H2]. cbn in *. subst.
    exists t; auto.
  - intros [t [H ->]]. exists (t, true). split; auto. apply filter_In; auto.
Qed.

Lemma ok_binds_mono c outs outs' b : incl outs outs' -> In b (ok_binds c outs) -> In b (ok_binds c outs').
Proof. rewrite !ok_binds_in. intros H (t & A & B). eauto. Qed.

Definition held (s : state) (t n : nat) : Prop := s_gate s = Some t /\ s_inhook s = n.

(* What is known of thread t standing at p, in the manner of an Owicki-Gries
   annotation of notifyTransport.  A gate holder's assertion speaks of the
   fields that only a holder writes; the others' speak of histories, which only
   grow: so no step of one thread disturbs the assertion of another. *)
Definition at_pc (c : cfg) (s : state) (t : nat) (p : pc) : Prop :=
  match p with
  | PStart => True
  | PCheck => held s t 0
  | PHookEnter => held s t 0 /\ s_bound s <> bind_of c t /\ c_hook c = true
  | PInHook _ => held s t 1 /\ s_bound s <> bind_of c t /\ c_hook c = true
  | PCommit => held s t 0 /\ s_bound s <> bind_of c t
               /\ (c_hook c = true -> In (bind_of c t) (ok_binds c (s_outs s)))
  | PRelease ROk => held s t 0 /\ t < nthreads c /\ was_bound (s_commits s) (bind_of c t)
  | PRelease RErr => held s t 0 /\ c_hook c = true /\ In (t, false) (s_outs s)
  | PRead | PDone ROk => t < nthreads c /\ was_bound (s_commits s) (bind_of c t)
  | PDone RErr => c_hook c = true /\ In (t, false) (s_outs s)
  end.

Lemma at_pc_mono c s s' t p :
  (holding p = true -> s_gate s' = s_gate s /\ s_inhook s' = s_inhook s /\ s_bound s' = s_bound s) ->
  incl (s_commits s) (s_commits s') -> incl (s_outs s) (s_outs s') ->
  at_pc c s t p -> at_pc c s' t p.
Proof.
  intros F Hc Ho.
  pose proof (was_bound_mono _ _ (bind_of c t) Hc) as Hs.
  pose proof (ok_binds_mono c _ _ (bind_of c t) Ho) as Hk.
  pose proof (Ho (t, false)) as Hf.
  destruct (holding p) eqn:Hh.
  - (* a holder: the fields its assertion reads are those of s *)
    destruct (F eq_refl) as (Eg & Ei & Eb).
    destruct p as [| | | | |[]| |[]]; try discriminate Hh; cbn [at_pc]; unfold held; rewrite Eg, Ei, ?Eb.
    (* PCheck, PHookEnter, PInHook read nothing else; PCommit, PRelease ROk, PRelease RErr one history more *)
    1-3: exact id.
    all: intros ((Hg & Hi) & A & B); repeat split; auto.
  - (* not a holder: PStart knows nothing; PRead, PDone ROk, PDone RErr read one history *)
    destruct p as [| | | | |[]| |[]]; try discriminate Hh; cbn [at_pc]; [exact id | intros [A B]; split; auto ..].
Qed.

(* v was read by a successful caller, an outside observer or a hook *)
Definition observed (s : state) (v : binding) : Prop :=
  In v (map snd (s_reads s)) \/ In v (s_peeks s) \/ In v (map h_seen (s_runs s)).

Record Inv (c : cfg) (s : state) : Prop := {
  I_pc : forall t, at_pc c s t (s_pcs s t);
  I_free : s_gate s = None -> s_inhook s = 0;
  I_le : s_inhook s <= 1;
  I_runs : forall r, In r (s_runs s) ->
             h_overlap r = false /\ h_seen r <> h_bind r /\ h_bind r = bind_of c (h_tid r)
             /\ h_tid r < nthreads c /\ c_hook c = true;
  I_chain : chain (s_commits s) (s_bound s);
  I_okc : c_hook c = true -> forall b, In b (news (s_commits s)) -> In b (ok_binds c (s_outs s));
  I_obs : forall v, observed s v -> was_bound (s_commits s) v;
  I_len : length (s_runs s) = length (s_outs s) + s_inhook s;
  I_cb : forall b, In b (news (s_commits s)) -> In b (c_binds c)
}.

Lemma Inv_init c : Inv c init.
Proof. constructor; unfold observed; cbn; intros; try tauto; auto. Qed.

(* an observation is of the binding of its time, which has been stored *)
Lemma observed_was_bound c s v : Inv c s -> s_bound s = v \/ observed s v -> was_bound (s_commits s) v.
Proof. intros Hinv [<-|H]; [apply chain_bound, Hinv | apply Hinv, H]. Qed.

Lemma holding_gate c s t : Inv c s -> holding (s_pcs s t) = true -> s_gate s = Some t.
Proof.
  intros Hinv. pose proof (I_pc _ _ Hinv t) as P.
  destruct (s_pcs s t) as [| | | | |[]| |[]]; try discriminate; intros _; apply P.
Qed.

Lemma inhook_holding p : is_inhook p = true -> holding p = true.
Proof. destruct p; auto. Qed.

Lemma holder_unique c s t t' :
  Inv c s -> holding (s_pcs s t) = true -> holding (s_pcs s t') = true -> t = t'.
Proof. intros Hinv H1 H2. apply (holding_gate _ _ _ Hinv) in H1, H2. congruence. Qed.

Lemma succeeded_was_bound c s t :
  Inv c s -> succeeded (s_pcs s t) = true -> t < nthreads c /\ was_bound (s_commits s) (bind_of c t).
Proof.
  intros Hinv. pose proof (I_pc _ _ Hinv t) as P.
  destruct (s_pcs s t) as [| | | | |[]| |[]]; try discriminate; intros _; apply P.
Qed.

Lemma failed_out c s t :
  Inv c s -> failed (s_pcs s t) = true -> c_hook c = true /\ In (t, false) (s_outs s).
Proof.
  intros Hinv. pose proof (I_pc _ _ Hinv t) as P.
  destruct (s_pcs s t) as [| | | | |[]| |[]]; try discriminate; intros _; apply P.
Qed.

(* The annotations after a step of t that moves it to p.  Either t holds the
   gate or takes the free gate, and then every other thread is idle; or t is
   idle itself and leaves the holder's fields alone. *)
Lemma pcs_upd c s s' t p :
  Inv c s ->
  (s_gate s = None \/ s_gate s = Some t)
  \/ (s_gate s' = s_gate s /\ s_inhook s' = s_inhook s /\ s_bound s' = s_bound s) ->
  incl (s_commits s) (s_commits s') -> incl (s_outs s) (s_outs s') ->
  at_pc c s' t p -> forall x, at_pc c s' x (upd (s_pcs s) t p x).
Proof.
  intros Hinv Hown Hc Ho Hp x. unfold upd. destruct (Nat.eqb_spec x t) as [->|Hx]; [exact Hp|].
  apply at_pc_mono with s; auto; [|apply Hinv].
  intros Hh. destruct Hown as [Hg|F]; [exfalso|exact F].
  apply (holding_gate _ _ _ Hinv) in Hh. destruct Hg; congruence.
Qed.

(* The successor of s is a record built from the fields of s: a clause that
   speaks of untouched fields only is, up to conversion, the clause of the
   invariant of s, which the caller has put among the hypotheses. *)
Ltac next_state H :=
  injection H as <-; constructor;
  cbn [set_pc s_bound s_gate s_inhook s_runs s_outs s_commits s_pcs s_reads s_peeks];
  try assumption.

Lemma Inv_step c s t s' : Inv c s -> step c s t = Some s' -> Inv c s'.
Proof.
  intros Hinv H. unfold step in H.
  destruct (Nat.ltb_spec t (nthreads c)) as [Hlt|]; [cbn [negb] in H|discriminate].
  pose proof (I_pc _ _ Hinv t) as P. unfold held in P. pose proof Hinv as Hinv0. destruct Hinv0.
  destruct (s_pcs s t) as [| | |ok| |r| |r]; cbn [at_pc] in P.
  - (* PStart: take the free gate *)
    destruct (s_gate s) eqn:Hg; [discriminate|]. next_state H.
    + (* I_pc *) apply (pcs_upd c s); auto using incl_refl. split; [reflexivity | apply Hinv, Hg].
    + (* I_free *) discriminate.
  - (* PCheck *)
    destruct P as [Hg Hi]. next_state H.
    apply (pcs_upd c s); auto using incl_refl.
    destruct (bind_eqb (s_bound s) (bind_of c t)) eqn:E;
      [apply bind_eqb_eq in E | apply bind_eqb_neq in E; destruct (c_hook c) eqn:Hk];
      repeat split; auto; try congruence.
    rewrite <- E. apply chain_bound, Hinv.
  - (* PHookEnter: nobody is in the hook *)
    destruct P as ((Hg & Hi) & Hne & Hk). next_state H.
    + (* I_pc *) apply (pcs_upd c s); auto using incl_refl. repeat split; cbn; auto.
    + (* I_free *) congruence.
    + (* I_le *) lia.
    + (* I_runs *) intros r [<-|Hr]; [|apply Hinv, Hr]. cbn. rewrite Hi. repeat split; auto.
    + (* I_obs *) intros v [A|[A|[A|A]]]; apply (observed_was_bound c s v Hinv); unfold observed; auto.
    + (* I_len *) cbn [length]. rewrite (I_len _ _ Hinv). lia.
  - (* PInHook: the hook returns *)
    destruct P as ((Hg & Hi) & Hne & Hk). next_state H.
    + (* I_pc *) apply (pcs_upd c s); cbn [s_commits s_outs]; auto using incl_refl, incl_tl.
      destruct ok; repeat split; cbn; auto; try lia.
    + (* I_free *) congruence.
    + (* I_le *) lia.
    + (* I_okc *) intros _ b Hb. apply ok_binds_mono with (s_outs s); [apply incl_tl, incl_refl | apply (I_okc _ _ Hinv Hk), Hb].
    + (* I_len *) cbn [length]. rewrite (I_len _ _ Hinv). lia.
  - (* PCommit *)
    destruct P as ((Hg & Hi) & Hne & Hok). next_state H.
    + (* I_pc *) apply (pcs_upd c s); cbn [s_commits s_outs]; auto using incl_refl, incl_tl. repeat split; auto. right. left. reflexivity.
    + (* I_chain *) repeat split; auto.
    + (* I_okc *) intros Hk b [<-|Hb]; [apply Hok, Hk | apply (I_okc _ _ Hinv Hk), Hb].
    + (* I_obs *) intros v Hv. apply (was_bound_mono (s_commits s)); [apply incl_tl, incl_refl | apply Hinv, Hv].
    + (* I_cb *) intros b [<-|Hb]; [apply bind_of_in, Hlt | apply (I_cb _ _ Hinv), Hb].
  - (* PRelease *)
    assert (Hg : s_gate s = Some t /\ s_inhook s = 0) by (destruct r; apply P).
    next_state H.
    + (* I_pc *) apply (pcs_upd c s); auto using incl_refl; [tauto | destruct r; apply P].
    + (* I_free *) intros _. apply Hg.
  - (* PRead *)
    next_state H.
    + (* I_pc *) apply (pcs_upd c s); auto using incl_refl.
    + (* I_obs *) intros v [[A|A]|[A|A]]; apply (observed_was_bound c s v Hinv); unfold observed; auto.
  - discriminate.
Qed.

Lemma Inv_peek c s : Inv c s -> Inv c (peek s).
Proof.
  intros Hinv. constructor;
    cbn [peek s_bound s_gate s_inhook s_runs s_outs s_commits s_pcs s_reads s_peeks]; try apply Hinv.
  intros v [A|[[A|A]|A]]; apply (observed_was_bound c s v Hinv); unfold observed; auto.
Qed.

Lemma Inv_exec c s i : Inv c s -> Inv c (exec c s i).
Proof.
  intros Hinv. destruct i as [t|]; cbn [exec]; [|apply Inv_peek; auto].
  destruct (step c s t) eqn:E; auto. eapply Inv_step; eauto.
Qed.

Lemma Inv_run c sched : forall s, Inv c s -> Inv c (run c sched s).
Proof. apply fold_left_preserves. intros s i. apply Inv_exec. Qed.

Lemma run_app c a b s : run c (a ++ b) s = run c b (run c a s).
Proof. unfold run. apply fold_left_app. Qed.

Lemma burst_is_run c f t : forall s, exists k, burst c f t s = run c (repeat (Th t) k) s.
Proof.
  induction f as [|f IH]; intros s; cbn [burst]; [exists 0; reflexivity|].
  destruct (step c s t) as [s'|] eqn:E; [|exists 0; reflexivity].
  destruct (is_inhook (s_pcs s' t)).
  - exists 1. cbn. rewrite E. reflexivity.
  - destruct (IH s') as [k Hk]. exists (S k). cbn [repeat run fold_left exec]. rewrite E. exact Hk.
Qed.

Lemma do_ev_is_run c s e : exists sched, do_ev c s e = run c sched s.
Proof.
  destruct e as [t| |]; cbn [do_ev].
  - destruct (is_start (s_pcs s t)); [|exists []; reflexivity].
    destruct (burst_is_run c burst_fuel t s) as [k Hk]. eauto.
  - destruct (s_gate s) as [t|]; [|exists []; reflexivity].
    destruct (is_inhook (s_pcs s t)); [|exists []; reflexivity].
    destruct (burst_is_run c burst_fuel t s) as [k Hk]. eauto.
  - exists [Peek]. reflexivity.
Qed.

Definition same (c : cfg) (b : binding) : Prop := forall t, t < nthreads c -> bind_of c t = b.

Definition oks_only_head (outs : list (nat * bool)) : Prop :=
  match outs with [] => True | _ :: r => forall p, In p r -> snd p = false end.

(* With one binding for everybody the invariant leaves room for one store. *)
Lemma chain_same b cs bd :
  (forall v, In v (news cs) -> v = b) -> chain cs bd -> cs = [] \/ cs = [(unbound, b)].
Proof.
  destruct cs as [|[o n] [|[o' n'] r]]; cbn; intros H C; auto.
  - right. destruct C as (_ & _ & ->). rewrite (H n); auto.
  - exfalso. destruct C as (_ & Hne & -> & _). apply Hne. rewrite (H n), (H n'); auto.
Qed.

Lemma commits_same c b s : same c b -> Inv c s -> s_commits s = [] \/ s_commits s = [(unbound, b)].
Proof.
  intros Hs Hinv. apply chain_same with (s_bound s); [|apply Hinv].
  intros v Hv. apply (I_cb _ _ Hinv), (In_nth _ _ unbound) in Hv. destruct Hv as (t & Ht & <-). apply Hs, Ht.
Qed.

Lemma was_bound_is_bound c b s : same c b -> Inv c s -> was_bound (s_commits s) b -> s_bound s = b.
Proof.
  intros Hs Hinv Hb. pose proof (I_chain _ _ Hinv) as C.
  destruct (commits_same c b s Hs Hinv) as [E|E]; rewrite E in *; cbn in C; [|apply C].
  destruct Hb as [->|[]]. exact C.
Qed.

Lemma succeeded_bound c b s t : same c b -> Inv c s -> succeeded (s_pcs s t) = true -> s_bound s = b.
Proof.
  intros Hs Hinv A. apply (succeeded_was_bound _ _ _ Hinv) in A. destruct A as [Ht A].
  rewrite (Hs t Ht) in A. apply (was_bound_is_bound c b s Hs Hinv A).
Qed.

(* what does not follow from Inv: reads come after the store, and a hook that
   returned nil is followed by its caller's store before anybody else moves *)
Record InvS (c : cfg) (b : binding) (s : state) : Prop := {
  S_reads : forall p, In p (s_reads s) -> snd p = b;
  S_ok : forall t, In (t, true) (s_outs s) -> s_bound s = b \/ s_pcs s t = PCommit;
  S_last : oks_only_head (s_outs s)
}.

Lemma InvS_init c b : InvS c b init.
Proof. constructor; cbn; auto; intros; contradiction. Qed.

Lemma in_hook_no_ok c b s t ok :
  same c b -> Inv c s -> InvS c b s -> t < nthreads c -> s_pcs s t = PInHook ok ->
  forall p, In p (s_outs s) -> snd p = false.
Proof.
  intros Hs Hinv J Hlt Hpc [x []] Hin; [exfalso | reflexivity].
  pose proof (I_pc _ _ Hinv t) as P. rewrite Hpc in P. destruct P as (_ & Hne & _). rewrite (Hs t Hlt) in Hne.
  destruct (S_ok _ _ _ J x Hin) as [E|E]; [contradiction|].
  assert (x = t) by (apply (holder_unique c s); auto; [rewrite E | rewrite Hpc]; reflexivity).
  congruence.
Qed.

Lemma InvS_step c b s t s' :
  same c b -> Inv c s -> InvS c b s -> step c s t = Some s' -> InvS c b s'.
Proof.
  intros Hs Hinv J H. unfold step in H.
  destruct (Nat.ltb_spec t (nthreads c)) as [Hlt|]; [cbn [negb] in H|discriminate].
  pose proof (Hs t Hlt) as Hb. pose proof (I_pc _ _ Hinv t) as P.
  pose proof (fun ok => in_hook_no_ok c b s t ok Hs Hinv J Hlt) as Hall. pose proof J as J0. destruct J0.
  (* a thread that is not at PCommit and leaves outs alone leaves S_ok alone *)
  assert (Hok : forall p, s_pcs s t <> PCommit ->
            forall x, In (x, true) (s_outs s) -> s_bound s = b \/ upd (s_pcs s) t p x = PCommit).
  { intros p Hp x Hx. destruct (S_ok _ _ _ J x Hx) as [E|E]; [left; exact E | right].
    rewrite upd_other; [exact E | intros ->; contradiction]. }
  destruct (s_pcs s t) eqn:Hpc; try discriminate; try (destruct (s_gate s); [discriminate|]);
    next_state H; try (apply Hok; discriminate).
  - (* the hook returns, S_ok: its caller goes to PCommit; no earlier return was a success *)
    intros x [E|Hin]; [injection E as <- ->; right; apply upd_same | apply (Hall _ eq_refl) in Hin; discriminate].
  - (* the hook returns, S_last *)
    exact (Hall _ eq_refl).
  - (* PCommit, S_ok: the store makes the binding b *)
    intros x _. left. exact Hb.
  - (* PRead, S_reads: the reader succeeded, so its binding b has been stored *)
    intros p [<-|Hp]; [|apply J, Hp]. cbn [snd]. apply (was_bound_is_bound c b s Hs Hinv). rewrite <- Hb. apply P.
Qed.

Lemma InvS_exec c b s i : same c b -> Inv c s -> InvS c b s -> InvS c b (exec c s i).
Proof.
  intros Hs Hinv J. destruct i as [t|]; cbn [exec].
  - destruct (step c s t) eqn:E; auto. eapply InvS_step; eauto.
  - constructor; cbn [peek s_bound s_gate s_inhook s_runs s_outs s_commits s_pcs s_reads s_peeks]; apply J.
Qed.

Lemma InvS_run c b sched : same c b -> forall s, Inv c s -> InvS c b s -> InvS c b (run c sched s).
Proof.
  intros Hs. induction sched as [|i r IH]; intros s Hinv J; cbn; auto.
  apply IH; [apply Inv_exec | apply InvS_exec]; auto.
Qed.

Lemma mem_bind_in v l : mem_bind v l = true <-> In v l.
Proof. exact (existsb_eqb_In bind_eqb bind_eqb_eq v l). Qed.

Lemma ok_binds_rev c l b : In b (ok_binds c (rev l)) <-> In b (ok_binds c l).
Proof. split; apply ok_binds_mono; intros x; apply in_rev. Qed.

Lemma vis_ok c s v : Inv c s -> was_bound (s_commits s) v -> visible c (rev (s_outs s)) v = true.
Proof.
  intros Hinv [->|H]; unfold visible; [rewrite bind_eqb_refl; reflexivity|].
  apply orb_true_iff. right. destruct (c_hook c) eqn:Hk; apply mem_bind_in.
  - apply ok_binds_rev. eapply I_okc; eauto.
  - eapply I_cb; eauto.
Qed.

Lemma tres_all_map c outs f :
  (forall t, tres_ok c outs t (f t) = true) -> forall m k, tres_all c outs k (map f (seq k m)) = true.
Proof.
  intros H. induction m as [|m IH]; intros k; cbn; auto. rewrite H, IH. reflexivity.
Qed.

Lemma ok_only_last_app l p : (forall q, In q l -> snd q = false) -> ok_only_last (l ++ [p]) = true.
Proof.
  induction l as [|a l IH]; intros H; cbn [app]; [reflexivity|].
  cbn [ok_only_last]. destruct (l ++ [p]) eqn:E; [destruct l; discriminate|].
  rewrite IH by (intros q Hq; apply H; right; auto).
  rewrite (H a) by (left; auto). reflexivity.
Qed.

Lemma ok_only_last_rev outs : oks_only_head outs -> ok_only_last (rev outs) = true.
Proof.
  destruct outs as [|p r]; cbn [rev oks_only_head]; [reflexivity|]. intros H. apply ok_only_last_app.
  intros q Hq. apply H. apply in_rev. auto.
Qed.

Lemma same_binds_same c b : same_binds c = Some b -> same c b.
Proof.
  unfold same_binds, same, bind_of, nthreads. destruct (c_binds c) as [|b0 r]; [discriminate|].
  destruct (forallb (bind_eqb b0) r) eqn:F; cbn [andb]; [|discriminate].
  destruct (negb (bind_eqb b0 unbound)); [|discriminate]. intros E; inversion E; subst b0.
  intros t Ht. destruct t as [|t]; [reflexivity|]. cbn [nth]. cbn [length] in Ht.
  rewrite forallb_forall in F. symmetry. apply bind_eqb_eq. apply F. apply nth_In. lia.
Qed.

Lemma read_of_in s t v : read_of s t = Some v -> In (t, v) (s_reads s).
Proof.
  unfold read_of. destruct (find _ (s_reads s)) as [[x y]|] eqn:E; [|discriminate].
  intros H; inversion H; subst. apply find_some in E. destruct E as [E1 E2]. cbn in E2.
  apply Nat.eqb_eq in E2. subst. exact E1.
Qed.

Lemma tres_of_pc s t :
  match tres_of s t with
  | TNone => True
  | TErr => failed (s_pcs s t) = true
  | TOk v => succeeded (s_pcs s t) = true /\ forall x, v = Some x -> In (t, x) (s_reads s)
  end.
Proof.
  unfold tres_of. destruct (s_pcs s t) as [| | | | | | |[]]; cbn; auto; split; auto; [discriminate|].
  intros x R. apply read_of_in, R.
Qed.

Lemma tres_of_ok c s t : Inv c s -> tres_ok c (rev (s_outs s)) t (tres_of s t) = true.
Proof.
  intros Hinv. pose proof (tres_of_pc s t) as K. destruct (tres_of s t) as [| |v]; cbn [tres_ok]; [reflexivity | |].
  - destruct (failed_out c s t Hinv K) as [A B].
    rewrite A. cbn [andb]. apply existsb_exists. exists (t, false). split.
    + apply -> in_rev. exact B.
    + cbn. rewrite Nat.eqb_refl. reflexivity.
  - destruct K as [A R]. apply andb_true_iff. split.
    + destruct (succeeded_was_bound _ _ _ Hinv A) as [_ [F|F]]; [rewrite F, bind_eqb_refl; reflexivity|].
      destruct (c_hook c) eqn:Hk; [|rewrite orb_true_r; reflexivity].
      apply orb_true_iff. right. apply mem_bind_in, ok_binds_rev. eapply I_okc; eauto.
    + destruct v as [x|]; [|reflexivity]. apply (vis_ok c s x Hinv), Hinv. left. apply (in_map snd _ (t, x)), R. reflexivity.
Qed.

Lemma notify_spec_holds c s :
  Inv c s -> (forall b, same_binds c = Some b -> InvS c b s) ->
  notify_spec c (rev (map run_tuple (s_runs s))) (rev (s_outs s))
              (map (tres_of s) (seq 0 (nthreads c))) (rev (s_peeks s)) (s_bound s) = true.
Proof.
  intros Hinv J. unfold notify_spec. repeat (apply andb_true_iff; split).
  - apply forallb_forall. intros x Hx. apply in_rev in Hx. apply in_map_iff in Hx.
    destruct Hx as [r [<- Hr]]. unfold run_tuple.
    destruct (I_runs _ _ Hinv r Hr) as (A & B & C & _ & D).
    rewrite A, D, C, bind_eqb_refl. apply bind_eqb_neq in B. rewrite <- C, B. cbn.
    apply (vis_ok c s _ Hinv), Hinv. right. right. apply in_map, Hr.
  - apply Nat.leb_le. rewrite !rev_length, map_length, (I_len _ _ Hinv). lia.
  - apply Nat.leb_le. rewrite !rev_length, map_length, (I_len _ _ Hinv). pose proof (I_le _ _ Hinv). lia.
  - apply tres_all_map. intros t. apply tres_of_ok; auto.
  - apply forallb_forall. intros v Hv. apply in_rev in Hv. apply (vis_ok c s v Hinv), Hinv. right. left. exact Hv.
  - apply (vis_ok c s _ Hinv). apply chain_bound. apply Hinv.
  - destruct (same_binds c) as [b|] eqn:Sb; auto. specialize (J b eq_refl).
    apply same_binds_same in Sb.
    repeat (apply andb_true_iff; split).
    + destruct (c_hook c); auto. apply ok_only_last_rev. apply J.
    + rewrite forallb_map. apply forallb_forall. intros t _. pose proof (tres_of_pc s t) as K. destruct (tres_of s t) as [| |[x|]]; auto.
      apply bind_eqb_eq, (S_reads _ _ _ J (t, x)), K. reflexivity.
    + destruct (existsb is_tok _) eqn:E; auto. apply existsb_exists in E.
      destruct E as [r [Hr Hk]]. apply in_map_iff in Hr. destruct Hr as [t [<- _]].
      pose proof (tres_of_pc s t) as K. destruct (tres_of s t); try discriminate Hk.
      apply bind_eqb_eq, (succeeded_bound c b s t Sb Hinv), K.
Qed.

(* the three phases of a Once cell: untouched, f running in t0, f done with v *)
Variant OInv (cands : list N) (s : ostate) : Prop :=
| o_idle : o_val s = None -> o_running s = false -> o_count s = 0 ->
    (forall t, o_pcs s t = OStart) -> OInv cands s
| o_busy t0 : o_val s = None -> o_running s = true -> o_count s = 1 -> o_pcs s t0 = OComputing ->
    (forall t, t <> t0 -> o_pcs s t = OStart) -> OInv cands s
| o_done v : o_val s = Some v -> o_running s = false -> o_count s = 1 -> In v cands ->
    (forall t, o_pcs s t = OStart \/ o_pcs s t = ODone v) -> OInv cands s.

Lemma oupd_same f t v : oupd f t v t = v.
Proof. exact (fupd_same Nat.eqb Nat.eqb_eq f t v). Qed.
Lemma oupd_other f t v x : x <> t -> oupd f t v x = f x.
Proof. exact (fupd_other Nat.eqb Nat.eqb_eq f t v x). Qed.

Lemma OInv_init cands : OInv cands oinit.
Proof. now apply o_idle. Qed.

Lemma OInv_step cands s t s' : OInv cands s -> ostep cands s t = Some s' -> OInv cands s'.
Proof.
  intros Hinv H. unfold ostep in H.
  destruct (Nat.ltb_spec t (length cands)) as [Hlt|]; cbn [negb] in H; [|discriminate].
  destruct Hinv as [A B C D|t0 A B C D E|v A B C F D].
  - rewrite D, A, B in H. injection H as <-.
    apply o_busy with t; cbn; auto using oupd_same.
    intros x Hx. rewrite oupd_other; auto.
  - destruct (Nat.eq_dec t t0) as [->|Hne]; [|rewrite (E t Hne), A, B in H; discriminate].
    rewrite D in H. injection H as <-.
    apply o_done with (nth t0 cands 0%N); cbn; auto using nth_In.
    intros x. destruct (Nat.eq_dec x t0) as [->|Hx]; [rewrite oupd_same | rewrite oupd_other]; auto.
  - destruct (D t) as [P|P]; rewrite P in H; [|discriminate].
    rewrite A in H. injection H as <-. apply o_done with v; cbn; auto.
    intros x. destruct (Nat.eq_dec x t) as [->|Hx]; [rewrite oupd_same | rewrite oupd_other]; auto.
Qed.

Lemma OInv_exec cands s t : OInv cands s -> OInv cands (oexec cands s t).
Proof. intros Hinv. unfold oexec. destruct (ostep cands s t) eqn:E; auto. eapply OInv_step; eauto. Qed.

Lemma oexec_val cands s t v : OInv cands s -> o_val s = Some v -> o_val (oexec cands s t) = Some v.
Proof.
  intros Hinv H. unfold oexec, ostep. destruct (negb (Nat.ltb t (length cands))); [exact H|].
  destruct Hinv as [A _ _ _|t0 A _ _ _ _|w A _ _ _ D]; try congruence.
  destruct (D t) as [P|P]; rewrite P; [rewrite A; cbn; congruence | exact H].
Qed.

Lemma OInv_run cands sched : forall s, OInv cands s -> OInv cands (orun cands sched s).
Proof. apply fold_left_preserves. intros s t. apply OInv_exec. Qed.

Lemma orun_app cands a b s : orun cands (a ++ b) s = orun cands b (orun cands a s).
Proof. unfold orun. apply fold_left_app. Qed.

Lemma OInv_do_oev cands s e : OInv cands s -> OInv cands (do_oev cands s e).
Proof.
  intros Hinv. destruct e as [t|]; cbn [do_oev].
  - destruct (is_ostart (o_pcs s t)); auto using OInv_exec.
  - destruct (find_comp s (length cands)); auto using OInv_exec.
Qed.

Lemma OInv_run_oevs cands evs : forall s, OInv cands s -> OInv cands (run_oevs cands evs s).
Proof. apply fold_left_preserves. intros s e. apply OInv_do_oev. Qed.

Lemma OInv_count cands s : OInv cands s -> o_count s <= 1.
Proof. intros [_ _ C _|t0 _ _ C _ _|v _ _ C _ _]; rewrite C; auto. Qed.

Lemma OInv_val cands s v : OInv cands s -> o_val s = Some v -> o_count s = 1 /\ In v cands.
Proof. intros [A _ _ _|t0 A _ _ _ _|w A _ C F _] H; rewrite A in H; [discriminate..|]. injection H as <-. auto. Qed.

Lemma OInv_read cands s t v : OInv cands s -> oread s t = Some v -> o_val s = Some v.
Proof.
  unfold oread. intros [_ _ _ D|t0 _ _ _ D E|w A _ _ _ D].
  - rewrite D. discriminate.
  - destruct (Nat.eq_dec t t0) as [->|Hx]; [rewrite D | rewrite E by exact Hx]; discriminate.
  - destruct (D t) as [P|P]; rewrite P; [discriminate|]. intros H. injection H as <-. exact A.
Qed.

Lemma once_spec_holds cands s n :
  OInv cands s -> once_spec cands (N.of_nat (o_count s)) (map (oread s) (seq 0 n)) (o_val s) = true.
Proof.
  intros Hinv. unfold once_spec. rewrite !andb_true_iff. repeat split.
  - apply N.leb_le. pose proof (OInv_count _ _ Hinv). lia.
  - rewrite forallb_map. apply forallb_forall. intros t _. destruct (oread s t) as [v|] eqn:R; [|reflexivity].
    rewrite (OInv_read _ _ _ _ Hinv R). cbn. apply N.eqb_refl.
  - destruct (o_val s) as [v|] eqn:V; [|reflexivity]. destruct (OInv_val _ _ _ Hinv V) as [-> F].
    apply existsb_exists. exists v. split; [exact F | apply N.eqb_refl].
Qed.

(* no encoder twice, all of them made so far *)
Definition distinct_below (n : nat) (l : list nat) : Prop := NoDup l /\ forall e, In e l -> e < n.

Definition PInv (s : pstate) : Prop := distinct_below (p_next s) (p_pool s ++ map snd (p_held s)).

Lemma distinct_below_perm n l l' : Permutation l l' -> distinct_below n l -> distinct_below n l'.
Proof.
  intros P [Hn Hb]. split; [exact (Permutation_NoDup P Hn)|].
  intros e He. apply Hb, Permutation_in with l'; [symmetry; exact P | exact He].
Qed.

Lemma take_req_perm r h e rest :
  take_req r h = Some (e, rest) -> Permutation (map snd h) (e :: map snd rest).
Proof.
  revert e rest. induction h as [|[r' e'] t IH]; intros e rest H; cbn in H; [discriminate|].
  destruct (Nat.eqb r' r).
  - inversion H; subst. reflexivity.
  - destruct (take_req r t) as [[e1 t1]|] eqn:E; [|discriminate]. inversion H; subst.
    cbn. rewrite (IH _ _ eq_refl). apply perm_swap.
Qed.

Lemma PInv_init : PInv pinit.
Proof. split; cbn; [constructor | intros e []]. Qed.

Lemma PInv_step s o : PInv s -> PInv (pstep false s o).
Proof.
  intros Hinv. destruct o as [r|r fail]; cbn [pstep andb];
    destruct (take_req r (p_held s)) as [[e rest]|] eqn:E; try exact Hinv; unfold PInv in *.
  - (* check-out: a pooled encoder moves, or a new one is made *)
    destruct (p_pool s) as [|e p]; cbn [p_pool p_next p_held map snd app] in *.
    + destruct Hinv as [Hn Hb]. split; [constructor; [intros Hin; apply Hb in Hin; lia | exact Hn]|].
      intros e [<-|Hin]; [|apply Hb in Hin]; lia.
    + apply distinct_below_perm with (e :: p ++ map snd (p_held s)); [apply Permutation_middle | exact Hinv].
  - (* return *)
    cbn [p_pool p_next p_held app]. apply distinct_below_perm with (p_pool s ++ map snd (p_held s)); [|exact Hinv].
    rewrite (take_req_perm _ _ _ _ E). symmetry. apply Permutation_middle.
Qed.

Lemma PInv_run ops : forall s, PInv s -> PInv (prun false ops s).
Proof. apply fold_left_preserves. intros s o. apply PInv_step. Qed.

Lemma nodupb_NoDup l : nodupb l = true <-> NoDup l.
Proof. exact (nodupb_by_NoDup Nat.eqb Nat.eqb_eq l). Qed.

Lemma pool_exclusive s r1 r2 e : PInv s -> In (r1, e) (p_held s) -> In (r2, e) (p_held s) -> r1 = r2.
Proof.
  intros [Hn _] H1 H2. apply NoDup_app_r in Hn.
  pose proof (NoDup_map_inj snd _ _ _ Hn H1 H2 eq_refl). congruence.
Qed.

Lemma PInv_held s : PInv s -> nodupb (map snd (p_held s)) = true.
Proof. intros [Hn _]. apply nodupb_NoDup. eapply NoDup_app_r; eauto. Qed.

Definition HInv (s : hstate) : Prop := PInv (hs_gz s) /\ PInv (hs_zs s).

Lemma hrun_spec h : forall s, HInv s -> codec_spec h (hrun false s h) = true.
Proof.
  induction h as [|o t IH]; intros s [Ig Iz]; cbn [hrun codec_spec]; auto.
  assert (Ip : forall codec, PInv (hs_pool codec s)) by (intros codec; unfold hs_pool; destruct (codec =? 0)%N; auto).
  assert (Iset : forall codec p n, PInv p -> HInv (hs_set codec s p n)).
  { intros codec p n Hp. unfold hs_set. destruct (codec =? 0)%N; split; auto. }
  destruct o as [codec n|codec x|codec xs]; cbn [hstep].
  - rewrite IH by (apply Iset, PInv_run, Ip). reflexivity.
  - rewrite IH by (apply Iset, PInv_run, Ip). cbn. rewrite N.eqb_refl. reflexivity.
  - rewrite IH by (apply Iset, PInv_run, PInv_run, Ip).
    rewrite PInv_held by (apply PInv_run, Ip).
    unfold hop_ok, hop_expect. rewrite list_eqb_refl; [reflexivity|]. intros []; cbn; auto using N.eqb_refl.
Qed.

Definition reach (c : cfg) (sched : list item) : state := run c sched init.

Lemma reach_Inv c sched : Inv c (reach c sched).
Proof. apply Inv_run, Inv_init. Qed.
Lemma reach_InvS c b sched : same c b -> InvS c b (reach c sched).
Proof. intros H. apply InvS_run; auto using Inv_init, InvS_init. Qed.

Definition oreach (cands : list N) (sched : list nat) : ostate := orun cands sched oinit.

Lemma oreach_OInv cands sched : OInv cands (oreach cands sched).
Proof. apply OInv_run, OInv_init. Qed.

(* the model without the gate (the one-mutex design): the second mutex is needed *)
Definition clear_gate (s : state) : state :=
  {| s_bound := s_bound s; s_gate := None; s_inhook := s_inhook s; s_runs := s_runs s;
     s_outs := s_outs s; s_commits := s_commits s; s_pcs := s_pcs s; s_reads := s_reads s;
     s_peeks := s_peeks s |}.
Definition run_nogate (c : cfg) (sched : list item) (s : state) : state :=
  fold_left (fun s i => exec c (clear_gate s) i) sched s.
