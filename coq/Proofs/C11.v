(* Proofs/C11.v — the HTTP token chain refines the pipe loop.  A cursor sealed from the live
   state re-opens, on any instance and whatever the other streams did to its cache, to that
   state and this call's fixed half ([open_request_ok]); so the frames of the chain of HTTP
   responses are those of the pipe loop ([http_exch_view], [http_prod_view], for any step
   function, codec and routing), and the concrete model is an instance ([views_agree]). *)
From VR Require Import Model.C11.
From VR Require Model.C11H.

Lemma resps_view_cons {T V} (vw : bytes -> frame -> list V) (r : resp T) rs :
  resps_view vw (r :: rs) = flat_map (vw (resp_schema r)) (rs_frames r) ++ resps_view vw rs.
Proof. reflexivity. Qed.

Lemma cfind_firstn k n c v : cfind k (firstn n c) = Some v -> cfind k c = Some v.
Proof.
  revert c; induction n as [|n IH]; intros c H; [discriminate H|].
  destruct c as [|[k0 v0] c]; [discriminate H|]. cbn [firstn cfind] in *.
  destruct (beqb k k0); [exact H | now apply IH].
Qed.

Lemma cfind_cdel_other k k' c : beqb k k' = false -> cfind k (cdel k' c) = cfind k c.
Proof.
  intro H. induction c as [|[k0 v0] c IH]; [reflexivity|]. cbn [cdel filter fst cfind].
  destruct (beqb k' k0) eqn:E'; cbn [negb].
  - apply beqb_eq in E'. subst k0. rewrite H. exact IH.
  - cbn [cfind]. destruct (beqb k k0); [reflexivity | exact IH].
Qed.

Lemma cache_ok_nil cid info : cache_ok cid info [].
Proof. intros v H; discriminate H. Qed.

(* Moving (k, v) to the front of the LRU list, which is all a request does to a cache, is
   harmless to call cid when the key is another call's or the value is this call's fixed
   half; eviction only drops entries. *)
Lemma cache_ok_touch cid info k v c :
  (beqb cid k = true -> v = info) -> cache_ok cid info c -> cache_ok cid info ((k, v) :: cdel k c).
Proof.
  intros Hv H w Hw. cbn [cfind] in Hw. destruct (beqb cid k) eqn:E.
  - injection Hw as <-. now apply Hv.
  - rewrite (cfind_cdel_other _ _ _ E) in Hw. now apply H.
Qed.

Lemma cache_ok_cput cid info max k v c :
  (beqb cid k = true -> v = info) -> cache_ok cid info c -> cache_ok cid info (cput max k v c).
Proof.
  intros Hv H. destruct max as [|m]; [exact H|]. intros w Hw. apply cfind_firstn in Hw.
  exact (cache_ok_touch _ _ _ _ _ Hv H w Hw).
Qed.

(* a hit re-inserts what it found: whichever call looks up, every call's entry stays right *)
Lemma cache_ok_cget cid info max k c v c' :
  cache_ok cid info c -> cget max k c = Some (v, c') -> cache_ok cid info c'.
Proof.
  intros H Hg. destruct max as [|m]; cbn [cget] in Hg; [discriminate Hg|].
  destruct (cfind k c) as [v0|] eqn:E; [|discriminate Hg]. injection Hg as <- <-.
  apply cache_ok_touch; [|exact H]. intro Ek. apply beqb_eq in Ek. subst k. now apply H.
Qed.

Lemma caches_ok_upd cid info caches inst c :
  caches_ok cid info caches -> cache_ok cid info c -> caches_ok cid info (upd caches inst c).
Proof. intros H Hc n. unfold upd. destruct (Nat.eqb n inst); [exact Hc | apply H]. Qed.

Section Refinement.
  Context {state inp raw mid sbytes token ctoken V : Type}.
  Variable step : state -> inp -> tres state.
  Variable cast_p : raw -> inp + frame.
  Variable cast1 : raw -> mid + frame.
  Variable cast2 : callinfo -> mid -> inp + frame.
  Variable ser : state -> sbytes.
  Variable deser : sbytes -> option state.
  Variable seal_cur : bytes * sbytes -> token.
  Variable open_cur : token -> option (bytes * sbytes).
  Variable seal_call : callinfo -> ctoken.
  Variable open_call : ctoken -> option callinfo.
  Variable L : nat.
  Variable cut : list frame -> bool.
  Variable cmax : nat.
  Variable route : nat -> nat.
  Variable mth : bytes.
  Variable schema_of : callinfo -> bytes.
  Variable refusal : frame.
  Variable env : nat -> (nat -> cache) -> (nat -> cache).
  Variable vw : bytes -> frame -> list V.
  Variable info : callinfo.
  Variable schema : bytes.
  Let cid := ci_id info.

  Hypothesis Hgob : forall s, deser (ser s) = Some s.
  Hypothesis Hcur : forall x, open_cur (seal_cur x) = Some x.
  Hypothesis Hcall : forall x, open_call (seal_call x) = Some x.

  (* the other streams never touch this call's entry except to evict it: their
     call ids differ (see [cache_ok_cput], [cache_ok_cget]) *)
  Hypothesis Henv : forall k cs, caches_ok cid info cs -> caches_ok cid info (env k cs).
  Hypothesis Hmth : ci_method info = mth.
  Hypothesis Hschema : schema_of info = schema.

  Lemma resolve_ok c :
    cache_ok cid info c ->
    exists c', resolve open_call cmax c cid (seal_call info) = (Some info, c') /\ cache_ok cid info c'.
  Proof.
    intro Hc. unfold resolve, cget. destruct cmax as [|m].
    - rewrite Hcall. fold cid. rewrite beqb_refl. exists c. split; [reflexivity | exact Hc].
    - destruct (cfind cid c) as [v|] eqn:E.
      + apply Hc in E. subst v. eexists; split; [reflexivity | now apply cache_ok_touch].
      + rewrite Hcall. fold cid. rewrite beqb_refl. eexists; split; [reflexivity|].
        now apply cache_ok_cput.
  Qed.

  Lemma open_request_ok c s :
    cache_ok cid info c ->
    exists c', open_request deser open_cur open_call cmax mth c (seal_cur (cid, ser s)) (seal_call info)
               = (Some (cid, s, info), c') /\ cache_ok cid info c'.
  Proof.
    intro Hc. unfold open_request. rewrite Hcur, Hgob.
    destruct (resolve_ok c Hc) as (c' & Hr & Hc'). rewrite Hr.
    rewrite Hmth, beqb_refl. exists c'. split; [reflexivity | exact Hc'].
  Qed.

  Hypothesis Hnofin : forall s i s' o f, step s i = TOk s' o f -> f = false.
  Hypothesis Hcastvw : forall r e, cast_p r = inr e -> vw [] e = vw schema e.

  Lemma exch_client_view ins :
    (forall r, In r ins -> cast_http cast1 cast2 info r = cast_p r) ->
    forall k caches s, caches_ok cid info caches ->
    resps_view vw (exch_client step cast1 cast2 ser deser seal_cur open_cur open_call cmax route mth schema_of refusal env
                     k caches (seal_cur (cid, ser s)) (seal_call info) ins)
    = flat_map (vw schema) (pipe_loop step cast_p s ins).
  Proof.
    induction ins as [|r rest IH]; intros Hc k caches s Hok; [reflexivity|].
    cbn [exch_client pipe_loop]. unfold exchange_req.
    pose proof (Hc r (or_introl eq_refl)) as Hr. unfold cast_http in Hr.
    assert (Hc' : forall r0, In r0 rest -> cast_http cast1 cast2 info r0 = cast_p r0) by (intros r0 Hr0; apply Hc; now right).
    assert (Hrefused : forall e, cast_p r = inr e ->
              resps_view vw [@refused token e] = flat_map (vw schema) [e]).
    { intros e Ec. rewrite resps_view_cons. unfold refused. cbn [resp_schema rs_class rs_frames flat_map].
      change (resps_view vw []) with (@nil V). rewrite (Hcastvw r e Ec). apply app_nil_r. }
    destruct (cast1 r) as [m|e].
    - destruct (open_request_ok (env k caches (route k)) s (Henv k caches Hok _)) as (c' & Ho & Hok').
      rewrite Ho. destruct (cast2 info m) as [i|e]; rewrite <- Hr.
      + destruct (step s i) as [s' outs fin|e] eqn:Es.
        * apply Hnofin in Es. subst fin. cbn [rs_tok].
          rewrite resps_view_cons. cbn [resp_schema rs_class rs_schema rs_frames].
          rewrite Hschema, (IH Hc'), flat_map_app; [reflexivity|]. apply caches_ok_upd; [now apply Henv | exact Hok'].
        * cbn [rs_tok]. rewrite resps_view_cons. cbn [resp_schema rs_class rs_schema rs_frames].
          rewrite Hschema. change (resps_view vw []) with (@nil V). apply app_nil_r.
      + cbn [refused rs_tok]. apply Hrefused. now symmetry.
    - rewrite <- Hr. cbn [refused rs_tok]. apply Hrefused. now symmetry.
  Qed.

  Lemma http_exch_view caches s0 pre ins :
    (forall r, In r ins -> cast_http cast1 cast2 info r = cast_p r) ->
    caches_ok cid info caches ->
    resps_view vw (http_exch step cast1 cast2 ser deser seal_cur open_cur seal_call open_call cmax route mth schema_of refusal env
                     info schema caches s0 pre ins)
    = flat_map (vw schema) (pre ++ pipe_loop step cast_p s0 ins).
  Proof.
    intros Hc Hok. unfold http_exch. rewrite resps_view_cons.
    cbn [resp_schema rs_class rs_schema rs_frames]. fold cid.
    rewrite (exch_client_view ins Hc), flat_map_app; [reflexivity|].
    apply caches_ok_upd; [exact Hok|]. now apply cache_ok_cput.
  Qed.

  (* one request emits a prefix of the pipe loop's frames, [after] is what the loop emits from
     where the request stopped; a request that is offered a tick consumes at least one (the
     [pred]), so the number of ticks is fuel enough for [prod_client] *)
  Definition after (stop : @pstop state) (rest : list inp) : list frame :=
    match stop with PMore s' => pipe_loop step (@inl inp frame) s' rest | _ => [] end.

  Lemma produce_spec ticks : forall s n acc fs stop rest,
    produce step L cut s ticks n acc = (fs, stop, rest) ->
    fs ++ after stop rest = acc ++ pipe_loop step (@inl inp frame) s ticks
    /\ (length rest <= pred (length ticks))%nat.
  Proof.
    induction ticks as [|i r IH]; intros s n acc fs stop rest H; cbn [produce] in H.
    - injection H as <- <- <-. now split.
    - cbn [pipe_loop length pred]. destruct (step s i) as [s' outs [|]|e].
      + injection H as <- <- <-. cbn [after]. split; [now rewrite <- app_assoc | lia].
      + destruct (limit_hit L (n + count is_data outs) || cut (acc ++ outs)).
        * injection H as <- <- <-. split; [apply eq_sym, app_assoc | lia].
        * apply IH in H as (-> & Hl). split; [apply eq_sym, app_assoc | lia].
      + injection H as <- <- <-. split; [apply app_nil_r | lia].
  Qed.

  Lemma prod_client_view : forall fuel ticks k caches s,
    (length ticks <= fuel)%nat -> caches_ok cid info caches ->
    resps_view vw (prod_client step ser deser seal_cur open_cur open_call L cut cmax route mth schema_of refusal env
                     fuel k caches (seal_cur (cid, ser s)) (seal_call info) ticks)
    = flat_map (vw schema) (pipe_loop step (@inl inp frame) s ticks).
  Proof.
    induction fuel as [|f IH]; intros ticks k caches s Hlen Hok.
    - destruct ticks; [reflexivity | cbn [length] in Hlen; lia].
    - destruct ticks as [|t r]; [reflexivity|].
      cbn [prod_client]. unfold prod_req.
      destruct (open_request_ok (env k caches (route k)) s (Henv k caches Hok _)) as (c' & Ho & Hc'). rewrite Ho.
      destruct (produce step L cut s (t :: r) 0 []) as [[fs stop] rest] eqn:Ep.
      apply produce_spec in Ep as (Hp & Hl). cbn [app] in Hp. rewrite <- Hp.
      rewrite resps_view_cons. unfold token_resp at 1. cbn [resp_schema rs_class rs_schema rs_frames].
      rewrite Hschema, flat_map_app. f_equal.
      destruct stop as [| |s']; cbn [token_resp rs_tok after]; [reflexivity | reflexivity |].
      apply IH; [cbn [length] in Hlen, Hl; lia | apply caches_ok_upd; [now apply Henv | exact Hc']].
  Qed.

  Lemma http_prod_view caches s0 pre ticks :
    caches_ok cid info caches ->
    resps_view vw (http_prod step ser deser seal_cur open_cur seal_call open_call L cut cmax route mth schema_of refusal env
                     info schema caches s0 pre ticks)
    = flat_map (vw schema) (pre ++ pipe_loop step (@inl inp frame) s0 ticks).
  Proof.
    intro Hok. unfold http_prod.
    destruct (produce step L cut s0 ticks 0 pre) as [[fs stop] rest] eqn:Ep.
    apply produce_spec in Ep as (Hp & _). rewrite <- Hp.
    rewrite resps_view_cons. unfold token_resp at 1. cbn [resp_schema rs_class rs_schema rs_frames].
    rewrite flat_map_app. f_equal.
    destruct stop as [| |s']; cbn [token_resp rs_tok after]; [reflexivity | reflexivity |].
    fold cid. apply prod_client_view; [lia|].
    apply caches_ok_upd; [exact Hok|]. now apply cache_ok_cput.
  Qed.
End Refinement.

Lemma vframe_eqb_refl f : vframe_eqb f f = true.
Proof.
  destruct f; cbn [vframe_eqb]; rewrite ?beqb_refl, ?N.eqb_refl, ?kv_eqb_refl; try reflexivity.
  rewrite (list_eqb_refl Z.eqb Z.eqb_refl). reflexivity.
Qed.

Lemma view_eqb_refl v : view_eqb v v = true.
Proof.
  unfold view_eqb.
  now rewrite (opt_eqb_refl _ (list_eqb_refl _ vframe_eqb_refl)), (list_eqb_refl _ vframe_eqb_refl).
Qed.

(* OutputCollector.Finish refuses on an exchange collector: an exchange turn never finishes *)
Lemma sstep_exch_nofin s x s' o f : sstep false s x = TOk s' o f -> f = false.
Proof. unfold sstep. destruct (t_act _); intro H; inversion H; reflexivity. Qed.

Lemma flat_vf_stamp sch rid l : flat_map (vf sch) (map (stamp rid) l) = flat_map (vf sch) l.
Proof. induction l as [|f l IH]; [reflexivity|]. cbn [map flat_map]. rewrite IH. now destruct f. Qed.

Lemma flat_vf_pre sch rid i : flat_map (vf sch) (pre rid i) = flat_map (vf sch) (pre [] i).
Proof.
  unfold pre. destruct (hdr i); [reflexivity|]. induction (adm i) as [|m l IH]; [reflexivity|].
  cbn [map flat_map]. now rewrite IH.
Qed.

Lemma render_view {T} (r : resp T) :
  flat_map sview (h_streams (render r)) = flat_map (vf (resp_schema r)) (rs_frames r).
Proof.
  unfold render. cbn [h_streams flat_map]. unfold sview. cbn [st_schema st_frames].
  rewrite app_nil_r, flat_map_app.
  destruct (rs_tok r); [destruct (rs_sentinel r)|]; cbn [flat_map vf app]; apply app_nil_r.
Qed.

Lemma map_render_view {T} (rs : list (resp T)) :
  flat_map (fun r => flat_map sview (h_streams r)) (map render rs) = resps_view vf rs.
Proof.
  induction rs as [|r rs IH]; [reflexivity|]. cbn [map flat_map]. now rewrite render_view, IH.
Qed.

Lemma http_resps_cons lg i : exists r0 rest, http_resps_gen lg i = r0 :: rest.
Proof.
  unfold http_resps_gen. destruct (is_producer (i_kind i)).
  - unfold http_prod. destruct (produce _ _ _ _ _ _ _) as [[fs stop] rest]. eauto.
  - unfold http_exch. eauto.
Qed.

(* the repaired code's two HTTP casts compose to the pipe's cast on every batch, of this run or not *)
Lemma repaired_casts_agree k ocol r :
  is_producer k = false -> cast_http (cast_reg k) cast_rt (call_info false k ocol) r = cast_pipe r.
Proof.
  intro Ep. unfold cast_http, cast_reg, cast_rt, call_info. cbn [ci_inschema negb andb]. rewrite Ep.
  destruct (is_dynamic k); [reflexivity|]. unfold cast_pipe. destruct (fst r); reflexivity.
Qed.

(* the legacy code left out the second cast of a dynamic method: the same only where [cast_safe] *)
Lemma casts_agree lg i r :
  is_producer (i_kind i) = false -> In r (raws i) -> lg = false \/ cast_safe i = true ->
  cast_http (cast_reg (i_kind i)) cast_rt (call_info lg (i_kind i) (i_ocol i)) r = cast_pipe r.
Proof.
  intros Ep Hin Hs. destruct lg; [|now apply repaired_casts_agree].
  destruct Hs as [Hs|Hs]; [discriminate Hs|]. apply in_map_iff in Hin as (v & <- & _).
  unfold cast_safe in Hs. rewrite Ep in Hs. unfold cast_http, cast_reg, cast_rt, call_info. cbn [ci_inschema negb andb].
  destruct (is_dynamic (i_kind i)); destruct (i_col i); try discriminate Hs; reflexivity.
Qed.

Lemma http_resps_view lg i :
  lg = false \/ cast_safe i = true ->
  resps_view vf (http_resps_gen lg i) = flat_map (vf (out_schema i)) (pre [] i ++ loop i).
Proof.
  intro Hs. unfold http_resps_gen, loop. destruct (is_producer (i_kind i)) eqn:Ep.
  (* the codecs are identities: the round-trip premises and the method and schema equations
     hold by reflexivity; [env] is the identity and every cache starts empty *)
  - apply http_prod_view; try reflexivity; [intros k cs H; exact H|]. intro n. apply cache_ok_nil.
  - apply http_exch_view; try reflexivity; [intros k cs H; exact H| | | |].
    + exact sstep_exch_nofin.
    + intros r e H. unfold cast_pipe in H. destruct (fst r); inversion H; reflexivity.
    + intros r Hin. now apply casts_agree.
    + intro n. apply cache_ok_nil.
Qed.

Lemma views_agree lg i :
  lg = false \/ cast_safe i = true -> pipe_view (pipe_obs i) = http_view (http_obs_gen lg i).
Proof.
  intro Hs. unfold pipe_obs, http_obs_gen. destruct (i_initfail i) as [f|]; [reflexivity|].
  destruct (http_resps_cons lg i) as (r0 & rest & E). pose proof (http_resps_view lg i Hs) as K.
  rewrite E in K |- *. rewrite resps_view_cons, <- render_view, <- map_render_view in K.
  (* with or without a header stream, both sides split it off the same way *)
  unfold hdr_streams. destruct (hdr i);
    cbn [map app pipe_view http_view with_header h_streams render split_header option_map flat_map] in K |- *;
    rewrite K; unfold sview; cbn [st_schema st_frames];
    now rewrite !app_nil_r, !flat_map_app, flat_vf_pre, flat_vf_stamp.
Qed.

Lemma model_meets_spec i : spec_ok i (model i) = true.
Proof.
  unfold spec_ok, model, http_obs. cbn [o_pipe o_http]. rewrite (views_agree false i (or_introl eq_refl)). apply view_eqb_refl.
Qed.

(* the violation in the code before the repair: a dynamic exchange method receives
   {x:int32} (or a field named y); the pipe casts it to (refuses it against) the
   runtime input schema {x:int64}, the HTTP path had no registered schema to cast
   against and handed it over as sent *)
Definition emit_turn (v : Z) : tscript := {| t_logs := []; t_act := AEmit; t_value := v; t_meta := [] |}.
Definition dyn_cast_witness (col : coltype) : input :=
  {| i_kind := MDynExch; i_reqid := str "rq"; i_loglevel := []; i_initlogs := []; i_initfail := None; i_header := None;
     i_ocol := str "v"; i_turns := [emit_turn 1; emit_turn 2]; i_col := col; i_ins := [[10%Z]; [20%Z; 1%Z]];
     i_L := 0; i_capevery := false; i_cmax := 4096; i_route := [0%nat; 1%nat]; i_compress := false |}.

Lemma dyn_cast_legacy_refuted :
  spec_ok (dyn_cast_witness CI32) (legacy_model (dyn_cast_witness CI32)) = false
  /\ spec_ok (dyn_cast_witness CBadName) (legacy_model (dyn_cast_witness CBadName)) = false.
Proof. split; vm_compute; reflexivity. Qed.

Lemma history_meets_spec h : C11H.spec_ok h (C11H.model h) = true.
Proof.
  unfold C11H.spec_ok, C11H.model. induction (C11H.h_calls h) as [|i l IH]; [reflexivity|].
  cbn [map C11H.all2]. now rewrite model_meets_spec, IH.
Qed.
