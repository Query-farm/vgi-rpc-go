(* Proofs/C42.v — the listener machine of Model/C42.v keeps [inv] (the counter is
   the number of connections counted and not yet done, [serving], whether or not
   the serve-start hook let them be served; at most one timer is pending and it
   is the current one; every session is [good]: a prefix of the C02 run of its
   own calls). [inv_step] is the one walk over [step]; the schedule theorems are
   projections of [inv] on an arbitrary state. Outside [inv_step], what an event
   does to the sessions is read through [sess_exec] alone. The timed run is
   related op by op to the reference monitor: [simc] is kept by each event list
   that [top] runs ([open_run], [done_run], [fire_run] say what those do). That
   a connection which talked has read all it will ever get is a second
   invariant of the timed run, [views], which does not need the monitor. *)
From VR Require Import Model.C42 Lib.Lists.
From VR Require Model.C02.

(* reads the fields of a state that a step has rebuilt *)
Ltac simpl_st := cbn [active tvar shutdown wg closed looppend ph pendt firedt nextg accepted serving finished started
                      clock armlog last_count last_done late sessions] in *.

Lemma mem_In x l : mem x l = true <-> In x l.
Proof. exact (existsb_eqb_In Nat.eqb Nat.eqb_eq x l). Qed.

Lemma mem_app x a b : mem x (a ++ b) = mem x a || mem x b.
Proof. unfold mem. apply existsb_app. Qed.

Lemma remove1_In x c l : In x (remove1 c l) -> In x l.
Proof.
  induction l as [|y l IH]; cbn [remove1]; [easy|].
  destruct (Nat.eqb y c); cbn [In]; intuition.
Qed.

Lemma remove1_length c l : In c l -> S (length (remove1 c l)) = length l.
Proof.
  induction l as [|y l IH]; cbn [remove1 In]; [easy|].
  intros H. destruct (Nat.eqb y c) eqn:E; [reflexivity|].
  cbn [length]. f_equal. apply IH. destruct H as [->|H]; [|exact H]. rewrite Nat.eqb_refl in E. discriminate.
Qed.

Lemma In_remove1 x c l : In x l -> x = c \/ In x (remove1 c l).
Proof.
  induction l as [|y l IH]; cbn [remove1 In]; [easy|].
  intros [->|H].
  - destruct (Nat.eqb x c) eqn:E; [left; now apply Nat.eqb_eq | right; now left].
  - destruct (Nat.eqb y c) eqn:E; [now right|]. destruct (IH H) as [->|H']; [now left | right; now right].
Qed.

Lemma remove_all_single g : remove_all g [g] = [].
Proof. unfold remove_all. cbn [filter]. now rewrite Nat.eqb_refl. Qed.

Lemma serve_one_flat g ws :
  C02.serve_flat C02.current g ws =
  match serve_one g ws with Some (o, r) => o ++ C02.serve_flat C02.current g r | None => [] end.
Proof.
  destruct ws as [|s rest]; [reflexivity|]. cbn [C02.serve_flat serve_one].
  destruct (C02.step C02.current g s) as [|out|out|pre kk]; try reflexivity.
  - destruct rest; reflexivity.
  - destruct rest; cbn [C02.serve_flat]; [reflexivity | now rewrite <- app_assoc].
Qed.

Lemma serve_one_shorter g ws o r : serve_one g ws = Some (o, r) -> (length r < length ws)%nat.
Proof.
  destruct ws as [|s rest]; [discriminate|]. cbn [serve_one].
  destruct (C02.step C02.current g s); try discriminate; intros [= <- <-]; cbn [length]; destruct rest; cbn [length]; lia.
Qed.

(* one serveOne iteration on a session: the reader is stuck (EOF or Stop) and nothing moves, or it
   consumes at least one stream and writes what the C02 loop would have written first *)
Variant served (g : bool) (x : sess) : sess -> Prop :=
| served_stuck : C02.serve_flat C02.current g (fst x) = [] -> served g x x
| served_step o r :
    C02.serve_flat C02.current g (fst x) = o ++ C02.serve_flat C02.current g r ->
    (length r < length (fst x))%nat -> served g x (r, snd x ++ o).

Lemma serve_sess_served g x : served g x (serve_sess g x).
Proof.
  unfold serve_sess. pose proof (serve_one_flat g (fst x)) as F.
  destruct (serve_one g (fst x)) as [[o r]|] eqn:E; [|exact (served_stuck g x F)].
  exact (served_step g x o r F (serve_one_shorter g _ o r E)).
Qed.

(* a session of connection c: what it has written, followed by what the streams still unread
   will produce, is the C02 run of c's calls; the bound on the unread streams is what
   [talk_events] relies on *)
Definition good (k : cfg) (c : conn) (x : sess) : Prop :=
  snd x ++ C02.serve_flat C02.current (cf_gate k) (fst x) = C02.run_conn (cf_gate k) (cf_calls k c)
  /\ (length (fst x) <= length (C02.client_writes (cf_calls k c)))%nat.

Lemma good_serve k c x : good k c x -> good k c (serve_sess (cf_gate k) x).
Proof.
  intros [E L]. destruct (serve_sess_served (cf_gate k) x) as [_|o r F Lr]; [now split|].
  split; cbn [fst snd]; [now rewrite <- app_assoc, <- F | lia].
Qed.

Record inv (k : cfg) (s : st) : Prop := {
  i_active : active s = Z.of_nat (length (serving s));
  i_wg : wg s = Z.of_nat (length (serving s));
  i_pend : pendt s = [] \/ exists g, tvar s = Some g /\ pendt s = [g];
  i_shut : shutdown s = closed s;
  i_phase : ph s <> PAccept -> closed s = true /\ looppend s = None;
  i_ret : ph s = PReturned -> serving s = [];
  i_acc : forall c, In c (accepted s) <-> In c (finished s) \/ In c (serving s) \/ looppend s = Some c;
  (* the timer in the variable was armed by the last Done (or at the start), nobody was being served then,
     and no Count came after *)
  i_fresh : forall g, tvar s = Some g ->
            serving s = [] /\ lookup g (armlog s) = Some (last_done s) /\ (last_count s <= last_done s)%nat;
  i_clock : (last_count s <= clock s)%nat;
  (* once the listener is closed, whoever is still open is the connection caught in the accept window *)
  i_late : closed s = true -> forall c, In c (open_conns s) -> late s = Some c;
  i_has : forall c, In c (serving s) -> lookup c (sessions s) <> None;
  i_sess : forall c x, lookup c (sessions s) = Some x -> In c (accepted s) /\ good k c x }.

Lemma inv_init k : inv k (init k).
Proof.
  constructor; unfold init, open_conns; simpl_st; try easy.
  - destruct (cf_idle k); [right; now exists 0%nat | now left].
  - intros c. cbn [In]. intuition discriminate.
  - intros g. destruct (cf_idle k); [|discriminate]. intros [= <-]. cbn [lookup]. rewrite Nat.eqb_refl. auto.
Qed.

Lemma lookup_update {A} c c' (v : A) l :
  lookup c' (update c v l) = if Nat.eqb c c' then match lookup c l with Some _ => Some v | None => None end else lookup c' l.
Proof.
  induction l as [|[k w] l IH]; cbn [update lookup]; [now destruct (Nat.eqb c c')|].
  destruct (Nat.eqb k c) eqn:E1; cbn [lookup].
  - apply Nat.eqb_eq in E1. subst k. destruct (Nat.eqb c c') eqn:E2; reflexivity.
  - destruct (Nat.eqb k c') eqn:E2.
    + apply Nat.eqb_eq in E2. subst k. rewrite Nat.eqb_sym, E1. reflexivity.
    + exact IH.
Qed.

Lemma disarm_pend_nil k s : inv k s -> disarm_pend s = [].
Proof.
  intros Hinv. unfold disarm_pend. destruct (i_pend k s Hinv) as [E|(g & Eg & Ep)].
  - rewrite E. now destruct (tvar s).
  - rewrite Eg, Ep. apply remove_all_single.
Qed.

Lemma idle_no_conn k s : inv k s -> active s = 0%Z -> serving s = [].
Proof. intros Hinv. rewrite (i_active k s Hinv). destruct (serving s); [reflexivity | cbn [length]; lia]. Qed.

Lemma last_conn s c :
  active s = Z.of_nat (length (serving s)) -> In c (serving s) ->
  Z.eqb (active s - 1) 0 = match remove1 c (serving s) with [] => true | _ => false end.
Proof.
  intros -> H. pose proof (remove1_length c _ H) as RL. unfold conn in *. rewrite <- RL. clear.
  destruct (remove1 c (serving s)); cbn [length]; [reflexivity | apply Z.eqb_neq; lia].
Qed.

(* Each event rebuilds the state from a few changed fields, so every clause that
   reads none of them is the old clause up to conversion ([assumption]); what is
   left after it are the clauses the event really touches. *)
Lemma inv_step k s e s' : inv k s -> step k s e = Some s' -> inv k s'.
Proof.
  intros Hinv H. pose proof (disarm_pend_nil k s Hinv) as DP. pose proof (idle_no_conn k s Hinv) as Idle.
  destruct Hinv as [Ia Iw Ip Is Iph Ir Iacc If Ic Il Ih Ise].
  destruct e; cbn [step] in H.
  - (* AcceptRet *)
    destruct (is_accepting s && negb (closed s) && negb (mem c (accepted s))
              && match looppend s with None => true | Some _ => false end) eqn:G; [|discriminate].
    injection H as <-. apply andb_true_iff in G as [G G4]. apply andb_true_iff in G as [G _]. apply andb_true_iff in G as [G1 G2].
    destruct (looppend s) eqn:EL; [discriminate|]. unfold is_accepting in G1. destruct (ph s) eqn:EP; try discriminate.
    apply negb_true_iff in G2.
    constructor; try assumption; unfold open_conns; simpl_st.
    + (* i_phase *) intros Hp. now elim Hp.
    + (* i_acc *) intros c0. cbn [In]. rewrite (Iacc c0). split; [intros [->|[?|[?|?]]]; auto; discriminate | intros [?|[?|[= ->]]]; auto].
    + (* i_clock *) auto.
    + (* i_late *) congruence.
    + (* i_sess *) intros c0 x Hx. destruct (Ise c0 x Hx). split; [now right | assumption].
  - (* Count *)
    destruct (looppend s) as [c'|] eqn:EL; [|discriminate].
    destruct (Nat.eqb c c') eqn:EC; [|discriminate]. apply Nat.eqb_eq in EC. subst c'.
    injection H as <-.
    constructor; try assumption; unfold open_conns; simpl_st; cbn [length In lookup].
    + (* i_active *) clear -Ia. lia.
    + (* i_wg *) clear -Iw. lia.
    + (* i_pend *) auto.
    + (* i_phase *) intros Hp. destruct (Iph Hp) as [_ ?]. discriminate.
    + (* i_ret *) intros Hp. assert (ph s <> PAccept) as Hq by (rewrite Hp; discriminate). destruct (Iph Hq) as [_ ?]. discriminate.
    + (* i_acc *) intros c0. rewrite (Iacc c0). split; [intros [?|[?|[= ->]]]; auto | intros [?|[[->|?]|?]]; auto; discriminate].
    + (* i_fresh *) discriminate.
    + (* i_clock *) auto.
    + (* i_late *) intros Hc c0 Hin. apply (Il Hc). unfold open_conns. rewrite EL. exact Hin.
    + (* i_has *) intros c0. destruct (Nat.eqb c c0) eqn:E0; [discriminate|].
      intros [->|Hin]; [rewrite Nat.eqb_refl in E0; discriminate | now apply Ih].
    + (* i_sess *) intros c0 x. destruct (Nat.eqb_spec c c0) as [<-|_]; [|apply Ise]. intros [= <-].
      split; [apply Iacc; auto | split; [reflexivity | apply le_n]].
  - (* Start *)
    destruct (mem c (serving s) && negb (mem c (started s))); [|discriminate]. injection H as <-.
    constructor; try assumption. simpl_st. auto.
  - (* Serve *)
    destruct (mem c (serving s) && mem c (started s)); [|discriminate].
    destruct (lookup c (sessions s)) as [x|] eqn:EX; [|discriminate].
    injection H as <-.
    constructor; try assumption; simpl_st.
    + (* i_clock *) auto.
    + (* i_has *) intros c0 Hin. rewrite lookup_update, EX. destruct (Nat.eqb c c0); [discriminate | now apply Ih].
    + (* i_sess *) intros c0 y. rewrite lookup_update, EX. destruct (Nat.eqb_spec c c0) as [<-|_]; [|apply Ise].
      intros [= <-]. destruct (Ise c x EX) as [A G]. split; [exact A | now apply good_serve].
  - (* Done *)
    destruct (mem c (serving s)) eqn:EM; [|discriminate]. apply mem_In in EM.
    pose proof (remove1_length c _ EM) as RL.
    injection H as <-.
    constructor; try assumption; unfold open_conns; simpl_st.
    + (* i_active *) clear -Ia RL. unfold conn in *. lia.
    + (* i_wg *) clear -Iw RL. unfold conn in *. lia.
    + (* i_pend *) destruct (Z.eqb (active s - 1) 0 && cf_idle k && negb (shutdown s)); [|exact Ip].
      right. exists (nextg s). rewrite DP. auto.
    + (* i_ret *) intros Hp. rewrite (Ir Hp) in EM. easy.
    + (* i_acc *) intros c0. cbn [In]. rewrite (Iacc c0). split.
      * intros [?|[Hs|?]]; auto. destruct (In_remove1 c0 c _ Hs) as [->|?]; auto.
      * intros [[->|?]|[Hs|?]]; auto. right. left. eapply remove1_In, Hs.
    + (* i_fresh *) destruct (Z.eqb (active s - 1) 0 && cf_idle k && negb (shutdown s)) eqn:ER.
      * (* the timer is armed now, at the step of this Done, with the counter at zero *)
        intros g [= <-]. apply andb_true_iff in ER as [ER _]. apply andb_true_iff in ER as [ER _]. rewrite (last_conn s c Ia EM) in ER.
        split; [now destruct (remove1 c (serving s))|]. cbn [lookup]. rewrite Nat.eqb_refl. auto.
      * intros g Hg. destruct (If g Hg) as (Hs & _). rewrite Hs in EM. easy.
    + (* i_clock *) auto.
    + (* i_late *) intros Hc c0 Hin. apply (Il Hc). unfold open_conns.
      destruct (looppend s); cbn [In] in *; [destruct Hin as [?|Hin]; auto; right|]; eapply remove1_In, Hin.
    + (* i_has *) intros c0 Hin. eapply Ih, remove1_In, Hin.
  - (* TimerFire *)
    destruct (mem g (pendt s)) eqn:EM; [|discriminate]. injection H as <-.
    constructor; try assumption; simpl_st.
    + (* i_pend *) left. destruct Ip as [E|(g' & _ & E)]; rewrite E in *; [reflexivity|].
      apply mem_In in EM. destruct EM as [<-|[]]. apply remove_all_single.
    + (* i_clock *) auto.
  - (* Callback *)
    destruct (mem g (firedt s)); [|discriminate]. injection H as <-.
    set (close := (negb (cf_gencheck k) || match tvar s with Some g' => Nat.eqb g g' | None => false end) && Z.eqb (active s) 0) in *.
    constructor; try assumption; unfold open_conns; simpl_st.
    + (* i_shut *) now rewrite Is.
    + (* i_phase *) intros Hp. destruct (Iph Hp) as [-> ?]. auto.
    + (* i_clock *) auto.
    + (* i_late: the listener closes here only with the counter at zero: whoever is open sits in the accept window *)
      intros Hc c0 Hin. destruct (closed s) eqn:EC.
      * rewrite andb_false_r. now apply Il.
      * cbn [orb negb] in Hc. rewrite Hc. cbn [andb]. unfold close in Hc. apply andb_true_iff in Hc. destruct Hc as [_ Hz].
        apply Z.eqb_eq in Hz. rewrite (Idle Hz) in Hin.
        destruct (looppend s); cbn [In] in Hin; [destruct Hin as [->|[]]; reflexivity | easy].
  - (* AcceptFail *)
    destruct (is_accepting s && closed s && match looppend s with None => true | Some _ => false end) eqn:G; [|discriminate].
    injection H as <-. apply andb_true_iff in G as [G G3]. apply andb_true_iff in G as [_ G2].
    constructor; try assumption; simpl_st; auto.
    + (* i_phase *) intros _. split; [exact G2|]. destruct (looppend s); [discriminate | reflexivity].
    + (* i_ret *) discriminate.
  - (* FinalDisarm *)
    destruct (ph s) eqn:EP; try discriminate. injection H as <-.
    constructor; try assumption; simpl_st; auto.
    + (* i_phase *) intros _. apply Iph. discriminate.
    + (* i_ret *) discriminate.
    + (* i_fresh *) discriminate.
  - (* Return *)
    destruct (ph s) eqn:EP; try discriminate.
    destruct (Z.eqb (wg s) 0) eqn:EW; [|discriminate]. injection H as <-. apply Z.eqb_eq in EW.
    assert (closed s = true /\ looppend s = None) as [HC HL] by (apply Iph; discriminate).
    constructor; try assumption; simpl_st; auto.
    + (* i_shut *) congruence.
    + (* i_ret *) intros _. apply Idle. congruence.
Qed.

Lemma inv_exec k s e : inv k s -> inv k (exec k s e).
Proof. intros Hinv. unfold exec. destruct (step k s e) eqn:H; [eapply inv_step; eauto | exact Hinv]. Qed.

Lemma inv_run k es : forall s, inv k s -> inv k (run k s es).
Proof. intro s. apply fold_left_preserves. intros s' e. apply inv_exec. Qed.

Lemma inv_reach k es : inv k (run k (init k) es).
Proof. apply inv_run, inv_init. Qed.

Lemma run_app k s a b : run k s (a ++ b) = run k (run k s a) b.
Proof. unfold run. apply fold_left_app. Qed.

(* only Callback and Return write [closed]; every other event, once past its guards, copies it *)
Lemma step_closed k s e s' :
  step k s e = Some s' -> match e with Callback _ | Return => True | _ => closed s' = closed s end.
Proof.
  intros H. destruct e; cbn [step] in H.
  - (* AcceptRet *) destruct (_ && _) in H; [|discriminate]. now injection H as <-.
  - (* Count *) destruct (looppend s) as [c'|]; [|discriminate]. destruct (Nat.eqb c c'); [|discriminate]. now injection H as <-.
  - (* Start *) destruct (_ && _) in H; [|discriminate]. now injection H as <-.
  - (* Serve *) destruct (_ && _) in H; [|discriminate]. destruct (lookup c (sessions s)); [|discriminate]. now injection H as <-.
  - (* Done *) destruct (mem c (serving s)); [|discriminate]. now injection H as <-.
  - (* TimerFire *) destruct (mem g (pendt s)); [|discriminate]. now injection H as <-.
  - exact I.
  - (* AcceptFail *) destruct (_ && _) in H; [|discriminate]. now injection H as <-.
  - (* FinalDisarm *) destruct (ph s); try discriminate. now injection H as <-.
  - exact I.
Qed.

(* a callback closes the listener only if it found the counter at zero and, where the code checks,
   its own timer in the variable *)
Lemma callback_closes k s g :
  closed s = false -> closed (exec k s (Callback g)) = true ->
  active s = 0%Z /\ shutdown (exec k s (Callback g)) = true /\ (cf_gencheck k = true -> tvar s = Some g).
Proof.
  intros Hc. unfold exec. cbn [step]. destruct (mem g (firedt s)); [|congruence]. simpl_st. rewrite Hc. cbn [orb].
  intros Hx. rewrite Hx, orb_true_r. apply andb_true_iff in Hx as [Hl Hz]. apply Z.eqb_eq in Hz.
  repeat split; [exact Hz|]. intros Hg. rewrite Hg in Hl. cbn [negb orb] in Hl.
  destruct (tvar s) as [g'|]; [|discriminate]. apply Nat.eqb_eq in Hl. now subst.
Qed.

Lemma closes_only_idle k s e :
  inv k s -> closed s = false -> closed (exec k s e) = true ->
  (exists g, e = Callback g) /\ active s = 0%Z /\ serving s = [] /\ shutdown (exec k s e) = true.
Proof.
  intros Hinv Hc Hx.
  destruct e; try (revert Hx; unfold exec; destruct (step k s _) eqn:H; [apply step_closed in H|]; congruence).
  - destruct (callback_closes k s g Hc Hx) as (Hz & Hs & _).
    repeat split; [now exists g | exact Hz | exact (idle_no_conn k s Hinv Hz) | exact Hs].
  - (* Return: the loop has left Accept only after the listener was closed *)
    unfold exec in Hx. cbn [step] in Hx. destruct (ph s) eqn:EP; try congruence.
    destruct (i_phase k s Hinv) as [HC _]; [rewrite EP; discriminate | congruence].
Qed.

Lemma current_timer_idle k s g :
  inv k s -> tvar s = Some g ->
  exists n, lookup g (armlog s) = Some n /\ (last_count s <= n)%nat /\ (last_done s <= n)%nat /\ serving s = [].
Proof. intros Hinv Ht. destruct (i_fresh k s Hinv g Ht) as (Hs & Hl & H1). exists (last_done s). auto. Qed.

Lemma fire_keeps_current k s g :
  inv k s -> mem g (pendt s) = true -> tvar (exec k s (TimerFire g)) = Some g.
Proof.
  intros Hinv Hm. unfold exec. cbn [step]. rewrite Hm. simpl_st.
  destruct (i_pend k s Hinv) as [E|(g' & Et & E)]; rewrite E in Hm; [discriminate|].
  apply mem_In in Hm. destruct Hm as [<-|[]]. exact Et.
Qed.

Lemma returned_all_done k s :
  inv k s -> is_returned s = true ->
  closed s = true /\ serving s = [] /\ looppend s = None /\ forall c, In c (accepted s) -> In c (finished s).
Proof.
  intros Hinv Hr. unfold is_returned in Hr. destruct (ph s) eqn:EP; try discriminate.
  destruct (i_phase k s Hinv) as [HC HL]; [rewrite EP; discriminate|].
  pose proof (i_ret k s Hinv EP) as HS. repeat split; auto.
  intros c Hin. apply (i_acc k s Hinv) in Hin. rewrite HS, HL in Hin. destruct Hin as [?|[[]|?]]; [assumption | discriminate].
Qed.

Lemma view_is_prefix k s c :
  inv k s -> exists rest, out_of s c ++ rest = C02.run_conn (cf_gate k) (cf_calls k c).
Proof.
  intros Hinv. unfold out_of. destruct (lookup c (sessions s)) as [x|] eqn:E.
  - eexists. apply (i_sess k s Hinv c x E).
  - eexists. reflexivity.
Qed.

Definition is_serve (e : ev) : bool := match e with Serve _ => true | _ => false end.

(* Serve steps move the sessions and the step clock, nothing else *)
Definition set_sess (s : st) (n : nat) (ss : list (conn * sess)) : st :=
  {| active := active s; tvar := tvar s; shutdown := shutdown s; wg := wg s; closed := closed s;
     looppend := looppend s; ph := ph s; pendt := pendt s; firedt := firedt s; nextg := nextg s;
     accepted := accepted s; serving := serving s; finished := finished s; started := started s;
     clock := n; armlog := armlog s; last_count := last_count s; last_done := last_done s;
     late := late s; sessions := ss |}.

Lemma set_sess_same s : s = set_sess s (clock s) (sessions s).
Proof. now destruct s. Qed.

Lemma serve_frame k s c : exists n ss, exec k s (Serve c) = set_sess s n ss.
Proof.
  unfold exec. cbn [step]. destruct (mem c (serving s) && mem c (started s)); [destruct (lookup c (sessions s))|];
    do 2 eexists; try reflexivity; apply set_sess_same.
Qed.

Lemma serves_frame k es : forallb is_serve es = true -> forall s, exists n ss, run k s es = set_sess s n ss.
Proof.
  induction es as [|e es IH]; intros H s; [do 2 eexists; apply set_sess_same|].
  cbn [forallb] in H. apply andb_true_iff in H. destruct H as [He H]. destruct e; try discriminate.
  change (run k s (Serve c :: es)) with (run k (exec k s (Serve c)) es).
  destruct (serve_frame k s c) as (n & ss & ->). destruct (IH H (set_sess s n ss)) as (n' & ss' & ->).
  now exists n', ss'.
Qed.

Lemma serves_keep k es s :
  forallb is_serve es = true -> serving (run k s es) = serving s /\ started (run k s es) = started s.
Proof. intros H. destruct (serves_frame k es H s) as (n & ss & ->). now split. Qed.

(* the timed run against the monitor, without the hook counters (only Open moves those) *)
Record simc (i : input) (t : tstate) (m : mon) : Prop := {
  s_inv : inv (cfg_of i) (t_s t);
  s_loop : looppend (t_s t) = None;
  s_mode : (ph (t_s t) = PAccept /\ closed (t_s t) = false /\ m_stopped m = false)
           \/ (ph (t_s t) = PReturned /\ closed (t_s t) = true /\ m_stopped m = true /\ serving (t_s t) = []);
  s_open : serving (t_s t) = m_open m;
  s_used : accepted (t_s t) = m_used m;
  s_now : t_now t = m_now m;
  s_timer : if cf_idle (cfg_of i) && negb (closed (t_s t)) && match serving (t_s t) with [] => true | _ => false end
            then exists g, pendt (t_s t) = [g] /\ tvar (t_s t) = Some g /\ t_dl t = m_zero_at m + m_need m
            else pendt (t_s t) = [] }.

Record sim (i : input) (t : tstate) (m : mon) : Prop := {
  s_core : simc i t m;
  s_hookn : t_hookn t = m_hookn m;
  s_bound : t_bound t = m_bound m }.

(* the relation reads the two clocks only to compare them *)
Lemma simc_ext i t m t' m' :
  simc i t m -> t_s t' = t_s t -> t_now t' = m_now m' -> t_dl t' = t_dl t ->
  (m_open m', m_used m', m_zero_at m', m_need m', m_stopped m') = (m_open m, m_used m, m_zero_at m, m_need m, m_stopped m) ->
  simc i t' m'.
Proof.
  intros [Hinv HL HM HO HU HN HT] E1 E2 E3 E4. injection E4 as F1 F2 F4 F5 F6.
  constructor; rewrite ?E1, ?E3, ?F1, ?F2, ?F4, ?F5, ?F6; assumption.
Qed.

Lemma simc_stopped i t m : simc i t m -> closed (t_s t) = m_stopped m.
Proof. intros Hsim. destruct (s_mode _ _ _ Hsim) as [(_ & -> & ->)|(_ & -> & -> & _)]; reflexivity. Qed.

Lemma sim_init i : sim i (tinit i) (minit i).
Proof.
  constructor; [|reflexivity|reflexivity].
  constructor; unfold tinit, minit; cbn [t_s t_now t_dl m_open m_used m_now m_stopped m_zero_at m_need]; try reflexivity.
  - apply inv_init.
  - left. auto.
  - unfold init. simpl_st. rewrite andb_true_r. destruct (cf_idle (cfg_of i)); cbn [andb negb]; [|reflexivity].
    exists 0%nat. auto.
Qed.

Lemma talk_events_serve k c : forallb is_serve (talk_events k c) = true.
Proof. unfold talk_events. induction (length (C02.client_writes (cf_calls k c))); [reflexivity | exact IHn]. Qed.

Lemma concat_serve k cs : forallb is_serve (concat (map (talk_events k) cs)) = true.
Proof. induction cs as [|c cs IH]; [reflexivity|]. cbn [map concat]. rewrite forallb_app, talk_events_serve. exact IH. Qed.

Lemma open_noop k s c :
  closed s = true \/ mem c (accepted s) = true -> looppend s = None -> run k s [AcceptRet c; Count c] = s.
Proof.
  intros H HL. unfold run. cbn [fold_left]. unfold exec at 2. cbn [step].
  destruct (is_accepting s && negb (closed s) && negb (mem c (accepted s)) && match looppend s with None => true | Some _ => false end) eqn:G.
  - apply andb_true_iff in G as [G _]. apply andb_true_iff in G as [G G3]. apply andb_true_iff in G as [_ G2]. apply negb_true_iff in G2, G3. destruct H; congruence.
  - unfold exec. cbn [step]. now rewrite HL.
Qed.

Lemma open_run k s c :
  ph s = PAccept -> closed s = false -> looppend s = None -> mem c (accepted s) = false ->
  let s' := run k s [AcceptRet c; Count c] in
  closed s' = false /\ looppend s' = None /\ ph s' = PAccept /\ pendt s' = disarm_pend s
  /\ accepted s' = c :: accepted s /\ serving s' = c :: serving s.
Proof.
  intros HP HC HL HM s'.
  assert (s' = exec k (exec k s (AcceptRet c)) (Count c)) as E by reflexivity. clearbody s'. revert E.
  unfold exec at 2. cbn [step]. unfold is_accepting. rewrite HP, HC, HL, HM. cbn [negb andb].
  unfold exec. cbn [step looppend]. rewrite Nat.eqb_refl.
  intros ->. unfold disarm_pend. simpl_st. repeat split; reflexivity.
Qed.

Lemma done_noop k s c : mem c (serving s) = false -> run k s [Done c] = s.
Proof. intros H. unfold run, exec. cbn [fold_left step]. now rewrite H. Qed.

Lemma done_run k s c :
  inv k s -> mem c (serving s) = true -> closed s = false ->
  let s' := run k s [Done c] in
  let rearm := match remove1 c (serving s) with [] => cf_idle k | _ => false end in
  serving s' = remove1 c (serving s) /\ closed s' = false /\ looppend s' = looppend s /\ ph s' = ph s
  /\ accepted s' = accepted s
  /\ tvar s' = (if rearm then Some (nextg s) else tvar s)
  /\ pendt s' = (if rearm then [nextg s] else pendt s)
  /\ nextg s' = (if rearm then S (nextg s) else nextg s).
Proof.
  intros Hinv H HC. unfold run, exec. cbn [fold_left step]. rewrite H. simpl_st.
  apply mem_In in H. rewrite (last_conn s c (i_active k s Hinv) H), (disarm_pend_nil k s Hinv), (i_shut k s Hinv), HC, andb_true_r.
  destruct (remove1 c (serving s)); cbn [andb]; repeat split; auto.
Qed.

Lemma expire k s g :
  tvar s = Some g -> pendt s = [g] -> active s = 0%Z ->
  let s' := run k s [TimerFire g; Callback g] in
  closed s' = true /\ pendt s' = [] /\ tvar s' = Some g /\ ph s' = ph s /\ looppend s' = looppend s /\ wg s' = wg s
  /\ accepted s' = accepted s /\ serving s' = serving s.
Proof.
  intros HG HPe HA s'. assert (s' = exec k (exec k s (TimerFire g)) (Callback g)) as E by reflexivity. clearbody s'. revert E.
  unfold exec at 2. cbn [step]. rewrite HPe. cbn [mem existsb]. rewrite Nat.eqb_refl, HG, HA. cbn [orb].
  unfold exec. cbn [step firedt tvar active mem existsb]. rewrite Nat.eqb_refl, orb_true_r. cbn [orb andb].
  intros ->. simpl_st. rewrite orb_true_r, remove_all_single. repeat split; reflexivity.
Qed.

Lemma wind_down k s :
  ph s = PAccept -> closed s = true -> looppend s = None -> wg s = 0%Z ->
  let s' := settle k s in
  ph s' = PReturned /\ closed s' = true /\ pendt s' = disarm_pend s /\ looppend s' = None
  /\ accepted s' = accepted s /\ serving s' = serving s.
Proof.
  intros HP HC HL HW s'. assert (s' = exec k (exec k (exec k s AcceptFail) FinalDisarm) Return) as E by reflexivity. clearbody s'. revert E.
  unfold exec at 3. cbn [step]. unfold is_accepting. rewrite HP, HC, HL. cbn [andb].
  unfold exec at 2. cbn [step ph]. simpl_st. unfold exec. cbn [step ph wg]. rewrite HW, Z.eqb_refl.
  intros ->. simpl_st. repeat split; reflexivity.
Qed.

Lemma fire_run k s g :
  inv k s ->
  tvar s = Some g -> ph s = PAccept -> looppend s = None -> pendt s = [g] -> serving s = [] ->
  let s' := settle k (run k s [TimerFire g; Callback g]) in
  ph s' = PReturned /\ closed s' = true /\ serving s' = [] /\ pendt s' = [] /\ looppend s' = None /\ accepted s' = accepted s.
Proof.
  intros Hinv HG HP HL HPe HS.
  assert (active s = 0%Z) as HA by (rewrite (i_active _ _ Hinv), HS; reflexivity).
  assert (wg s = 0%Z) as HW by (rewrite (i_wg _ _ Hinv), HS; reflexivity).
  destruct (expire k s g HG HPe HA) as (A1 & A2 & A3 & A4 & A5 & A6 & A7 & A8).
  set (s2 := run k s [TimerFire g; Callback g]) in *.
  destruct (wind_down k s2) as (B1 & B2 & B3 & B4 & B5 & B6); try congruence.
  assert (disarm_pend s2 = []) as DP by (unfold disarm_pend; now rewrite A3, A2).
  repeat split; congruence.
Qed.

Lemma open_core_simc i t m c :
  simc i t m -> closed (t_s t) = false -> mem c (accepted (t_s t)) = false ->
  simc i (set_s t (run (cfg_of i) (t_s t) [AcceptRet c; Count c])) (mopen m c).
Proof.
  intros [Hinv HL HM HO HU HN HT] G1 G2. unfold set_s, mopen.
  destruct HM as [(HP & _ & HS)|(_ & HC & _)]; [|congruence].
  destruct (open_run (cfg_of i) (t_s t) c HP G1 HL G2) as (E2 & E3 & E4 & E5 & E7 & E8).
  constructor; cbn [t_s t_now t_dl m_open m_used m_now m_stopped m_zero_at m_need]; try congruence.
  - apply inv_run, Hinv.
  - left. auto.
  - now rewrite E8, HO.
  - now rewrite E7, HU.
  - rewrite E8, E5, andb_false_r. apply (disarm_pend_nil _ _ Hinv).
Qed.

(* Start only records the connection in [started], which the relation does not read *)
Lemma start_simc i t m c : simc i t m -> simc i (set_s t (exec (cfg_of i) (t_s t) (Start c))) m.
Proof.
  intros Hsim. pose proof (inv_exec (cfg_of i) (t_s t) (Start c) (s_inv _ _ _ Hsim)) as Hinv'. revert Hinv'.
  destruct Hsim as [Hinv HL HM HO HU HN HT]. unfold exec. cbn [step].
  destruct (mem c (serving (t_s t)) && negb (mem c (started (t_s t)))); intros Hinv'; constructor; assumption.
Qed.

Lemma close_core_simc i t m c :
  simc i t m -> mem c (serving (t_s t)) = true -> simc i (close_core i t c) (mclose i m c).
Proof.
  intros [Hinv HL HM HO HU HN HT] EM. unfold close_core, mclose. rewrite <- HO.
  destruct HM as [(HP & HC & HS)|(_ & _ & _ & HE)]; [|rewrite HE in EM; discriminate].
  destruct (done_run (cfg_of i) (t_s t) c Hinv EM HC) as (E1 & E2 & E3 & E4 & E6 & E7 & E8 & E9).
  assert (pendt (t_s t) = []) as HP0.
  { destruct (serving (t_s t)); [discriminate|]. now rewrite andb_false_r in HT. }
  constructor; cbn [t_s t_now t_dl m_open m_used m_now m_stopped m_zero_at m_need]; try congruence.
  - apply inv_run, Hinv.
  - left. split; [congruence | auto].
  - rewrite E1, E2, E8, E7, E9. cbn [negb]. rewrite andb_true_r.
    destruct (remove1 c (serving (t_s t))); [|now rewrite andb_false_r].
    destruct (cf_idle (cfg_of i)); cbn [andb]; [|exact HP0].
    exists (nextg (t_s t)). rewrite (proj2 (Nat.eqb_neq _ _) (Nat.neq_succ_diag_r _)), HN. auto.
Qed.

Lemma close_core_noop i t m c :
  simc i t m -> mem c (serving (t_s t)) = false -> simc i (close_core i t c) m.
Proof.
  intros Hsim EM. unfold close_core. rewrite (done_noop _ _ _ EM), Nat.eqb_refl. eapply simc_ext; [exact Hsim | reflexivity | apply Hsim | reflexivity..].
Qed.

Lemma top_simc i t m o :
  simc i t m -> t_hookn t = m_hookn m -> t_bound t = m_bound m ->
  simc i (fst (top i t o)) (fst (mstep i m o)) /\ snd (top i t o) = snd (mstep i m o).
Proof.
  intros Hsim Hh Hb. pose proof Hsim as [Hinv HL HM HO HU HN HT].
  destruct o as [c|cs|c|d].
  - (* Open *)
    cbn [top mstep fst snd]. rewrite <- HU, <- Hh, <- Hb.
    rewrite <- (simc_stopped _ _ _ Hsim). split; [|reflexivity].
    destruct (negb (closed (t_s t)) && negb (mem c (accepted (t_s t)))) eqn:G; cbn [andb].
    + apply andb_true_iff in G. destruct G as [G1 G2]. apply negb_true_iff in G1, G2.
      pose proof (open_core_simc i t m c Hsim G1 G2) as Hsim1.
      destruct (negb (t_bound t) && nth (t_hookn t) (i_hook i) false).
      * assert (mem c (serving (t_s (set_s t (run (cfg_of i) (t_s t) [AcceptRet c; Count c])))) = true) as EM
          by (rewrite (s_open _ _ _ Hsim1); cbn [mopen m_open mem existsb]; now rewrite Nat.eqb_refl).
        pose proof (close_core_simc i _ _ c Hsim1 EM) as Hsim2. eapply simc_ext; [exact Hsim2 | reflexivity | exact HN | reflexivity..].
      * change (run (cfg_of i) (t_s t) [AcceptRet c; Count c; Start c])
          with (exec (cfg_of i) (t_s (set_s t (run (cfg_of i) (t_s t) [AcceptRet c; Count c]))) (Start c)).
        pose proof (start_simc i _ _ c Hsim1) as Hsim2. eapply simc_ext; [exact Hsim2 | reflexivity | exact HN | reflexivity..].
    + eapply simc_ext; [exact Hsim | reflexivity | exact HN | reflexivity..].
  - (* Talk *)
    cbn [top mstep fst snd]. split; [|f_equal].
    + pose proof (inv_run (cfg_of i) (concat (map (talk_events (cfg_of i)) (filter (is_live (t_s t)) cs))) _ Hinv) as Hinv'.
      destruct (serves_frame (cfg_of i) _ (concat_serve (cfg_of i) (filter (is_live (t_s t)) cs)) (t_s t)) as (n & ss & E).
      rewrite E in Hinv'. constructor; cbn [t_s t_now t_dl]; rewrite ?E; assumption.
    + apply forallb_ext. intros c. unfold is_open. now rewrite HO.
  - (* Close *)
    cbn [top mstep fst snd]. unfold is_open. rewrite <- HO.
    destruct (mem c (serving (t_s t))) eqn:EM; cbn [fst snd]; (split; [|reflexivity]).
    + now apply close_core_simc.
    + now apply close_core_noop.
  - (* Wait: on both sides the period has run out when the current timer's deadline is reached with nobody connected *)
    cbn [top mstep fst snd]. split; [|reflexivity].
    pose proof (simc_stopped _ _ _ Hsim) as HCl. rewrite <- HCl, <- HO, <- HN. change (cf_idle (cfg_of i)) with (negb (i_idle i =? 0)) in HT.
    destruct (negb (i_idle i =? 0) && negb (closed (t_s t)) && match serving (t_s t) with [] => true | _ => false end) eqn:EC;
      cbn [andb].
    + destruct HT as (g & HPe & HTv & HD). rewrite HPe, HD.
      apply andb_true_iff in EC as [EC ES]. apply andb_true_iff in EC as [EI ECl]. apply negb_true_iff in ECl.
      destruct (serving (t_s t)) eqn:ESv; [|discriminate].
      destruct HM as [(HP & HC & HSt)|(_ & HC & _)]; [|congruence].
      destruct (m_zero_at m + m_need m <=? t_now t + d).
      * destruct (fire_run (cfg_of i) (t_s t) g Hinv HTv HP HL HPe ESv) as (E1 & E2 & E3 & E4 & E6 & E7).
        constructor; cbn [t_s t_now t_dl m_open m_used m_now m_stopped m_zero_at m_need]; try congruence.
        -- apply inv_run, inv_run, Hinv.
        -- right. rewrite orb_true_r. auto.
        -- rewrite E2. cbn [negb]. rewrite andb_false_r. exact E4.
      * rewrite orb_false_r. eapply simc_ext; [exact Hsim | reflexivity | reflexivity | exact (eq_sym HD) | cbn [m_open m_used m_zero_at m_need m_stopped]; congruence].
    + rewrite (HT : pendt (t_s t) = []), orb_false_r. eapply simc_ext; [exact Hsim | reflexivity.. | cbn [m_open m_used m_zero_at m_need m_stopped]; congruence].
Qed.

Lemma top_sim i t m o :
  sim i t m ->
  sim i (fst (top i t o)) (fst (mstep i m o)) /\ snd (top i t o) = snd (mstep i m o).
Proof.
  intros [Hsim Hh Hb]. destruct (top_simc i t m o Hsim Hh Hb) as [Hsim1 E1]. split; [|exact E1].
  destruct o as [c|cs|c|d]; (constructor; [exact Hsim1 | |]);
    cbn [top mstep fst t_hookn m_hookn t_bound m_bound close_core].
  - (* Open consults the hook, on conditions the two sides share *)
    now rewrite (simc_stopped _ _ _ Hsim), (s_used _ _ _ Hsim), Hh, Hb.
  - now rewrite (simc_stopped _ _ _ Hsim), (s_used _ _ _ Hsim), Hh, Hb.
  - (* Talk *) exact Hh.
  - exact Hb.
  - (* Close *) destruct (mem c (m_open m)); exact Hh.
  - destruct (mem c (m_open m)); exact Hb.
  - (* Wait *) exact Hh.
  - exact Hb.
Qed.

Lemma probe_sim i t m ok : sim i t m -> probe_of i t ok = mprobe i m ok.
Proof.
  intros [Hsim _ _]. unfold probe_of, mprobe, is_returned.
  destruct (s_mode _ _ _ Hsim) as [(-> & -> & ->)|(-> & -> & -> & _)]; reflexivity.
Qed.

Lemma trun_sim i ops : forall t m, sim i t m -> snd (trun i t ops) = mrun i m ops.
Proof.
  induction ops as [|o ops IH]; intros t m Hsim; cbn [trun mrun]; [reflexivity|].
  destruct (top_sim i t m o Hsim) as [Hsim1 E1].
  destruct (top i t o) as [t1 ok]. destruct (mstep i m o) as [m1 ok']. cbn [fst snd] in Hsim1, E1. subst ok'.
  pose proof (IH t1 m1 Hsim1) as E2. destruct (trun i t1 ops) as [t2 ps]. cbn [snd] in *.
  now rewrite (probe_sim i t1 m1 ok Hsim1), E2.
Qed.

Lemma probe_eqb_refl p : probe_eqb p p = true.
Proof. unfold probe_eqb. rewrite !eqb_reflx. destruct (p_file p); cbn [opt_eqb]; [apply N.eqb_refl | reflexivity]. Qed.

Lemma probe_safe_refl p : probe_safe p p = true.
Proof.
  unfold probe_safe. rewrite eqb_reflx, orb_true_r. destruct (p_ret p), (p_ok p); cbn [implb andb];
    (destruct (p_file p); cbn [opt_eqb]; [apply N.eqb_refl | reflexivity]).
Qed.

Lemma mrun_length i ops : forall m, length (mrun i m ops) = length ops.
Proof. induction ops as [|o ops IH]; intros m; cbn [mrun]; [reflexivity|]. destruct (mstep i m o). cbn [length]. now rewrite IH. Qed.

(* exhausted: what the client has written and the server has not yet read produces no more output *)
Definition exh (g : bool) (x : sess) : Prop := C02.serve_flat C02.current g (fst x) = [].
Definition oexh (g : bool) (o : option sess) : Prop := match o with Some x => exh g x | None => True end.

(* Count opens a session, a Serve of a live connection advances its own, nothing else touches any *)
Lemma sess_exec k s e c :
  lookup c (sessions (exec k s e)) =
  match e with
  | Count c' => if Nat.eqb c' c && match looppend s with Some c0 => Nat.eqb c' c0 | None => false end
                then Some (C02.client_writes (cf_calls k c'), []) else lookup c (sessions s)
  | Serve c' => if Nat.eqb c' c && is_live s c'
                then option_map (serve_sess (cf_gate k)) (lookup c (sessions s)) else lookup c (sessions s)
  | _ => lookup c (sessions s)
  end.
Proof.
  unfold exec, is_live. destruct e as [c'|c'|c'|c'|c'|g|g| | |]; cbn [step].
  - destruct (_ && _); reflexivity.
  - destruct (looppend s) as [c0|]; [|now rewrite andb_false_r].
    destruct (Nat.eqb c' c0); [|now rewrite andb_false_r]. simpl_st. cbn [lookup]. now rewrite andb_true_r.
  - destruct (_ && _); reflexivity.
  - destruct (mem c' (serving s) && mem c' (started s)); [|now rewrite andb_false_r].
    rewrite andb_true_r. destruct (lookup c' (sessions s)) as [x|] eqn:E; simpl_st; rewrite ?lookup_update, ?E.
    (* an absent session stays absent *)
    all: destruct (Nat.eqb_spec c' c) as [->|_]; [now rewrite E | reflexivity].
  - destruct (mem c' (serving s)); reflexivity.
  - destruct (mem g (pendt s)); reflexivity.
  - destruct (mem g (firedt s)); reflexivity.
  - destruct (_ && _); reflexivity.
  - destruct (ph s); reflexivity.
  - destruct (ph s); try reflexivity. destruct (Z.eqb (wg s) 0); reflexivity.
Qed.

(* n Serve steps exhaust a session with at most n unread streams: each consumes one or is stuck for good *)
Lemma exhaust_run k c n : forall s,
  mem c (serving s) = true -> mem c (started s) = true ->
  match lookup c (sessions s) with Some x => exh (cf_gate k) x \/ (length (fst x) <= n)%nat | None => True end ->
  oexh (cf_gate k) (lookup c (sessions (run k s (repeat (Serve c) n)))).
Proof.
  induction n as [|n IH]; intros s HM HM' HL.
  - cbn [repeat run fold_left]. destruct (lookup c (sessions s)) as [x|]; [|exact I].
    destruct HL as [H|H]; [exact H|]. unfold oexh, exh. destruct (fst x); [reflexivity | cbn [length] in H; lia].
  - change (run k s (repeat (Serve c) (S n))) with (run k (exec k s (Serve c)) (repeat (Serve c) n)).
    destruct (serve_frame k s c) as (n0 & ss & E). apply IH; [rewrite E; exact HM | rewrite E; exact HM' |].
    rewrite sess_exec, Nat.eqb_refl. unfold is_live. rewrite HM, HM'. cbn [andb]. destruct (lookup c (sessions s)) as [x|]; [|exact I]. cbn [option_map].
    destruct (serve_sess_served (cf_gate k) x) as [F|o r F Lr]; [now left|]. cbn [fst].
    destruct HL as [H|H]; [left | right; lia]. unfold exh in *. cbn [fst]. rewrite F in H. now apply app_eq_nil in H.
Qed.

Lemma serve_repeat_other k c c1 n :
  Nat.eqb c1 c = false -> forall s, lookup c (sessions (run k s (repeat (Serve c1) n))) = lookup c (sessions s).
Proof.
  intros E. induction n as [|n IH]; intros s; [reflexivity|].
  change (run k s (repeat (Serve c1) (S n))) with (run k (exec k s (Serve c1)) (repeat (Serve c1) n)).
  now rewrite IH, sess_exec, E.
Qed.

Lemma talk_run k l : forall s,
  inv k s -> (forall c, mem c l = true -> is_live s c = true) ->
  let s' := run k s (concat (map (talk_events k) l)) in
  forall c, if mem c l then oexh (cf_gate k) (lookup c (sessions s')) else lookup c (sessions s') = lookup c (sessions s).
Proof.
  induction l as [|c1 l IH]; intros s Hinv Hl s' c; [reflexivity|].
  subst s'. cbn [map concat]. rewrite run_app. set (s1 := run k s (talk_events k c1)).
  assert (serving s1 = serving s /\ started s1 = started s) as [HS HS'] by apply serves_keep, talk_events_serve.
  assert (forall c, mem c l = true -> is_live s1 c = true) as Hl1.
  { intros c' H. unfold is_live. rewrite HS, HS'. apply Hl. cbn [mem existsb]. fold (mem c' l). rewrite H. apply orb_true_r. }
  specialize (IH s1 (inv_run k _ s Hinv) Hl1 c). cbv zeta in IH.
  cbn [mem existsb]. fold (mem c l). destruct (mem c l); [rewrite orb_true_r; exact IH|]. rewrite orb_false_r, IH.
  unfold s1, talk_events. destruct (Nat.eqb c c1) eqn:E.
  - apply Nat.eqb_eq in E. subst c1.
    assert (is_live s c = true) as L1 by (apply Hl; cbn [mem existsb]; now rewrite Nat.eqb_refl).
    apply andb_true_iff in L1. destruct L1 as [A B]. apply exhaust_run; [exact A | exact B |].
    destruct (lookup c (sessions s)) eqn:EL; [right; apply (i_sess k s Hinv c _ EL) | exact I].
  - apply serve_repeat_other. now rewrite Nat.eqb_sym.
Qed.

(* the events that advance no session and open none for a connection in [old] *)
Definition calm (old : list conn) (e : ev) : bool :=
  match e with Serve _ => false | Count c => negb (mem c old) | _ => true end.

(* every op is a schedule fragment; only Talk serves, and only a connection never accepted is counted *)
Lemma top_schedule i t o :
  exists es, t_s (fst (top i t o)) = run (cfg_of i) (t_s t) es
             /\ match o with Talk _ => True | _ => forallb (calm (accepted (t_s t))) es = true end.
Proof.
  destruct o as [c|cs|c|d]; cbn [top fst t_s close_core].
  - destruct (negb (closed (t_s t)) && negb (mem c (accepted (t_s t)))) eqn:G; cbn [andb]; [|now exists []].
    apply andb_true_iff in G as [_ G].
    destruct (negb (t_bound t) && nth (t_hookn t) (i_hook i) false); unfold close_core, set_s; cbn [t_s].
    + exists ([AcceptRet c; Count c] ++ [Done c]). rewrite run_app. cbn [app forallb calm]. now rewrite G.
    + exists [AcceptRet c; Count c; Start c]. cbn [forallb calm]. now rewrite G.
  - eexists. split; [reflexivity | exact I].
  - now exists [Done c].
  - destruct (pendt (t_s t)) as [|g l]; [now exists []|].
    destruct (t_dl t <=? t_now t + d); [|now exists []].
    exists ([TimerFire g; Callback g] ++ [AcceptFail; FinalDisarm; Return]). unfold settle. now rewrite run_app.
Qed.

(* a connection that talked has read all it will ever get; one that did not has read nothing *)
Definition viewed (g : bool) (talked : list conn) (s : st) : Prop :=
  forall c, match lookup c (sessions s) with
            | None => mem c talked = false
            | Some x => if mem c talked then exh g x else snd x = []
            end.

Lemma viewed_run k old talked es :
  (forall c, mem c old = false -> mem c talked = false) -> forallb (calm old) es = true ->
  forall s, viewed (cf_gate k) talked s -> viewed (cf_gate k) talked (run k s es).
Proof.
  intros Hold. induction es as [|e es IH]; intros H s HW; [exact HW|].
  cbn [forallb] in H. apply andb_true_iff in H as [He H]. apply (IH H). intros c. rewrite sess_exec. specialize (HW c).
  destruct e as [|c0| | | | | | | |]; try exact HW; [|discriminate].
  (* the session that Count opens is new and nothing has been read on it *)
  destruct (Nat.eqb_spec c0 c) as [->|_]; [|exact HW]. cbn [andb].
  destruct (match looppend s with Some c1 => Nat.eqb c c1 | None => false end); [|exact HW].
  apply negb_true_iff, Hold in He. now rewrite He.
Qed.

Record views (i : input) (t : tstate) : Prop := {
  v_inv : inv (cfg_of i) (t_s t);
  v_view : viewed (i_gate i) (t_talked t) (t_s t) }.

Lemma views_init i : views i (tinit i).
Proof. constructor; [apply inv_init|]. intros c. reflexivity. Qed.

Lemma views_run i t t' es :
  views i t -> forallb (calm (accepted (t_s t))) es = true ->
  t_s t' = run (cfg_of i) (t_s t) es -> t_talked t' = t_talked t -> views i t'.
Proof.
  intros [Hinv HW] He E1 E2. constructor; rewrite E1, ?E2; [apply inv_run, Hinv|].
  apply (viewed_run (cfg_of i) (accepted (t_s t))); [|exact He|exact HW].
  (* a connection never accepted has no session and has not talked *)
  intros c EM. specialize (HW c). destruct (lookup c (sessions (t_s t))) eqn:EL; [|exact HW].
  apply (i_sess _ _ Hinv) in EL as [Hin _]. apply mem_In in Hin. congruence.
Qed.

Lemma top_views i t o : views i t -> views i (fst (top i t o)).
Proof.
  intros HV. destruct (top_schedule i t o) as (es & E & Hc). destruct o as [c|cs|c|d].
  - (* Open: calm events, and nobody talks, whatever the hook decides *)
    apply (views_run i t _ es HV Hc E). cbn [top fst t_talked].
    destruct (_ && _); [destruct (_ && _)|]; reflexivity.
  - (* Talk *)
    clear es E Hc. destruct HV as [Hinv HW]. cbn [top fst].
    set (live := filter (is_live (t_s t)) cs).
    assert (forall c, mem c live = true -> is_live (t_s t) c = true) as Hl
      by (intros c Hc; apply mem_In, filter_In in Hc; apply Hc).
    pose proof (talk_run (cfg_of i) live (t_s t) Hinv Hl) as T. cbv zeta in T.
    set (s' := run (cfg_of i) (t_s t) (concat (map (talk_events (cfg_of i)) live))) in *.
    assert (inv (cfg_of i) s') as Hinv' by apply inv_run, Hinv.
    constructor; cbn [t_s t_talked]; [exact Hinv'|].
    intros c. specialize (T c). specialize (HW c). rewrite mem_app. destruct (mem c live) eqn:EM; cbn [orb].
    + destruct (lookup c (sessions s')) eqn:EL; [exact T|].
      (* a live connection is being served, so it has a session *)
      apply Hl in EM. apply andb_true_iff in EM. destruct EM as [EM _]. apply mem_In in EM.
      rewrite <- (proj1 (serves_keep (cfg_of i) _ (t_s t) (concat_serve (cfg_of i) live))) in EM.
      now apply (i_has _ _ Hinv') in EM.
    + now rewrite T.
  - (* Close *) exact (views_run i t _ es HV Hc E eq_refl).
  - (* Wait *) exact (views_run i t _ es HV Hc E eq_refl).
Qed.

Lemma trun_keeps i (P : tstate -> Prop) :
  (forall t o, P t -> P (fst (top i t o))) -> forall ops t, P t -> P (fst (trun i t ops)).
Proof.
  intros HP. induction ops as [|o ops IH]; intros t H; cbn [trun]; [exact H|].
  specialize (IH _ (HP t o H)). destruct (top i t o) as [t1 ok]. cbn [fst] in IH. destruct (trun i t1 ops) as [t2 ps]. exact IH.
Qed.

Lemma view_of_views i t c :
  views i t -> out_of (t_s t) c = if mem c (t_talked t) then C02.run_conn (i_gate i) (nth c (i_conns i) []) else [].
Proof.
  intros [Hinv HW]. unfold out_of. specialize (HW c). destruct (lookup c (sessions (t_s t))) as [x|] eqn:E.
  - destruct (i_sess _ _ Hinv c x E) as (_ & HS & _). cbn [cfg_of cf_gate cf_calls] in HS.
    destruct (mem c (t_talked t)); [|exact HW]. unfold exh in HW. now rewrite HW, app_nil_r in HS.
  - now rewrite HW.
Qed.

Lemma timed_run_is_schedule i ops t0 : exists es, t_s (fst (trun i t0 ops)) = run (cfg_of i) (t_s t0) es.
Proof.
  apply (trun_keeps i (fun t => exists es, t_s t = run (cfg_of i) (t_s t0) es)); [|now exists []].
  intros t o [es E]. destruct (top_schedule i t o) as (es1 & E1 & _). exists (es ++ es1). now rewrite run_app, <- E.
Qed.

Definition with_transport (i : input) (shm : list bool) (ops : list iop) : input :=
  {| i_unix := i_unix i; i_idle := i_idle i; i_gate := i_gate i; i_hook := i_hook i; i_shm := shm;
     i_conns := i_conns i; i_ops := ops |}.

Lemma trun_transport i shm ops' ops : forall t, trun (with_transport i shm ops') t ops = trun i t ops.
Proof.
  induction ops as [|o ops IH]; intros t; [reflexivity|]. cbn [trun].
  assert (top (with_transport i shm ops') t o = top i t o) as -> by (destruct o; reflexivity).
  destruct (top i t o) as [t1 ok]. rewrite IH. reflexivity.
Qed.

Definition code_cfg : cfg := {| cf_idle := true; cf_gencheck := true; cf_gate := false; cf_calls := fun _ => [] |}.
Definition legacy_cfg : cfg := {| cf_idle := true; cf_gencheck := false; cf_gate := false; cf_calls := fun _ => [] |}.

(* connection 2 is accepted between the timer firing and its callback taking the lock, and is not yet counted *)
Definition w_accept_window : list ev :=
  [AcceptRet 1; Count 1; Done 1; TimerFire 1; AcceptRet 2; Callback 1; Count 2]%nat.
(* connection 2 lives and dies between the timer firing and its callback taking the lock *)
Definition w_stale : list ev :=
  [AcceptRet 1; Count 1; Done 1; TimerFire 1; AcceptRet 2; Count 2; Done 2]%nat.

(* a schedule for [run_late], where only a connection the hook accepted is counted: the hook refuses connection 1;
   2 is held open; 3 comes and goes; the timer its Done arms there fires (on the code Count 2 has disarmed timer 1) *)
Definition w_late_count : list ev :=
  [AcceptRet 1; Count 1; Done 1; AcceptRet 2; Count 2; Start 2; AcceptRet 3; Count 3; Start 3; Done 3; TimerFire 1; Callback 1]%nat.
