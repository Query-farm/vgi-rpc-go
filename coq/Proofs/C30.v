(* Proofs/C30.v — externalized batches. [select_ok_iff] characterises the
   selection loop over a fetched list (no pointer anywhere, the last data batch
   wins). Externalization and resolution are treated over arbitrary codecs
   (Section Generic), the round trip under [dec (enc bs) = Some bs] and the like
   premises on zstd and the framing guard. For overlapped externalizations a
   step of one touches only its own state, so what it hashes and what is
   uploaded for it depend on its batch alone ([own_bytes]). *)
From VR Require Import Model.C30 Lib.Lists.
From Coq Require Import Permutation.
Open Scope N_scope.

Lemma kv_eqb_eq a b : kv_eqb a b = true <-> a = b.
Proof. apply pair_eqb_eq; apply beqb_eq. Qed.
Lemma meta_eqb_eq a b : meta_eqb a b = true <-> a = b.
Proof. apply list_eqb_eq, kv_eqb_eq. Qed.
Lemma vals_eqb_eq a b : vals_eqb a b = true <-> a = b.
Proof. apply list_eqb_eq, pair_eqb_eq; [apply Z.eqb_eq | apply N.eqb_eq]. Qed.
Lemma batch_eqb_eq a b : batch_eqb a b = true <-> a = b.
Proof.
  destruct a as [a1 a2 a3 a4 a5], b as [c1 c2 c3 c4 c5]; unfold batch_eqb; cbn [b_schema b_smeta b_rows b_vals b_meta].
  rewrite !andb_true_iff, beqb_eq, !meta_eqb_eq, N.eqb_eq, vals_eqb_eq.
  split; [intros [[[[-> ->] ->] ->] ->]; reflexivity | intros H; inversion H; auto].
Qed.
Lemma batch_eqb_refl a : batch_eqb a a = true.
Proof. now apply batch_eqb_eq. Qed.
Lemma meta_eqb_refl a : meta_eqb a a = true.
Proof. now apply meta_eqb_eq. Qed.

Lemma mget_pm_loc url h : mget (pointer_meta url h) c30_k_location = Some url.
Proof. unfold pointer_meta. cbn [mget]. now rewrite beqb_refl. Qed.
Lemma mhas_pm_log url h : mhas (pointer_meta url h) c30_k_log_level = false.
Proof.
  unfold mhas, pointer_meta. cbn [mget]. change (beqb c30_k_location c30_k_log_level) with false.
  destruct h; reflexivity.
Qed.
Lemma is_pointer_pm url h : is_pointer 0 (pointer_meta url h) = true.
Proof.
  unfold is_pointer. rewrite mhas_pm_log. unfold mhas. now rewrite mget_pm_loc.
Qed.
Lemma mget_pm_sha url h :
  mget (pointer_meta url h) c30_k_sha = match h with [] => None | _ => Some h end.
Proof.
  unfold pointer_meta. cbn [mget]. change (beqb c30_k_location c30_k_sha) with false.
  destruct h; cbn [mget]; [reflexivity | now rewrite beqb_refl].
Qed.

Lemma pm_loc_ok (url h : bytes) : opt_eqb beqb (mget (pointer_meta url h) c30_k_location) (Some url) = true.
Proof. rewrite mget_pm_loc. apply beqb_refl. Qed.
Lemma pm_sha_ok (url h : bytes) : nonempty h = true -> opt_eqb beqb (mget (pointer_meta url h) c30_k_sha) (Some h) = true.
Proof. rewrite mget_pm_sha. destruct h; [discriminate|]. intros _. apply beqb_refl. Qed.

Definition last_opt {A} (acc : option A) (l : list A) : option A :=
  fold_left (fun _ x => Some x) l acc.

Lemma select_char cl acc bs :
  select_by cl acc bs =
  if has_ptr_by cl bs then inr ELoop
  else match last_opt acc (datas_by cl bs) with Some d => inl d | None => inr ENoData end.
Proof.
  revert acc. induction bs as [|a t IH]; intro acc.
  - cbn. destruct acc; reflexivity.
  - cbn [select_by has_ptr_by datas_by existsb filter]. unfold is_ptr_by, is_data_by.
    destruct (cl a) eqn:E; cbn [cls_eqb orb].
    + apply IH.
    + reflexivity.
    + rewrite IH. reflexivity.
Qed.

Lemma last_opt_app {A} acc (l : list A) x : last_opt acc (l ++ [x]) = Some x.
Proof. unfold last_opt. rewrite fold_left_app. reflexivity. Qed.

Lemma last_opt_cases {A} (l : list A) :
  match last_opt None l with Some r => exists pre, l = pre ++ [r] | None => l = [] end.
Proof. destruct l as [|x l] using rev_ind; [reflexivity | rewrite last_opt_app; now exists l]. Qed.

Lemma select_ok_iff cl bs r :
  select_by cl None bs = inl r <->
  has_ptr_by cl bs = false /\ exists pre, datas_by cl bs = pre ++ [r].
Proof.
  rewrite select_char. destruct (has_ptr_by cl bs).
  - split; [discriminate | intros [H _]; discriminate].
  - split.
    + pose proof (last_opt_cases (datas_by cl bs)) as C.
      destruct (last_opt None (datas_by cl bs)); [|discriminate].
      intro H; inversion H; subst. split; [reflexivity | exact C].
    + intros [_ [pre ->]]. now rewrite last_opt_app.
Qed.

Lemma select_sound cl bs r :
  select_by cl None bs = inl r -> In r bs /\ cl r = CData /\ has_ptr_by cl bs = false.
Proof.
  intro H. apply select_ok_iff in H as [Hp [pre Hd]].
  assert (Hin : In r (datas_by cl bs)) by (rewrite Hd; apply in_or_app; right; now left).
  unfold datas_by in Hin. apply filter_In in Hin as [Hin Hc].
  unfold is_data_by in Hc. destruct (cl r); try discriminate. auto.
Qed.

Lemma select_err cl bs :
  has_ptr_by cl bs = true \/ datas_by cl bs = [] ->
  select_by cl None bs = inr (if has_ptr_by cl bs then ELoop else ENoData).
Proof.
  rewrite select_char. intros [H | H].
  - now rewrite H.
  - rewrite H. cbn. now destruct (has_ptr_by cl bs).
Qed.

Lemma select_err_inv cl bs e :
  select_by cl None bs = inr e ->
  (has_ptr_by cl bs = true /\ e = ELoop) \/ (has_ptr_by cl bs = false /\ datas_by cl bs = [] /\ e = ENoData).
Proof.
  rewrite select_char. destruct (has_ptr_by cl bs).
  - intro H; inversion H; auto.
  - pose proof (last_opt_cases (datas_by cl bs)) as C.
    destruct (last_opt None (datas_by cl bs)); [discriminate |].
    intro H; inversion H. right. repeat split. exact C.
Qed.

Lemma perm_filter {A} (f : A -> bool) l l' : Permutation l l' -> Permutation (filter f l) (filter f l').
Proof.
  induction 1; cbn.
  - constructor.
  - destruct (f x); [now constructor | assumption].
  - destruct (f x), (f y); try apply Permutation_refl; apply perm_swap.
  - eapply Permutation_trans; eassumption.
Qed.
Lemma perm_existsb {A} (f : A -> bool) l l' : Permutation l l' -> existsb f l = existsb f l'.
Proof.
  induction 1; cbn.
  - reflexivity.
  - now rewrite IHPermutation.
  - destruct (f x), (f y); reflexivity.
  - congruence.
Qed.

Lemma classify_data b :
  b_rows b <> 0 -> mhas (b_meta b) c30_k_log_level = false -> classify b = CData.
Proof.
  intros Hr Hl. unfold classify, classify_by. rewrite Hl.
  apply N.eqb_neq in Hr. rewrite Hr, andb_false_r. reflexivity.
Qed.
Lemma data_not_log r : classify r = CData -> mhas (b_meta r) c30_k_log_level = false.
Proof. unfold classify, classify_by. destruct (mhas (b_meta r) c30_k_log_level); [discriminate | reflexivity]. Qed.

Lemma should_ext_iff c b size :
  should_ext (Some c) b size = true <-> c_storage c = true /\ b_rows b <> 0 /\ (threshold c <= size)%Z.
Proof. cbn [should_ext]. rewrite !andb_true_iff, negb_true_iff, N.eqb_neq, Z.leb_le. tauto. Qed.

Section Generic.
  Variable wire : Type.
  Variable enc : list batch -> wire.
  Variable dec : wire -> option (list batch).
  Variable comp : wire -> wire.
  Variable decomp : wire -> option wire.
  Variable sha : wire -> bytes.
  Variable framed : wire -> bool.

  Notation externalize := (externalize wire enc comp sha).
  Notation resolve := (resolve wire dec decomp sha framed).
  Notation fetch := (fetch wire decomp).
  Notation sha_ok := (sha_ok wire sha).

  Lemma sha_ok_pm url w : sha_ok (pointer_meta url (sha w)) w = true.
  Proof.
    unfold C30.sha_ok. rewrite mget_pm_sha. destruct (sha w) eqn:E; [reflexivity |].
    rewrite <- E. apply beqb_refl.
  Qed.

  Lemma ext_eq c b size side up :
    externalize c b size side up =
      if should_ext c b size then
        if lvl_bad c then {| x_batch := b; x_meta := side; x_err := true; x_up := [] |}
        else let obj := if zflag c then comp (enc [with_side b side]) else enc [with_side b side] in
             match up with
             | UpFail => {| x_batch := b; x_meta := side; x_err := true; x_up := [(obj, zflag c)] |}
             | UpOk url => {| x_batch := pointer_batch b;
                              x_meta := pointer_meta url (sha (enc [with_side b side]));
                              x_err := false; x_up := [(obj, zflag c)] |}
             end
      else {| x_batch := b; x_meta := side; x_err := false; x_up := [] |}.
  Proof.
    destruct c as [c|]; [|reflexivity]. unfold C30.externalize, externalize_by, should_ext. cbn [lvl_bad zflag].
    destruct (c_storage c); [|reflexivity]. destruct (b_rows b =? 0); [reflexivity|].
    rewrite Z.leb_antisym. destruct (size <? threshold c)%Z; reflexivity.
  Qed.

  Lemma no_storage_inline c b size side up :
    c = None \/ (exists c', c = Some c' /\ c_storage c' = false) ->
    externalize c b size side up = {| x_batch := b; x_meta := side; x_err := false; x_up := [] |}.
  Proof.
    intros [-> | [c' [-> H]]]; [reflexivity |]. rewrite ext_eq. cbn [should_ext]. now rewrite H.
  Qed.

  Lemma resolve_pointer c p m srv x u :
    is_pointer (b_rows p) m = true -> mget m c30_k_location = Some (x :: u) ->
    url_ok (c_val c) (x :: u) = true ->
    resolve (Some c) p m srv =
      match fetch srv (x :: u) with
      | None => RErr EFetch
      | Some w =>
          if negb (sha_ok m w) then RErr ESha
          else if negb (framed w) then RErr EParse
          else match dec w with
               | None => RErr EParse
               | Some bs => match select_by classify None bs with
                            | inl r => ROk r (fetch_meta (x :: u))
                            | inr e => RErr e
                            end
               end
      end.
  Proof.
    intros Hp Hl Hu. unfold C30.resolve, resolve_by. rewrite Hp, Hl, Hu. reflexivity.
  Qed.

  Lemma resolve_passthrough c p m srv :
    c = None \/ is_pointer (b_rows p) m = false -> resolve c p m srv = RPass p m.
  Proof.
    intros [-> | H]; [reflexivity |]. destruct c; [|reflexivity].
    unfold C30.resolve, resolve_by. now rewrite H.
  Qed.

  Hypothesis dec_enc : forall bs, dec (enc bs) = Some bs.
  Hypothesis decomp_comp : forall w, decomp (comp w) = Some w.
  Hypothesis framed_enc : forall bs, framed (enc bs) = true.

  Lemma resolve_own_upload (c : cfg) (b : batch) (x : N) (u : bytes) (z : bool) :
    b_rows b <> 0 -> mhas (b_meta b) c30_k_log_level = false -> url_ok (c_val c) (x :: u) = true ->
    resolve (Some c) (pointer_batch b) (pointer_meta (x :: u) (sha (enc [b])))
            (Some (Build_served (x :: u) (if z then comp (enc [b]) else enc [b]) z))
      = ROk b (fetch_meta (x :: u)).
  Proof.
    intros Hr Hlog Hv.
    rewrite (resolve_pointer c (pointer_batch b) _ _ x u (is_pointer_pm _ _) (mget_pm_loc _ _) Hv).
    assert (Hf : fetch (Some (Build_served (x :: u) (if z then comp (enc [b]) else enc [b]) z)) (x :: u)
                 = Some (enc [b])).
    { unfold C30.fetch. cbn [s_url s_obj s_z]. rewrite beqb_refl.
      destruct z; [apply decomp_comp | reflexivity]. }
    rewrite Hf, sha_ok_pm, framed_enc, dec_enc. cbn [negb select_by].
    rewrite (classify_data b Hr Hlog). reflexivity.
  Qed.
End Generic.

Lemma sdec_enc bs : sdec (SIpc bs) = Some bs.
Proof. reflexivity. Qed.
Lemma sdecomp_comp w : sdecomp (SZ w) = Some w.
Proof. reflexivity. Qed.
Lemma sframed_enc bs : sframed (SIpc bs) = true.
Proof. reflexivity. Qed.

Lemma swire_eqb_refl w : swire_eqb w w = true.
Proof.
  induction w as [bs | w IH | tag f d]; cbn [swire_eqb].
  - apply list_eqb_refl, batch_eqb_refl.
  - exact IH.
  - rewrite N.eqb_refl, Bool.eqb_reflx. apply opt_eqb_refl, list_eqb_refl, batch_eqb_refl.
Qed.
Lemma ups_eqb_refl ups : ups_eqb ups ups = true.
Proof. apply list_eqb_refl, pair_eqb_refl; [apply swire_eqb_refl | apply Bool.eqb_reflx]. Qed.

Lemma is_pointer_mget rows m : is_pointer rows m = true -> exists u, mget m c30_k_location = Some u.
Proof.
  unfold is_pointer, mhas. intro H. apply andb_true_iff in H as [H _]. apply andb_true_iff in H as [_ H].
  destruct (mget m c30_k_location); [eauto | discriminate].
Qed.

Lemma select_sound_b bs r : select_by classify None bs = inl r ->
  existsb (batch_eqb r) bs && is_data r && negb (mhas (b_meta r) c30_k_log_level)
  && negb (existsb is_ptr bs) = true.
Proof.
  intro H. destruct (select_sound _ _ _ H) as (Hin & Hc & Hnp).
  change (existsb is_ptr bs) with (has_ptr_by classify bs).
  rewrite (proj2 (existsb_eqb_In batch_eqb batch_eqb_eq r bs) Hin), (data_not_log _ Hc), Hnp. unfold is_data, is_data_by. now rewrite Hc.
Qed.

Lemma spec_res_model t c p m srv : spec_res t c p m srv (sresolve t c p m srv) = true.
Proof.
  unfold spec_res, sresolve, resolve, resolve_by, honest, ok_is_sound, sfetch.
  destruct c as [c|]; [|cbn; now rewrite batch_eqb_refl, meta_eqb_refl].
  destruct (is_pointer (b_rows p) m) eqn:Hp; cbn [negb]; [|cbn; now rewrite batch_eqb_refl, meta_eqb_refl].
  destruct (is_pointer_mget _ _ Hp) as [[|x u] Hl]; rewrite Hl; [reflexivity|].
  destruct (url_ok (c_val c) (x :: u)); cbn [negb]; [|reflexivity].
  destruct (fetch swire sdecomp srv (x :: u)) as [w|]; [|reflexivity].
  destruct (sha_ok swire (ssha t) m w); cbn [negb]; [|reflexivity].
  (* a zstd frame is not framed; of any other bytes only soundness is asked; an IPC stream
     must also resolve when it is logs and exactly one data batch *)
  destruct w as [bs | w' | tag [|] [bs|]]; cbn [sframed sdec negb andb]; try reflexivity.
  - destruct (select_by classify None bs) as [r|e] eqn:Hsel;
      [rewrite (select_sound_b bs r Hsel)|];
      change (existsb is_ptr bs) with (has_ptr_by classify bs);
      change (filter is_data bs) with (datas_by classify bs).
    + apply select_ok_iff in Hsel as [-> [pre Hd]]. rewrite Hd.
      destruct pre as [|d0 [|d1 pre]]; cbn; [apply batch_eqb_refl | reflexivity | reflexivity].
    + apply select_err_inv in Hsel as [[-> _] | [-> [-> _]]]; reflexivity.
  - destruct (select_by classify None bs) as [r|e] eqn:Hsel; [|reflexivity].
    now rewrite (select_sound_b bs r Hsel).
Qed.

Lemma spec_round_model t c b size side up sm sv :
  nonempty (ssha t (SIpc [with_side b side])) = true ->
  spec_ok_seq (Round t c b size side up sm sv) (model (Round t c b size side up sm sv)) = true.
Proof.
  intros Hdig. unfold model, model_by, spec_ok_seq.
  change (sexternalize_by true t) with (externalize swire SIpc SZ (ssha t)). rewrite ext_eq.
  destruct (should_ext c b size) eqn:Hse.
  - destruct (lvl_bad c) eqn:Hlb.
    + cbn [x_batch x_meta x_err x_up nonempty negb andb]. rewrite batch_eqb_refl, meta_eqb_refl. reflexivity.
    + cbn zeta. destruct up as [url|]; cbn [x_batch x_meta x_err x_up negb andb]; rewrite ups_eqb_refl, batch_eqb_refl.
      * cbn [pointer_batch b_rows].
        rewrite is_pointer_pm, pm_loc_ok, (pm_sha_ok url _ Hdig), spec_res_model. cbn [andb].
        destruct sm; try reflexivity. destruct sv; try reflexivity.
        destruct url as [|x u]; try reflexivity.
        destruct c as [c'|]; [|discriminate Hse]. apply should_ext_iff in Hse as (_ & Hr & _). cbn [vld zflag].
        destruct (url_ok (c_val c') (x :: u)) eqn:Hu; try reflexivity.
        destruct (mhas (b_meta b ++ side) c30_k_log_level) eqn:Hlog; try reflexivity.
        cbn [negb andb apply_sha round_srv]. unfold sresolve.
        (* untouched pointer, untouched upload: the pointer of [with_side b side] against its own object *)
        change (pointer_batch b) with (pointer_batch (with_side b side)).
        rewrite (resolve_own_upload swire SIpc sdec SZ sdecomp (ssha t) sframed sdec_enc sdecomp_comp sframed_enc
                   c' (with_side b side) x u (zstd_on c') Hr Hlog Hu).
        apply batch_eqb_refl.
      * rewrite meta_eqb_refl. reflexivity.
  - cbn [x_batch x_meta x_err x_up nonempty negb andb].
    rewrite batch_eqb_refl, meta_eqb_refl, spec_res_model. reflexivity.
Qed.

Lemma step_eqb_eq a b : step_eqb a b = true <-> a = b.
Proof.
  destruct a as [i|i|i|i], b as [j|j|j|j]; cbn [step_eqb]; try (split; discriminate);
    rewrite Nat.eqb_eq; (split; [intros ->; reflexivity | intro H; now inversion H]).
Qed.

Section SchedProofs.
  Variable wire : Type.
  Variable enc : list batch -> wire.
  Variable comp : wire -> wire.
  Variable sha : wire -> bytes.
  Variable zstd : bool.
  Variable jb : nat -> batch.

  (* [pooled = false]: every serialization writes into a buffer of its own, as the code does *)
  Notation srun := (srun wire enc comp sha false zstd jb).
  Notation sstep := (sstep wire enc comp sha false zstd jb).

  (* one externalization run on its own *)
  Definition jstep (k : nat) (j : jstate wire) (s : step) : jstate wire :=
    match s with
    | SSer _ => {| j_buf := Some (enc [jb k]); j_sha := j_sha j; j_z := j_z j; j_obj := j_obj j |}
    | SHash _ => {| j_buf := j_buf j; j_sha := option_map sha (j_buf j); j_z := j_z j; j_obj := j_obj j |}
    | SComp _ => {| j_buf := j_buf j; j_sha := j_sha j; j_z := option_map comp (j_buf j); j_obj := j_obj j |}
    | SUp _ => {| j_buf := j_buf j; j_sha := j_sha j; j_z := j_z j;
                  j_obj := if zstd then j_z j else j_buf j |}
    end.

  Lemma sstep_own st a k :
    cs_job (sstep st a) k = if Nat.eqb (step_job a) k then jstep k (cs_job st k) a else cs_job st k.
  Proof.
    destruct a as [i | i | i | i]; cbn [C30.sstep cs_job cs_pool step_job jstep]; unfold upd, rd;
      rewrite (Nat.eqb_sym i k); destruct (Nat.eqb k i) eqn:E; try reflexivity;
      apply Nat.eqb_eq in E; subst i; reflexivity.
  Qed.

  Lemma srun_own s : forall st k,
    cs_job (srun st s) k = fold_left (jstep k) (proj k s) (cs_job st k).
  Proof.
    unfold C30.srun. induction s as [|a s IH]; intros st k; cbn [fold_left proj filter]; [reflexivity |].
    rewrite IH, sstep_own. fold (proj k s). destruct (Nat.eqb (step_job a) k); reflexivity.
  Qed.

  (* for EVERY interleaving that keeps each externalization's program order, what
     externalization k hashed and what the storage copied for it are functions of batch k *)
  Lemma own_bytes n s k :
    wf_sched zstd n s = true -> (k < n)%nat ->
    let j := cs_job (srun (cs0 wire) s) k in
    j_sha j = Some (sha (enc [jb k])) /\
    j_obj j = Some (if zstd then comp (enc [jb k]) else enc [jb k]).
  Proof.
    intros Hwf Hk. unfold wf_sched in Hwf. apply andb_true_iff in Hwf as [_ Hwf].
    rewrite forallb_forall in Hwf. specialize (Hwf k).
    assert (Hin : In k (seq 0 n)) by (apply in_seq; lia). specialize (Hwf Hin).
    apply (list_eqb_eq step_eqb step_eqb_eq) in Hwf.
    cbv zeta. rewrite srun_own, Hwf. unfold job_steps.
    assert (Hz : zstd = true \/ zstd = false) by (destruct zstd; auto).
    destruct Hz as [Hz | Hz]; rewrite Hz; cbn; rewrite ?Hz; split; reflexivity.
  Qed.
End SchedProofs.

Lemma nth_map_seq {A} (f : nat -> A) n k d : (k < n)%nat -> nth k (map f (seq 0 n)) d = f k.
Proof.
  intro H. rewrite (nth_indep _ d (f 0%nat)) by (rewrite map_length, seq_length; exact H).
  rewrite map_nth, seq_nth by exact H. reflexivity.
Qed.

Lemma conc_job_spec t z v jobs s k :
  digest_ok (Conc t z v jobs s) = true -> conc_ok (Conc t z v jobs s) = true -> (k < length jobs)%nat ->
  spec_job t z (job_batch jobs k) (job_url jobs k)
    (conc_job_out t z v jobs
       (srun swire SIpc SZ (ssha t) false z (job_batch jobs) (cs0 swire) s) k) = true.
Proof.
  cbn [digest_ok conc_ok]. intros Hdig Hok Hk.
  apply andb_true_iff in Hok as [Hwf Hjobs].
  rewrite forallb_forall in Hdig, Hjobs.
  assert (Hin : In (nth k jobs (dummy_batch, [])) jobs) by (apply nth_In; exact Hk).
  specialize (Hdig _ Hin). specialize (Hjobs _ Hin).
  cbv beta in Hdig, Hjobs.
  apply andb_true_iff in Hjobs as [Hjobs Hv]. apply andb_true_iff in Hjobs as [Hjobs Hne].
  apply andb_true_iff in Hjobs as [Hr Hlog].
  apply negb_true_iff in Hr, Hlog. apply N.eqb_neq in Hr.
  change (fst (nth k jobs (dummy_batch, []))) with (job_batch jobs k) in Hdig, Hr, Hlog.
  change (snd (nth k jobs (dummy_batch, []))) with (job_url jobs k) in Hne, Hv.
  set (b := job_batch jobs k) in *. set (url := job_url jobs k) in *.
  destruct (own_bytes swire SIpc SZ (ssha t) z (job_batch jobs) _ s k Hwf Hk) as [Hsha Hobj].
  cbv zeta in Hsha, Hobj. fold b in Hsha, Hobj.
  unfold conc_job_out. fold b url. rewrite Hsha, Hobj.
  unfold spec_job. cbn [jo_batch jo_meta jo_up jo_res].
  rewrite batch_eqb_refl, pm_loc_ok, (pm_sha_ok url _ Hdig), ups_eqb_refl. cbn [andb].
  clearbody url. destruct url as [|x u]; [discriminate |].
  unfold sresolve.
  rewrite (resolve_own_upload swire SIpc sdec SZ sdecomp (ssha t) sframed sdec_enc sdecomp_comp sframed_enc
             (conc_cfg z v) b x u z Hr Hlog Hv).
  apply batch_eqb_refl.
Qed.

(* a data batch, a log batch and a pointer batch: these tell [classify] from the pre-fix classification *)
Definition w_data : batch :=
  {| b_schema := str "x:int64"; b_smeta := []; b_rows := 2; b_vals := [(7%Z, 2)]; b_meta := [] |}.
Definition w_log : batch :=
  {| b_schema := str "x:int64"; b_smeta := []; b_rows := 0; b_vals := [];
     b_meta := [(c30_k_log_level, str "INFO")] |}.
Definition w_ptr : batch :=
  {| b_schema := str "x:int64"; b_smeta := []; b_rows := 0; b_vals := [];
     b_meta := [(c30_k_location, str "https://elsewhere/o")] |}.

(* before f41df4e: metadata passed next to the batch was dropped by externalization *)
Definition w_cfg : cfg :=
  {| c_storage := true; c_thr := 16; c_comp := None; c_level := 0; c_val := VHttps |}.
Definition w_side : meta := [(str "trace", str "abc")].
Definition w_url : bytes := str "https://h/o/1".
Definition w_tbl : shatbl := [(SIpc [w_data], str "00"); (SIpc [with_side w_data w_side], str "11")].
Definition w_round : input := Round w_tbl (Some w_cfg) w_data 16 w_side (UpOk w_url) ShaKeep None.

Lemma side_meta_legacy_dropped :
  model_legacy w_round =
    ORound (pointer_batch w_data) (pointer_meta w_url (str "00")) false [(SIpc [w_data], false)]
           (Some (ROk w_data (fetch_meta w_url)))
  /\ model w_round =
    ORound (pointer_batch w_data) (pointer_meta w_url (str "11")) false
           [(SIpc [with_side w_data w_side], false)]
           (Some (ROk (with_side w_data w_side) (fetch_meta w_url)))
  /\ digest_ok w_round = true
  /\ spec_ok w_round (model_legacy w_round) = false
  /\ spec_ok w_round (model w_round) = true.
Proof. vm_compute. repeat split; reflexivity. Qed.

(* two externalizations and a schedule on which a pooled buffer goes wrong *)
Definition w_data2 : batch :=
  {| b_schema := str "x:int64"; b_smeta := []; b_rows := 2; b_vals := [((-3)%Z, 2)]; b_meta := [] |}.
Definition w_tbl2 : shatbl := [(SIpc [w_data], str "00"); (SIpc [w_data2], str "22")].
Definition w_jobs : list (batch * bytes) := [(w_data, str "https://h/o/1"); (w_data2, str "https://h/o/2")].
(* A parked in its upload while B runs completely, then A's upload copies *)
Definition w_sched_upload : list step := [SSer 0; SHash 0; SSer 1; SHash 1; SUp 1; SUp 0].
