(* Proofs/C09.v — describe lists the surface and hashes it canonically.  The rows are those of
   the registrations in force ([in_force]: the last registration of each name, names strictly
   sorted); two lists strictly sorted by a key, with the same elements, are equal
   ([sorted_key_unique]): by name, for registrations in force this gives the invariance under
   re-registration and permutation, for rows the soundness of the decidable check
   ([rows_ok_sound]). *)
From Coq Require Import Sorting.Sorted Sorting.Permutation.
From VR Require Import Model.C09 Lib.Lists.
Open Scope N_scope.

Lemma bcmp_refl a : bcmp a a = Eq.
Proof. induction a as [|x a IH]; cbn; [reflexivity|]. now rewrite N.compare_refl. Qed.

Lemma bcmp_eq : forall a b, bcmp a b = Eq -> a = b.
Proof.
  induction a as [|x a IH]; intros [|y b]; cbn; intro H; try discriminate; [reflexivity|].
  destruct (N.compare_spec x y) as [E|L|G]; try discriminate. subst. f_equal. now apply IH.
Qed.

Lemma bcmp_antisym : forall a b, bcmp b a = CompOpp (bcmp a b).
Proof.
  induction a as [|x a IH]; intros [|y b]; cbn; try reflexivity.
  rewrite (N.compare_antisym x y). destruct (N.compare x y); cbn; auto.
Qed.

Lemma bcmp_lt_trans : forall a b c, bcmp a b = Lt -> bcmp b c = Lt -> bcmp a c = Lt.
Proof.
  induction a as [|x a IH]; intros [|y b] [|z c]; cbn; try discriminate; try reflexivity.
  destruct (N.compare_spec x y) as [Exy|Lxy|Gxy]; try discriminate;
    destruct (N.compare_spec y z) as [Eyz|Lyz|Gyz]; try discriminate; intros H1 H2.
  - subst. rewrite N.compare_refl. eauto.
  - subst. apply N.compare_lt_iff in Lyz. now rewrite Lyz.
  - subst. apply N.compare_lt_iff in Lxy. now rewrite Lxy.
  - assert (L : x < z) by lia. apply N.compare_lt_iff in L. now rewrite L.
Qed.

(* from here on [lt], [le], [lt_trans] and [le_trans] are these, not Peano's *)
Definition lt (a b : bytes) : Prop := bltb a b = true.
Definition le (a b : bytes) : Prop := bltb b a = false.

Lemma bltb_irrefl a : bltb a a = false.
Proof. unfold bltb. now rewrite bcmp_refl. Qed.

Lemma lt_trans a b c : lt a b -> lt b c -> lt a c.
Proof.
  unfold lt, bltb. destruct (bcmp a b) eqn:E1; try discriminate.
  destruct (bcmp b c) eqn:E2; try discriminate. intros _ _.
  now rewrite (bcmp_lt_trans _ _ _ E1 E2).
Qed.

Lemma lt_asym a b : lt a b -> bltb b a = false.
Proof.
  unfold lt, bltb. rewrite (bcmp_antisym a b). destruct (bcmp a b); cbn; auto; discriminate.
Qed.

Lemma lt_neq a b : lt a b -> a <> b.
Proof. intros H ->. unfold lt in H. rewrite bltb_irrefl in H. discriminate. Qed.

Lemma le_cases a b : le a b -> a = b \/ lt a b.
Proof.
  unfold le, lt, bltb. rewrite (bcmp_antisym a b).
  destruct (bcmp a b) eqn:E; cbn; intro H; try discriminate.
  - left. now apply bcmp_eq.
  - now right.
Qed.

Lemma le_trans a b c : le a b -> le b c -> le a c.
Proof.
  intros H1 H2. destruct (le_cases _ _ H2) as [<-|L]; [assumption|]. apply lt_asym.
  destruct (le_cases _ _ H1) as [->|L1]; [exact L | exact (lt_trans _ _ _ L1 L)].
Qed.

Lemma insert_perm x l : Permutation (x :: l) (insert x l).
Proof.
  induction l as [|h t IH]; cbn; [reflexivity|].
  destruct (bltb h x); [|reflexivity].
  etransitivity; [apply perm_swap|]. now constructor.
Qed.

Lemma sort_perm l : Permutation l (sort_names l).
Proof.
  induction l as [|x l IH]; cbn; [reflexivity|].
  etransitivity; [|apply insert_perm]. now constructor.
Qed.

Lemma insert_sorted x l : StronglySorted le l -> StronglySorted le (insert x l).
Proof.
  induction 1 as [|h t Hs IH Hf]; cbn.
  - repeat constructor.
  - destruct (bltb h x) eqn:E.
    + constructor; [assumption|].
      eapply Permutation_Forall; [apply insert_perm|].
      constructor; [now apply lt_asym | assumption].
    + constructor; [now constructor|].
      constructor; [exact E|].
      eapply Forall_impl; [|exact Hf]. intros y Hy. eapply le_trans; [exact E | exact Hy].
Qed.

Lemma sort_sorted l : StronglySorted le (sort_names l).
Proof. induction l; cbn; [constructor | now apply insert_sorted]. Qed.

Lemma sort_sorted_id l : StronglySorted le l -> sort_names l = l.
Proof.
  induction 1 as [|h t Hs IH Hf]; [reflexivity|].
  change (sort_names (h :: t)) with (insert h (sort_names t)).
  rewrite IH. destruct t as [|h2 t2]; cbn; [reflexivity|].
  inversion Hf as [|? ? Hh _]; subst. unfold le in Hh. now rewrite Hh.
Qed.

Lemma sorted_nodup_strict l : StronglySorted le l -> NoDup l -> StronglySorted lt l.
Proof.
  induction 1 as [|h t Hs IH Hf]; intro Hn; [constructor|].
  inversion Hn as [|? ? Hni Hnt]; subst.
  constructor; [now apply IH|].
  rewrite Forall_forall in *. intros y Hy.
  destruct (le_cases _ _ (Hf y Hy)) as [->|L]; [contradiction | exact L].
Qed.

Lemma strict_nodup l : StronglySorted lt l -> NoDup l.
Proof.
  induction 1 as [|h t Hs IH Hf]; constructor; [|assumption].
  intro Hin. rewrite Forall_forall in Hf. apply (lt_neq _ _ (Hf _ Hin)). reflexivity.
Qed.

Lemma sorted_key_unique {X} (key : X -> bytes) : forall l1 l2,
  StronglySorted lt (map key l1) -> StronglySorted lt (map key l2) ->
  (forall x, In x l1 <-> In x l2) -> l1 = l2.
Proof.
  induction l1 as [|h1 t1 IH]; intros [|h2 t2] S1 S2 Hm.
  - reflexivity.
  - exfalso. apply (proj2 (Hm h2)). now left.
  - exfalso. apply (proj1 (Hm h1)). now left.
  - inversion S1 as [|? ? S1' F1]; inversion S2 as [|? ? S2' F2]; subst.
    rewrite Forall_forall in F1, F2.
    assert (L1 : forall x, In x t1 -> lt (key h1) (key x)) by (intros x Hx; now apply F1, in_map).
    assert (L2 : forall x, In x t2 -> lt (key h2) (key x)) by (intros x Hx; now apply F2, in_map).
    (* each head occurs in the other list; if both sat in the tails, each would be below the other *)
    assert (E : h1 = h2).
    { destruct (proj1 (Hm h1) (or_introl eq_refl)) as [E|I1]; [now symmetry|].
      destruct (proj2 (Hm h2) (or_introl eq_refl)) as [E|I2]; [assumption|].
      exfalso. pose proof (lt_asym _ _ (L2 _ I1)) as A. rewrite (L1 _ I2) in A. discriminate. }
    subst h2. f_equal. apply IH; try assumption.
    intro x. split; intro Hx.
    + destruct (proj1 (Hm x) (or_intror Hx)) as [E|Hin]; [|assumption].
      exfalso. subst x. exact (lt_neq _ _ (L1 _ Hx) eq_refl).
    + destruct (proj2 (Hm x) (or_intror Hx)) as [E|Hin]; [|assumption].
      exfalso. subst x. exact (lt_neq _ _ (L2 _ Hx) eq_refl).
Qed.

Lemma map_get_set n k v m :
  map_get n (map_set k v m) = if beqb n k then Some v else map_get n m.
Proof.
  induction m as [|[k' v'] t IH]; cbn; [reflexivity|].
  destruct (beqb k k') eqn:E; cbn.
  - apply beqb_eq in E. subst k'. destruct (beqb n k); reflexivity.
  - rewrite IH. destruct (beqb n k') eqn:E2; [|reflexivity].
    apply beqb_eq in E2. subst k'. rewrite (beqb_sym n k), E. reflexivity.
Qed.

Lemma map_get_in n m : map_get n m <> None <-> In n (map fst m).
Proof.
  induction m as [|[k v] t IH]; cbn; [tauto|].
  destruct (beqb n k) eqn:E.
  - apply beqb_eq in E. subst. split; [now left | discriminate].
  - rewrite IH. apply beqb_neq in E. split; [now right | intros [->|H]; [contradiction | assumption]].
Qed.

Lemma keys_set_in n k v m : In n (map fst (map_set k v m)) <-> n = k \/ In n (map fst m).
Proof.
  rewrite <- !map_get_in, map_get_set. destruct (beqb n k) eqn:E.
  - apply beqb_eq in E. split; [now left | discriminate].
  - apply beqb_neq in E. tauto.
Qed.

Lemma keys_set_nodup k v m : NoDup (map fst m) -> NoDup (map fst (map_set k v m)).
Proof.
  induction m as [|[k' v'] t IH]; cbn; intro Hn.
  - constructor; [intros [] | constructor].
  - inversion Hn as [|? ? Hni Hnt]; subst. destruct (beqb k k') eqn:E; cbn.
    + apply beqb_eq in E. subst. now constructor.
    + constructor; [|now apply IH].
      rewrite keys_set_in. apply beqb_neq in E. intros [->|H]; [now apply E | contradiction].
Qed.

Lemma methods_snoc regs c :
  methods_of (regs ++ [c]) = map_set (rc_name c) (info_of c) (methods_of regs).
Proof. unfold methods_of. now rewrite fold_left_app. Qed.

Lemma last_reg_snoc n regs c :
  last_reg n (regs ++ [c]) = if beqb (rc_name c) n then Some c else last_reg n regs.
Proof. unfold last_reg. rewrite rev_unit. reflexivity. Qed.

Lemma map_get_methods n regs : map_get n (methods_of regs) = option_map info_of (last_reg n regs).
Proof.
  induction regs as [|c regs IH] using rev_ind; [reflexivity|].
  rewrite methods_snoc, last_reg_snoc, map_get_set, (beqb_sym n).
  destruct (beqb (rc_name c) n); [reflexivity | exact IH].
Qed.

Lemma keys_nodup regs : NoDup (map fst (methods_of regs)).
Proof.
  induction regs as [|c regs IH] using rev_ind; [constructor|].
  rewrite methods_snoc. now apply keys_set_nodup.
Qed.

Lemma keys_in n regs : In n (map fst (methods_of regs)) <-> In n (map rc_name regs).
Proof.
  induction regs as [|c regs IH] using rev_ind; [reflexivity|].
  rewrite methods_snoc, keys_set_in, IH, map_app, in_app_iff. cbn. intuition.
Qed.

Lemma last_reg_some n regs c : last_reg n regs = Some c -> In c regs /\ rc_name c = n.
Proof.
  unfold last_reg. intro H. apply find_some in H as [Hi He].
  split; [now apply in_rev | now apply beqb_eq].
Qed.

Lemma last_reg_in n regs : In n (map rc_name regs) <-> exists c, last_reg n regs = Some c.
Proof.
  split.
  - intro H. apply in_map_iff in H as [c [Hn Hc]].
    destruct (last_reg n regs) as [c'|] eqn:E; [now exists c'|].
    unfold last_reg in E. pose proof (find_none _ _ E c (proj1 (in_rev _ _) Hc)) as F.
    cbn in F. rewrite Hn, beqb_refl in F. discriminate.
  - intros [c H]. apply last_reg_some in H as [Hi Hn]. apply in_map_iff. now exists c.
Qed.

Lemma sorted_names_eq regs : sorted_method_names regs = sort_names (map fst (methods_of regs)).
Proof. unfold sorted_method_names. apply sort_sorted_id, sort_sorted. Qed.

Lemma sorted_names_in n regs : In n (sorted_method_names regs) <-> In n (map rc_name regs).
Proof.
  rewrite sorted_names_eq, <- keys_in. split; intro H.
  - eapply Permutation_in; [symmetry; apply sort_perm | exact H].
  - eapply Permutation_in; [apply sort_perm | exact H].
Qed.

Lemma sorted_names_strict regs : StronglySorted lt (sorted_method_names regs).
Proof.
  rewrite sorted_names_eq. apply sorted_nodup_strict; [apply sort_sorted|].
  eapply Permutation_NoDup; [apply sort_perm | apply keys_nodup].
Qed.

(* the registrations in force, in the order of their names *)
Definition sel (regs : list regcall) (n : bytes) : list regcall :=
  match last_reg n regs with Some c => [c] | None => [] end.
Definition in_force (regs : list regcall) : list regcall :=
  flat_map (sel regs) (sorted_method_names regs).
Definition reg_ent (c : regcall) : ent := ent_of (rc_name c) (info_of c).

(* over registered names the loop finds every name, and selects one registration each *)
Lemma sel_registered regs : forall names,
  (forall n, In n names -> In n (map rc_name regs)) ->
  map rc_name (flat_map (sel regs) names) = names
  /\ build_ents (methods_of regs) names = Some (map reg_ent (flat_map (sel regs) names)).
Proof.
  induction names as [|n t IH]; intro Hall; [split; reflexivity|].
  destruct IH as [IHn IHb]; [intros; apply Hall; now right|].
  destruct (proj1 (last_reg_in n regs) (Hall n (or_introl eq_refl))) as [c Hc].
  assert (Es : sel regs n = [c]) by (unfold sel; now rewrite Hc).
  cbn [flat_map build_ents]. rewrite Es, map_get_methods, Hc, IHb. cbn [app map option_map]. rewrite IHn.
  apply last_reg_some in Hc as [_ <-]. split; reflexivity.
Qed.

Lemma in_force_names regs : map rc_name (in_force regs) = sorted_method_names regs.
Proof. refine (proj1 (sel_registered regs _ _)). intro n. apply sorted_names_in. Qed.

Lemma describe_ents_total regs : describe_ents regs = Some (map reg_ent (in_force regs)).
Proof. refine (proj2 (sel_registered regs _ _)). intro n. apply sorted_names_in. Qed.

Lemma in_force_in regs c : In c (in_force regs) <-> last_reg (rc_name c) regs = Some c.
Proof.
  unfold in_force. rewrite in_flat_map. split.
  - intros (n & _ & Hc). unfold sel in Hc. destruct (last_reg n regs) as [c'|] eqn:E; [|destruct Hc].
    destruct Hc as [->|[]]. apply last_reg_some in E as E'. destruct E' as [_ <-]. exact E.
  - intro Hc. exists (rc_name c). split; [apply sorted_names_in, last_reg_in; now exists c|].
    unfold sel. rewrite Hc. now left.
Qed.

Lemma row_of_ent_spec c : row_of_ent (reg_ent c) = spec_row c.
Proof. destruct c; reflexivity. Qed.

Lemma spec_row_name c : w_name (spec_row c) = rc_name c.
Proof. destruct c; reflexivity. Qed.

Lemma describe_rows_eq regs : describe_rows regs = map spec_row (in_force regs).
Proof. unfold describe_rows. rewrite describe_ents_total, map_map. apply map_ext, row_of_ent_spec. Qed.

Lemma describe_rows_names regs : map w_name (describe_rows regs) = sorted_method_names regs.
Proof. rewrite describe_rows_eq, map_map, <- in_force_names. apply map_ext, spec_row_name. Qed.

Lemma describe_rows_in regs w :
  In w (describe_rows regs) <-> exists c, last_reg (w_name w) regs = Some c /\ w = spec_row c.
Proof.
  rewrite describe_rows_eq, in_map_iff. split.
  - intros (c & <- & Hc). exists c. rewrite spec_row_name. split; [now apply in_force_in | reflexivity].
  - intros (c & Hc & ->). exists c. split; [reflexivity|]. apply in_force_in. now rewrite spec_row_name in Hc.
Qed.

Lemma rows_sorted_each_once regs :
  StronglySorted lt (map w_name (describe_rows regs))
  /\ NoDup (map w_name (describe_rows regs))
  /\ (forall n, In n (map w_name (describe_rows regs)) <-> In n (map rc_name regs))
  /\ (forall w, In w (describe_rows regs) <->
                exists c, last_reg (w_name w) regs = Some c /\ w = spec_row c).
Proof.
  rewrite describe_rows_names.
  split; [apply sorted_names_strict|]. split; [apply strict_nodup, sorted_names_strict|].
  split; [intro n; apply sorted_names_in | intro w; apply describe_rows_in].
Qed.

Lemma in_force_ext regs1 regs2 :
  (forall n, last_reg n regs1 = last_reg n regs2) -> in_force regs1 = in_force regs2.
Proof.
  intro Hl. apply (sorted_key_unique rc_name); rewrite ?in_force_names; try apply sorted_names_strict.
  intro c. now rewrite !in_force_in, Hl.
Qed.

Lemma describe_ext H g regs1 regs2 :
  (forall n, last_reg n regs1 = last_reg n regs2) ->
  build_describe H g regs1 = build_describe H g regs2
  /\ describe_rows regs1 = describe_rows regs2
  /\ describe_payload g regs1 = describe_payload g regs2.
Proof.
  intro Hl. unfold build_describe, describe_rows, describe_payload.
  rewrite !describe_ents_total, (in_force_ext _ _ Hl). auto.
Qed.

Lemma last_reg_nodup regs c :
  NoDup (map rc_name regs) -> In c regs -> last_reg (rc_name c) regs = Some c.
Proof.
  intros Hn Hc.
  destruct (proj1 (last_reg_in (rc_name c) regs)) as [c' Hc']; [now apply in_map|].
  rewrite Hc'. f_equal. apply last_reg_some in Hc' as [Hi He].
  eapply NoDup_map_inj; eauto.
Qed.

Lemma last_reg_perm regs1 regs2 :
  Permutation regs1 regs2 -> NoDup (map rc_name regs1) ->
  forall n, last_reg n regs1 = last_reg n regs2.
Proof.
  intros Hp Hn1 n.
  assert (Hn2 : NoDup (map rc_name regs2)) by (eapply Permutation_NoDup; [apply Permutation_map; exact Hp | exact Hn1]).
  destruct (last_reg n regs1) as [c|] eqn:E1.
  - apply last_reg_some in E1 as [Hi <-]. symmetry. apply last_reg_nodup; [assumption|].
    eapply Permutation_in; eauto.
  - destruct (last_reg n regs2) as [c|] eqn:E2; [|reflexivity].
    apply last_reg_some in E2 as [Hi <-].
    rewrite last_reg_nodup in E1; [discriminate | assumption |].
    eapply Permutation_in; [symmetry; exact Hp | exact Hi].
Qed.

Lemma perm_invariant H g regs1 regs2 :
  Permutation regs1 regs2 -> NoDup (map rc_name regs1) ->
  build_describe H g regs1 = build_describe H g regs2
  /\ describe_rows regs1 = describe_rows regs2
  /\ describe_payload g regs1 = describe_payload g regs2.
Proof. intros Hp Hn. apply describe_ext. now apply last_reg_perm. Qed.

(* the parallel slices handed to computeProtocolHash say what the column builders were given *)
Definition slices_ok (e : ent) : Prop :=
  e_xhash e = match e_xcol e with Some true => 1 | Some false => 0 | None => -1 end%Z
  /\ e_hhash e = match e_hcol e with Some h => h | None => [] end.

Lemma hash_ent_row e : slices_ok e -> hash_ent e = US :: join [RS] (ref_fields (row_of_ent e)).
Proof.
  intros [Ex Eh]. unfold hash_ent, ref_fields, row_of_ent.
  cbn [w_name w_mt w_hr w_hh w_x w_params w_result w_header join].
  rewrite Ex, Eh. destruct (e_xcol e) as [[]|]; now destruct (match e_hcol e with Some h => h | None => [] end).
Qed.

Lemma hash_payload_ref pn ents :
  Forall slices_ok ents -> hash_payload pn ents = ref_payload pn (map row_of_ent ents).
Proof.
  intro F. unfold hash_payload, ref_payload. fold hash_prefix.
  (* as variables: the unifier would otherwise compute the literals *)
  generalize hash_prefix, c09_describe_version, c09_wire_version. intros a b c.
  cbn [join]. rewrite <- !app_assoc. do 7 f_equal.
  induction F as [|e l He _ IH]; [reflexivity|]. cbn [flat_map map concat]. now rewrite (hash_ent_row e He), IH.
Qed.

Lemma payload_reference g regs :
  describe_payload g regs = ref_payload (protocol_name g) (describe_rows regs).
Proof.
  unfold describe_payload, describe_rows. rewrite describe_ents_total. apply hash_payload_ref.
  apply Forall_map, Forall_forall. intros c _. split; reflexivity.
Qed.

Lemma row_eqb_refl w : row_eqb w w = true.
Proof.
  unfold row_eqb. rewrite !beqb_refl, !Bool.eqb_reflx, (opt_eqb_refl beqb beqb_refl).
  destruct (w_x w) as [[]|]; reflexivity.
Qed.

Lemma row_eqb_eq a b : row_eqb a b = true <-> a = b.
Proof.
  split; [|intros ->; apply row_eqb_refl].
  unfold row_eqb. rewrite !andb_true_iff. intros [[[[[[[H1 H2] H3] H4] H5] H6] H7] H8].
  destruct a as [an am ar ap as_ ah ahd ax], b as [bn bm br bp bs bh bhd bx]; cbn in *.
  apply beqb_eq in H1, H2, H4, H5. apply Bool.eqb_prop in H3, H6.
  apply (opt_eqb_eq beqb beqb_eq) in H7.
  assert (ax = bx).
  { destruct ax as [[]|], bx as [[]|]; cbn in H8; try discriminate; reflexivity. }
  now subst.
Qed.

Lemma kv_eqb_eq a b : kv_eqb a b = true <-> a = b.
Proof. apply pair_eqb_eq; apply beqb_eq. Qed.

Lemma resp_eqb_eq a b : resp_eqb a b = true <-> a = b.
Proof.
  unfold resp_eqb. rewrite andb_true_iff, (list_eqb_eq row_eqb row_eqb_eq), (list_eqb_eq kv_eqb kv_eqb_eq).
  destruct a as [ra ma], b as [rb mb]; cbn [r_rows r_meta].
  split; [intros [-> ->]; reflexivity | intro E; now inversion E].
Qed.

Lemma resp_eqb_refl r : resp_eqb r r = true.
Proof. now apply resp_eqb_eq. Qed.

Lemma rc_eqb_eq a b : rc_eqb a b = true -> a = b.
Proof.
  (* for equal constructors the test is the conjunction of the tests on the arguments *)
  destruct a, b; cbn [rc_eqb]; try discriminate; rewrite ?andb_true_iff; intro H; decompose [and] H;
    f_equal; (now apply beqb_eq) || now apply (opt_eqb_eq beqb beqb_eq).
Qed.

Lemma perm_check_sound regs regs2 :
  perm_check regs regs2 = true -> Permutation regs regs2 /\ NoDup (map rc_name regs).
Proof.
  unfold perm_check. rewrite !andb_true_iff. intros [[Hl Hn] Hf].
  apply Nat.eqb_eq in Hl. apply (nodupb_by_NoDup beqb beqb_eq) in Hn. split; [|assumption].
  apply NoDup_Permutation_bis.
  - eapply NoDup_map_inv; exact Hn.
  - now rewrite Hl.
  - intros c Hc. rewrite forallb_forall in Hf. specialize (Hf c Hc).
    apply existsb_exists in Hf as [c' [Hc' E]]. apply rc_eqb_eq in E. now subst.
Qed.

Lemma strictly_sortedb_iff l : strictly_sortedb l = true <-> StronglySorted lt l.
Proof.
  induction l as [|h t IH]; [split; constructor|]. destruct t as [|h2 t2]; [split; repeat constructor|].
  change (strictly_sortedb (h :: h2 :: t2)) with (bltb h h2 && strictly_sortedb (h2 :: t2)).
  rewrite andb_true_iff, IH. split.
  - intros [H1 H2]. constructor; [exact H2|]. inversion H2 as [|? ? _ F2]; subst. constructor; [exact H1|].
    eapply Forall_impl; [|exact F2]. intros y Hy. exact (lt_trans _ _ _ H1 Hy).
  - intro H. inversion H as [|? ? Hs Hf]; subst. inversion Hf; subst. split; assumption.
Qed.

Lemma rows_ok_model regs : rows_ok regs (describe_rows regs) = true.
Proof.
  unfold rows_ok. destruct (rows_sorted_each_once regs) as [Hs [_ [Hn Hw]]].
  rewrite (proj2 (strictly_sortedb_iff _) Hs). cbn [andb]. apply andb_true_iff. split.
  - apply forallb_forall. intros w Hin. apply Hw in Hin as [c [Hc ->]].
    rewrite Hc. apply row_eqb_refl.
  - apply forallb_forall. intros c Hc. apply existsb_exists.
    assert (Hin : In (rc_name c) (map w_name (describe_rows regs))) by (apply Hn; now apply in_map).
    apply in_map_iff in Hin as [w [Hwn Hwin]]. exists w. split; [assumption|].
    rewrite Hwn. apply beqb_refl.
Qed.

Lemma rows_ok_sound regs rows : rows_ok regs rows = true -> rows = describe_rows regs.
Proof.
  unfold rows_ok. rewrite !andb_true_iff. intros [[Hs Hr] He].
  apply strictly_sortedb_iff in Hs. rewrite forallb_forall in Hr, He.
  assert (Hrow : forall w, In w rows -> exists c, last_reg (w_name w) regs = Some c /\ w = spec_row c).
  { intros w Hw. specialize (Hr w Hw). destruct (last_reg (w_name w) regs) as [c|]; [|discriminate].
    exists c. split; [reflexivity | now apply row_eqb_eq]. }
  apply (sorted_key_unique w_name); [assumption | rewrite describe_rows_names; apply sorted_names_strict |].
  intro w. rewrite describe_rows_in. split; [apply Hrow|].
  (* the row the check found under this name is this one: both are dictated by last_reg *)
  intros (c & Hc & ->). rewrite spec_row_name in Hc. destruct (last_reg_some _ _ _ Hc) as [Hi _].
  specialize (He c Hi). apply existsb_exists in He as (w & Hw & E). apply beqb_eq in E.
  destruct (Hrow w Hw) as (c' & Hc' & ->). rewrite E, Hc in Hc'. now injection Hc' as <-.
Qed.

Lemma meta_get_pn H g ents tail :
  meta_get c09_k_protocol_name
    ([(c09_k_protocol_name, protocol_name g); (c09_k_request_version, c09_wire_version);
      (c09_k_describe_version, c09_describe_version);
      (c09_k_protocol_hash, H (hash_payload (protocol_name g) ents))] ++ tail) = protocol_name g.
Proof. cbn [app meta_get]. now rewrite beqb_refl. Qed.

(* what every describe response is: the rows the registrations dictate, and a hashed
   payload that is their reference framing under the advertised protocol name *)
Lemma describe_facts H g regs :
  exists p, build_describe H g regs = Some p /\ r_rows p = describe_rows regs
    /\ payload_of (g, regs)
       = Some (ref_payload (meta_get c09_k_protocol_name (r_meta p)) (r_rows p)).
Proof.
  pose proof (payload_reference g regs) as P. revert P.
  unfold build_describe, payload_of, describe_payload, describe_rows. cbn [fst snd]. rewrite describe_ents_total.
  intro P. eexists. split; [reflexivity|]. cbn [r_rows r_meta]. rewrite meta_get_pn, P. split; reflexivity.
Qed.

Lemma model_meets_static H i : spec_static i (model_with H i) = true.
Proof.
  unfold spec_static, model_with, pipe_describe, http_describe.
  cbn [o_pipe o_http_status o_http o_alt o_sub o_payload o_hash_ok o_frame_ok o_decode_ok o_accessor_ok fst snd].
  destruct (describe_facts H (i_cfg i) (i_regs i)) as (p & Ep & Hr & Hp).
  unfold payload_of in Hp. cbn [fst snd] in Hp.
  rewrite Ep, Hp, Hr, rows_ok_model. cbn [andb opt_eqb]. rewrite beqb_refl, resp_eqb_refl.
  cbn [andb Z.eqb Pos.eqb]. apply andb_true_iff. split.
  - destruct (perm_check (i_regs i) (i_regs2 i)) eqn:Ec; [|reflexivity].
    apply perm_check_sound in Ec as [Hp' Hn].
    destruct (perm_invariant H (i_cfg i) _ _ Hp' Hn) as [<- _]. rewrite Ep. cbn. apply resp_eqb_refl.
  - destruct (i_sub i); [|reflexivity]. cbn. apply resp_eqb_refl.
Qed.

(* every implementation observation accepted by spec_ok carries exactly the
   rows the registrations dictate and a payload that is their reference framing *)
Lemma spec_ok_sound i o :
  spec_ok i o = true ->
  exists p, o_pipe o = Some p
    /\ r_rows p = describe_rows (i_regs i)
    /\ o_payload o = Some (ref_payload (meta_get c09_k_protocol_name (r_meta p)) (r_rows p))
    /\ o_http o = Some p.
Proof.
  unfold spec_ok. intro Hst. apply andb_true_iff in Hst as [Hst _]. unfold spec_static in Hst.
  destruct (o_pipe o) as [p|]; [|discriminate].
  (* the conjuncts in the order of [spec_static]: the rows, four flags, the payload, the
     status, HTTP, the second server, the fresh process *)
  apply andb_prop in Hst
    as [[[[[[[[[Hrows _]%andb_prop _]%andb_prop _]%andb_prop _]%andb_prop Hpayload]%andb_prop
             _]%andb_prop Hhttp]%andb_prop _]%andb_prop _].
  exists p. repeat split.
  - exact (rows_ok_sound _ _ Hrows).
  - exact (proj1 (opt_eqb_eq beqb beqb_eq _ _) Hpayload).
  - exact (proj1 (opt_eqb_eq resp_eqb resp_eqb_eq _ _) Hhttp).
Qed.

Lemma desc_ok_model H s :
  desc_ok (snd s) (desc_obs H s 200 (build_describe H (fst s) (snd s))) = true.
Proof.
  destruct s as [g regs]. unfold desc_obs. cbn [fst snd].
  destruct (describe_facts H g regs) as [p [Ep [Hr Hp]]]. rewrite Ep, Hp. cbn [desc_ok].
  rewrite Hr, rows_ok_model. cbn [andb opt_eqb Z.eqb Pos.eqb].
  now rewrite beqb_refl, resp_eqb_refl.
Qed.

Lemma h_touch_surface st : h_surface (h_touch st) = h_surface st.
Proof. unfold h_touch. destruct (h_once st); reflexivity. Qed.

Lemma apply_mut_observer s o : is_mutator o = false -> apply_mut s o = s.
Proof. destruct s as [g regs]. destruct o; cbn; intro E; try discriminate; reflexivity. Qed.

Lemma hstep_surface H st o : h_surface (fst (hstep H st o)) = apply_mut (h_surface st) o.
Proof.
  destruct o; cbn [hstep fst h_surface]; try reflexivity;
    try (rewrite apply_mut_observer by reflexivity; reflexivity).
  - rewrite h_touch_surface, apply_mut_observer by reflexivity. reflexivity.
  - rewrite apply_mut_observer by reflexivity.
    destruct (beqb name (str "__describe__") || beqb name (str "__transport_options__")); [reflexivity|].
    destruct (last_reg name (snd (h_surface st))); [apply h_touch_surface | reflexivity].
Qed.

Lemma hstep_describe H st o :
  is_describe o = true ->
  hstep H st o = (st, desc_obs H (h_surface st) 200
                        (build_describe H (fst (h_surface st)) (snd (h_surface st)))).
Proof. destruct o; intro E; try discriminate E; reflexivity. Qed.

Lemma hist_ok_model H : forall ops st, hist_ok (h_surface st) ops (hist_run H st ops) = true.
Proof.
  induction ops as [|o t IH]; intro st; [reflexivity|].
  cbn [hist_run]. pose proof (hstep_surface H st o) as Hs.
  assert (D : is_describe o = true -> desc_ok (snd (h_surface st)) (snd (hstep H st o)) = true)
    by (intro Ed; rewrite (hstep_describe H st o Ed); apply desc_ok_model).
  destruct (hstep H st o) as [st' b]. cbn [fst snd hist_ok] in *. rewrite <- Hs, IH, andb_true_r.
  destruct (is_describe o); [now apply D | reflexivity].
Qed.

Lemma hist_run_length H : forall ops st, length (hist_run H st ops) = length ops.
Proof.
  induction ops as [|o t IH]; intro st; [reflexivity|].
  cbn [hist_run]. destruct (hstep H st o). cbn. now rewrite IH.
Qed.

Lemma model_meets_spec H i : spec_ok i (model_with H i) = true.
Proof.
  unfold spec_ok. rewrite model_meets_static. cbn [andb].
  unfold model_with. cbn [o_hist]. apply (hist_ok_model H (i_hist i) h_init).
Qed.

Lemma model_meets_spec_masked i : spec_ok i (model i) = true.
Proof. apply model_meets_spec. Qed.

Lemma pipe_http_same H g regs :
  http_describe H g regs = (200%Z, pipe_describe H g regs).
Proof. reflexivity. Qed.
