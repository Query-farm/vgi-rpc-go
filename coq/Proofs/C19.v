(* Proofs/C19.v — the response caps.  What the unary and exchange handlers can answer is
   the relation [answer]; the hard-cap statements and the decidable form read it off.  The
   produce loop is analysed once, as the relation [turn_shape], and every per-turn fact is
   an induction on its derivations.  [turn_cons] is used twice: by [turn_shape_turn], which ties
   the relation to [turn], and by [turn_wcap_unset], which compares the loop with and without
   the wire check. *)
From VR Require Import Model.C19.
Open Scope Z_scope.

(* the only facts about the size oracle the theorems use: an upload's raw IPC
   size is at least the Arrow buffer size it was predicted from *)
Definition wf_batch (c : caps) (b : batch) : Prop := externalized c b = true -> b_arrow b <= b_raw b.
Definition wfc (c : caps) (cs : list cycle) : Prop := Forall (fun cy => wf_batch c (c_b cy)) cs.
Definition wf_input (i : input) : Prop :=
  match i with
  | IProd c _ _ cs => wfc c cs
  | _ => True
  end.

Lemma thr_eff_pos c : 0 < thr_eff c.
Proof. unfold thr_eff. destruct (thr c <=? 0) eqn:E; [vm_compute; reflexivity | lia]. Qed.

Lemma predicted_bounds c b : wf_batch c b -> 0 <= predicted c b <= upload c b.
Proof.
  unfold wf_batch, predicted, upload. intros H. destruct (externalized c b) eqn:E; [|lia].
  specialize (H eq_refl). unfold externalized in E. pose proof (thr_eff_pos c). lia.
Qed.

(* each verdict of enforceResponseBudgets with what it says of the sizes *)
Lemma enforce_cases w e wc ec :
  match enforce w e wc ec with
  | ENone => (0 < wc -> w <= wc) /\ (0 < ec -> e <= ec)
  | EWire => 0 < wc < w
  | EExt => 0 < ec < e
  | EUser => False
  end.
Proof.
  unfold enforce. destruct ((0 <? wc) && (wc <? w)) eqn:A; [lia|].
  destruct ((0 <? ec) && (ec <? e)) eqn:B; lia.
Qed.

Lemma enforce_unset w e wc ec : wc <= 0 -> ec <= 0 -> enforce w e wc ec = ENone.
Proof. intros. pose proof (enforce_cases w e wc ec) as E. destruct (enforce w e wc ec); [reflexivity | tauto | lia..]. Qed.

Lemma enforce_not_user w e wc ec : enforce w e wc ec <> EUser.
Proof. intros E. pose proof (enforce_cases w e wc ec) as H. now rewrite E in H. Qed.

Definition errk_code (k : errk) : Z := match k with ENone => 0 | EWire => 1 | EExt => 2 | EUser => 9 end.

Definition delivered (r : hresp) : Prop := r_err r = ENone.

(* Every answer of handleUnary / handleExchangeCall with the reason for it: the uncapped response,
   which then fits both caps, or an error-only response, which [justified] accounts for.
   ob = the result batch, None for a void call. *)
Variant answer (c : caps) (body : Z) (ob : option batch) : hresp -> Prop :=
| an_ok r : delivered r -> r_body r = body -> r_hdr r = false ->
    r_upl r = match ob with Some b => upload c b | None => 0 end ->
    (0 < wcap c -> body <= wcap c) -> (0 < ecap c -> r_upl r <= ecap c) -> answer c body ob r
| an_err k l u : k <> ENone -> justified c body ob (resp_err k l u) = true -> answer c body ob (resp_err k l u).

(* all three paths (void unary, unary with a result, exchange) end by holding the response
   they built to both caps *)
Lemma gate_answer c body ob ok : let upl := match ob with Some b => upload c b | None => 0 end in
  delivered ok -> r_body ok = body -> r_hdr ok = false -> r_upl ok = upl ->
  answer c body ob (match enforce body upl (wcap c) (ecap c) with ENone => ok | k => resp_err k 0 upl end).
Proof.
  intros upl D B H U. pose proof (enforce_cases body upl (wcap c) (ecap c)) as E.
  destruct (enforce body upl (wcap c) (ecap c));
    [apply an_ok; try assumption; rewrite ?U; apply E | destruct E | apply an_err; [discriminate | destruct ob; cbn; lia]..].
Qed.

Lemma unary_answer c u : answer c (u_body u) (if u_void u then None else Some (u_b u)) (unary c u).
Proof.
  unfold unary, unary_gen. destruct (u_fail u); [now apply an_err|]. destruct (u_void u).
  - now apply (gate_answer c _ None).
  - cbv zeta. destruct (ext_on c && _ && _) eqn:P; [apply an_err; [discriminate | cbn; lia]|].
    now apply (gate_answer c _ (Some (u_b u))).
Qed.

Lemma exchange_answer c x : answer c (x_body x) (Some (x_b x)) (exchange c x).
Proof.
  unfold exchange. destruct (x_act x); try now apply an_err.
  cbv zeta. destruct (ext_on c && _ && _ && _) eqn:P; [apply an_err; [discriminate | cbn; lia]|].
  now apply (gate_answer c _ (Some (x_b x))).
Qed.

Lemma answer_hard c body b r : answer c body (Some b) r ->
  (r_err r = ENone -> r_body r = body /\ (0 < wcap c -> body <= wcap c) /\ (0 < ecap c -> r_upl r <= ecap c) /\ r_hdr r = false) /\
  (r_err r <> ENone -> r_ndata r = 0 /\ r_nptr r = 0 /\ r_hdr r = true) /\
  (0 < wcap c -> wcap c < body -> r_err r <> ENone) /\
  (0 < ecap c -> ecap c < upload c b -> r_err r <> ENone).
Proof.
  unfold delivered. intros [r' D B H U W X|k l u K _]; [|cbn; repeat split; intros; congruence].
  repeat split; auto; intros; try congruence; lia.
Qed.

Lemma answer_ok c body ob r : answer c body ob r -> hard_ok c r && justified c body ob r = true.
Proof.
  unfold hard_ok. intros [r' D B H U W X|k l u K J].
  - unfold justified. rewrite D, B, H. lia.
  - rewrite J. now destruct k.
Qed.

Lemma size_of_app a b : size_of (a ++ b) = size_of a + size_of b.
Proof. unfold size_of, sumz. rewrite map_app. induction (map fr_size a) as [|x l IH]; cbn [app fold_right]; lia. Qed.

Lemma ids_app a b : ids (a ++ b) = ids a ++ ids b.
Proof. unfold ids. now rewrite filter_app, map_app. Qed.

Lemma ids_logs cy : ids (log_frames cy) = [].
Proof. unfold log_frames. induction (c_logs cy) as [|s l IH]; [reflexivity|]. exact IH. Qed.

Lemma is_data_data_frame c b : is_data (data_frame c b) = true.
Proof. unfold is_data, data_frame, fr_kind. cbn [fst]. now destruct (externalized c b). Qed.

Lemma ids_data c b : ids [data_frame c b] = [b_id b].
Proof. unfold ids. cbn [filter]. rewrite is_data_data_frame. reflexivity. Qed.

Lemma size_logs cy : size_of (log_frames cy) = sumz (c_logs cy).
Proof. unfold size_of, log_frames. rewrite map_map. cbn [fr_size snd]. now rewrite map_id. Qed.

Definition emits (a : act) : bool := match a with AEmit | AEmitFin => true | _ => false end.

Lemma group_emit c cy : emits (c_act cy) = true -> group c cy = log_frames cy ++ [data_frame c (c_b cy)].
Proof. unfold group. now destruct (c_act cy). Qed.

Lemma ids_group_emit c cy : emits (c_act cy) = true -> ids (group c cy) = [b_id (c_b cy)].
Proof. intros E. rewrite (group_emit c cy E), ids_app, ids_logs, ids_data. reflexivity. Qed.

(* a run of log frames only adds to the current run's size *)
Lemma lg_logs ls fs : forall acc b tr,
  lg (map (fun s => (0, 0, s)) ls ++ fs) acc b tr = lg fs (acc + sumz ls) b (match ls with [] => tr | _ => true end).
Proof.
  induction ls as [|l ls IH]; intros acc b tr; cbn [map app]; [now rewrite Z.add_0_r|].
  cbn [lg]. change (is_data (0, 0, l)) with false. cbn [fr_size snd]. rewrite IH.
  change (sumz (l :: ls)) with (l + sumz ls). destruct ls; f_equal; lia.
Qed.

(* a flushed data batch closes the current run of logs: its group becomes the last closed one *)
Lemma lg_group c cy fs acc best tr : emits (c_act cy) = true ->
  lg (group c cy ++ fs) acc best tr = lg fs 0 (acc + size_of (group c cy)) false.
Proof.
  intros E. rewrite (group_emit c cy E), <- app_assoc, size_of_app, size_logs. unfold log_frames.
  rewrite lg_logs. cbn [app lg]. rewrite is_data_data_frame. f_equal. cbn. lia.
Qed.

Definition ended (c : caps) (e : Z) (g : list frame) (en : tend) (w e' a' : Z) (rest : list cycle) : tres :=
  {| tr_frames := g; tr_end := en; tr_w := w; tr_e := e'; tr_a := a'; tr_budgets := [budget c e]; tr_rest := rest |}.
Definition went_on (c : caps) (e : Z) (g : list frame) (r : tres) : tres :=
  {| tr_frames := g ++ tr_frames r; tr_end := tr_end r; tr_w := tr_w r; tr_e := tr_e r; tr_a := tr_a r;
     tr_budgets := budget c e :: tr_budgets r; tr_rest := tr_rest r |}.

(* [turn] on a non-empty script; it is unfolded here and nowhere else.  The action is fixed
   before the unfolding, so that only its own branch is ever built. *)
Lemma turn_cons chk c w e a nd cy rest :
  turn chk c w e a nd (cy :: rest) =
  let g := group c cy in
  let here en := ended c e g en (w + size_of g) (e + upload c (c_b cy)) (a + predicted c (c_b cy)) in
  match c_act cy with
  | AFail | ANone => ended c e [] (TErr EUser) w e a []
  | AFin => ended c e g TFin (w + size_of g) e a []
  | AEmitFin => if ext_refused c e (c_b cy) then ended c e [] (TErr EExt) w e a [] else here TFin []
  | AEmit =>
      if ext_refused c e (c_b cy) then ended c e [] (TErr EExt) w e a []
      else if (0 <? limit c) && (limit c <=? nd + 1) || chk && (0 <? wcap c) && (wcap c <=? w + size_of g) then here TToken rest
      else went_on c e g (turn chk c (w + size_of g) (e + upload c (c_b cy)) (a + predicted c (c_b cy)) (nd + 1) rest)
  end.
Proof.
  destruct cy as [l [] b]; try reflexivity. cbn [turn c_act c_b].
  destruct (ext_refused c e b); [reflexivity|]. now destruct ((0 <? limit c) && (limit c <=? nd + 1)).
Qed.

(* What one call of the produce loop does, as a relation between the start state, the script
   and the result.  A turn finds the script exhausted; stops on an error without writing (the
   external cap, or user code); writes a finishing cycle's logs; writes a data batch and ends
   (Finish, or a token for the batch limit or the wire cap); or writes a data batch and goes
   on, the buffer being still below the wire cap. *)
Inductive turn_shape (chk : bool) (c : caps) : Z -> Z -> Z -> Z -> list cycle -> tres -> Prop :=
| ts_nil w e a nd : turn_shape chk c w e a nd [] (ended c e [] TFin w e a [])
| ts_err w e a nd cy rest k : k = EExt \/ k = EUser /\ (c_act cy = AFail \/ c_act cy = ANone) ->
    turn_shape chk c w e a nd (cy :: rest) (ended c e [] (TErr k) w e a [])
| ts_fin w e a nd cy rest : c_act cy = AFin ->
    turn_shape chk c w e a nd (cy :: rest) (ended c e (group c cy) TFin (w + size_of (group c cy)) e a [])
| ts_here w e a nd cy rest en rest' : ext_refused c e (c_b cy) = false ->
    c_act cy = AEmitFin /\ en = TFin /\ rest' = [] \/
    c_act cy = AEmit /\ en = TToken /\ rest' = rest /\
      ((0 <? limit c) && (limit c <=? nd + 1) || chk && (0 <? wcap c) && (wcap c <=? w + size_of (group c cy))) = true ->
    turn_shape chk c w e a nd (cy :: rest)
      (ended c e (group c cy) en (w + size_of (group c cy)) (e + upload c (c_b cy)) (a + predicted c (c_b cy)) rest')
| ts_more w e a nd cy rest r : c_act cy = AEmit -> ext_refused c e (c_b cy) = false ->
    chk && (0 <? wcap c) && (wcap c <=? w + size_of (group c cy)) = false ->
    turn_shape chk c (w + size_of (group c cy)) (e + upload c (c_b cy)) (a + predicted c (c_b cy)) (nd + 1) rest r ->
    turn_shape chk c w e a nd (cy :: rest) (went_on c e (group c cy) r).

Lemma turn_shape_turn chk c : forall cs w e a nd, turn_shape chk c w e a nd cs (turn chk c w e a nd cs).
Proof.
  induction cs as [|cy rest IH]; intros w e a nd; [apply ts_nil|].
  rewrite turn_cons. cbv zeta. destruct (c_act cy) eqn:A; [| |apply ts_fin, A|apply ts_err; auto..].
  - destruct (ext_refused c e (c_b cy)) eqn:R; [apply ts_err; auto|].
    destruct ((0 <? limit c) && (limit c <=? nd + 1) || chk && (0 <? wcap c) && (wcap c <=? w + size_of (group c cy))) eqn:L;
      [apply (ts_here _ _ _ _ _ _ cy rest); auto|].
    apply orb_false_iff in L as [_ W]. apply (ts_more _ _ _ _ _ _ cy rest _ A R W), IH.
  - destruct (ext_refused c e (c_b cy)) eqn:R; [apply ts_err; auto|]. apply (ts_here _ _ _ _ _ _ cy rest); auto.
Qed.

(* soft wire cap, on lg's own state: [best] is what the last cycle flushed before this call wrote.
   What was in the buffer before the last flushed cycle stays below any bound M >= the cap that held
   at entry: when the loop goes on, the buffer was still below the cap. *)
Lemma turn_soft {c w e a nd cs r} : turn_shape true c w e a nd cs r -> 0 < wcap c ->
  forall best M, wcap c <= M -> w < M -> w - best < M -> tr_w r - lg (tr_frames r) 0 best false < M.
Proof.
  induction 1 as [| |w e a nd cy rest A|w e a nd cy rest en rest' _ K|w e a nd cy rest r A R W T IH];
    intros WC best M CM WM BM; cbn [ended went_on tr_w tr_frames]; [exact BM..| | |].
  - unfold group. rewrite A, size_logs, <- (app_nil_r (log_frames cy)). unfold log_frames. rewrite lg_logs.
    cbn [lg]. destruct (c_logs cy); [change (sumz []) with 0|]; lia.
  - rewrite <- (app_nil_r (group c cy)) at 2. rewrite lg_group by (destruct K as [(-> & _)|(-> & _)]; reflexivity).
    cbn [lg]. lia.
  - rewrite lg_group by (now rewrite A). apply IH; lia.
Qed.

Lemma turn_progress {chk c w e a nd cs r} : turn_shape chk c w e a nd cs r ->
  tr_end r = TToken -> (1 <= length (ids (tr_frames r)))%nat /\ (length (tr_rest r) < length cs)%nat.
Proof.
  induction 1 as [| | |w e a nd cy rest en rest' _ [(_ & -> & _)|(A & _ & -> & _)]|w e a nd cy rest r A _ _ _ IH];
    cbn [ended went_on tr_end tr_frames tr_rest]; try discriminate.
  - intros _. rewrite ids_group_emit by (now rewrite A). cbn [length]. lia.
  - intros T. destruct (IH T). rewrite ids_app, app_length. cbn [length]. lia.
Qed.

Lemma ext_step c e a b : wf_batch c b -> ext_refused c e b = false ->
  a <= e -> (0 < ecap c -> a <= ecap c) ->
  a + predicted c b <= e + upload c b /\ (0 < ecap c -> a + predicted c b <= ecap c).
Proof.
  intros Hb R AE AC. pose proof (predicted_bounds c b Hb). split; [lia|]. intros EC.
  destruct (predicted c b =? 0) eqn:P0; [lia|].
  assert (X : ext_on c = true).
  { unfold predicted, externalized in P0. destruct (ext_on c); [reflexivity|]. cbn in P0. lia. }
  unfold ext_refused in R. rewrite X in R. lia.
Qed.

Lemma turn_external {chk c w e a nd cs r} : turn_shape chk c w e a nd cs r -> wfc c cs ->
  a <= e -> (0 < ecap c -> a <= ecap c) ->
  tr_a r <= tr_e r /\ (0 < ecap c -> tr_a r <= ecap c).
Proof.
  induction 1 as [| | |w e a nd cy rest en rest' R _|w e a nd cy rest r A R _ _ IH];
    cbn [ended went_on tr_a tr_e]; auto; intros WF.
  - apply ext_step; [exact (Forall_inv WF) | exact R].
  - intros AE AC. destruct (ext_step c e a (c_b cy) (Forall_inv WF) R AE AC) as [S1 S2].
    exact (IH (Forall_inv_tail WF) S1 S2).
Qed.

Lemma is_prefix_app a b c' : is_prefix (a ++ b) (a ++ c') = is_prefix b c'.
Proof. induction a as [|x a IH]; [reflexivity|]. cbn [app is_prefix]. rewrite Z.eqb_refl. exact IH. Qed.
Lemma is_prefix_nil b : is_prefix [] b = true.
Proof. reflexivity. Qed.
Lemma is_prefix_refl a : is_prefix a a = true.
Proof. rewrite <- (app_nil_r a), is_prefix_app. reflexivity. Qed.

(* nothing is lost or reordered: the ids a turn wrote, against the uncut script *)
Definition stream_rel (cs : list cycle) (r : tres) : Prop :=
  match tr_end r with
  | TToken => ideal_ids cs = ids (tr_frames r) ++ ideal_ids (tr_rest r) /\ ideal_end cs = ideal_end (tr_rest r)
  | TErr EExt => is_prefix (ids (tr_frames r)) (ideal_ids cs) = true
  | en => ids (tr_frames r) = ideal_ids cs /\ en = ideal_end cs
  end.

Lemma turn_stream {chk c w e a nd cs r} : turn_shape chk c w e a nd cs r -> stream_rel cs r.
Proof.
  induction 1 as [|w e a nd cy rest k K|w e a nd cy rest A|w e a nd cy rest en rest' _ K|w e a nd cy rest r A _ _ _ IH];
    unfold stream_rel in *; cbn [ended went_on tr_end tr_frames tr_rest ideal_ids ideal_end]; [auto|..].
  - destruct K as [->|(-> & [A|A])]; rewrite ?A; auto.
  - unfold group. rewrite A, ids_logs. auto.
  - destruct K as [(A & -> & ->)|(A & -> & -> & _)]; rewrite A, ids_group_emit by (now rewrite A); auto.
  - rewrite A, ids_app, ids_group_emit by (now rewrite A). cbn [app].
    destruct (tr_end r) as [| |[]]; [destruct IH; split; congruence..|].
    cbn [is_prefix]. now rewrite Z.eqb_refl.
Qed.

Lemma turn_budget_wire {chk c w e a nd cs r} : turn_shape chk c w e a nd cs r ->
  Forall (fun b => fst b = wcap c) (tr_budgets r).
Proof. induction 1; cbn [ended went_on tr_budgets]; repeat constructor; assumption. Qed.

Lemma wfc_rest {chk c w e a nd cs r} : turn_shape chk c w e a nd cs r -> wfc c cs -> wfc c (tr_rest r).
Proof.
  induction 1 as [| | |w e a nd cy rest en rest' _ [(_ & _ & ->)|(_ & _ & -> & _)]|w e a nd cy rest r _ _ _ _ IH];
    cbn [ended went_on tr_rest]; intros WF; try constructor.
  - exact (Forall_inv_tail WF).
  - exact (IH (Forall_inv_tail WF)).
Qed.

Lemma turn_wcap_unset c cs : wcap c <= 0 -> forall w e a nd, turn true c w e a nd cs = turn false c w e a nd cs.
Proof.
  intros WC. assert (H : (0 <? wcap c) = false) by lia.
  induction cs as [|cy rest IH]; intros w e a nd; [reflexivity|].
  rewrite !turn_cons. cbv zeta. rewrite IH, H. reflexivity.
Qed.

Lemma turn_no_token {c w e a nd cs r} : turn_shape false c w e a nd cs r -> limit c <= 0 -> tr_end r <> TToken.
Proof.
  induction 1 as [| | |w e a nd cy rest en rest' _ [(_ & -> & _)|(_ & _ & _ & T)]|];
    cbn [ended went_on tr_end]; intros LM; try discriminate; [|auto].
  replace (0 <? limit c) with false in T by lia. discriminate.
Qed.

Lemma mk_turn_ok c pre cs nd r : turn_shape true c pre 0 0 nd cs r -> wfc c cs ->
  turn_ok c pre (mk_turn r) = true.
Proof.
  intros T WF. unfold turn_ok, mk_turn, ext_err. cbn [t_payload t_frames t_end t_uarrow t_hdr].
  repeat (apply andb_true_iff; split).
  - destruct (wcap c <=? 0) eqn:WC; [reflexivity|]. apply Z.ltb_lt, (turn_soft T); lia.
  - pose proof (turn_progress T) as TP. destruct (tr_end r); try reflexivity. destruct (TP eq_refl). lia.
  - destruct (turn_external T WF (Z.le_refl 0)) as [_ TE]; lia.
  - now destruct (tr_end r) as [| |[]].
Qed.

Lemma final_end_cons t ts : ts <> [] -> final_end (t :: ts) = final_end ts.
Proof. destruct ts; [congruence | reflexivity]. Qed.

Lemma chain_ok_cons t ts : ts <> [] -> chain_ok (t :: ts) = is_token t && chain_ok ts.
Proof. destruct ts; [congruence | reflexivity]. Qed.

Lemma turns_ok_same c p ts : turns_ok c p p ts = true -> forallb (turn_ok c p) ts = true.
Proof. destruct ts; [discriminate | exact (fun H => H)]. Qed.

Lemma tend_eqb_eq a b : tend_eqb a b = true <-> a = b.
Proof.
  destruct a as [| |x], b as [| |y]; cbn; split; intro H; try discriminate; try reflexivity.
  - destruct x, y; cbn in H; try discriminate; reflexivity.
  - inversion H; subst. now destruct y.
Qed.

Lemma stream_ok_last cs r : tr_end r <> TToken -> stream_rel cs r -> stream_ok cs [mk_turn r] = true.
Proof.
  unfold stream_rel, stream_ok, all_ids. cbn [final_end map concat mk_turn t_end t_frames]. rewrite app_nil_r.
  destruct (tr_end r) as [| |[]]; try congruence; intros _ H; cbn [tend_eqb errk_eqb]; try exact H;
    destruct H as [-> <-]; now rewrite (list_eqb_refl _ Z.eqb_refl).
Qed.

Lemma stream_ok_step cs t rest_ts rest_cs :
  rest_ts <> [] ->
  ideal_ids cs = ids (t_frames t) ++ ideal_ids rest_cs -> ideal_end cs = ideal_end rest_cs ->
  stream_ok rest_cs rest_ts = true -> stream_ok cs (t :: rest_ts) = true.
Proof.
  intros NE I1 I2. unfold stream_ok, all_ids. rewrite (final_end_cons t rest_ts NE).
  cbn [map concat]. fold (all_ids rest_ts). rewrite I1, I2, is_prefix_app.
  destruct (tend_eqb (final_end rest_ts) (TErr EExt)); [exact (fun H => H)|].
  intros H. apply andb_true_iff in H as [H1 H2]. rewrite H2, andb_true_r.
  apply (list_eqb_eq Z.eqb Z.eqb_eq) in H1. rewrite H1. apply (list_eqb_eq Z.eqb Z.eqb_eq). reflexivity.
Qed.

Lemma stream_ok_spec cs ts : stream_ok cs ts = true ->
  (final_end ts <> TErr EExt -> all_ids ts = ideal_ids cs /\ final_end ts = ideal_end cs) /\
  (final_end ts = TErr EExt -> is_prefix (all_ids ts) (ideal_ids cs) = true).
Proof.
  unfold stream_ok. intros C. split.
  - intros NE. destruct (tend_eqb (final_end ts) (TErr EExt)) eqn:X; [apply tend_eqb_eq in X; congruence|].
    apply andb_true_iff in C as [C1 C2]. split; [now apply (list_eqb_eq Z.eqb Z.eqb_eq) | now apply tend_eqb_eq].
  - intros EE. now rewrite EE in C.
Qed.

Lemma run_from_spec c pre1 : forall fuel pre cs, wfc c cs -> (length cs < fuel)%nat ->
  let ts := run_from fuel true c pre pre1 cs in
  turns_ok c pre pre1 ts = true /\ chain_ok ts = true /\ stream_ok cs ts = true /\ (length ts <= S (length cs))%nat.
Proof.
  induction fuel as [|f IH]; intros pre cs WF LT; [lia|]. cbv zeta. cbn [run_from].
  pose proof (turn_shape_turn true c cs pre 0 0 0) as T. set (r := turn true c pre 0 0 0 cs) in *.
  pose proof (mk_turn_ok c pre cs 0 r T WF) as TOK. pose proof (turn_stream T) as SR. pose proof (turn_progress T) as TP.
  destruct (tr_end r) as [| |k] eqn:E.
  2:{ (* continuation *)
    destruct (TP eq_refl) as [_ SH]. unfold stream_rel in SR. rewrite E in SR. destruct SR as [S1 S2].
    destruct f as [|f']; [clear - SH LT; lia|].
    destruct (IH pre1 (tr_rest r) (wfc_rest T WF)) as (I1 & I2 & I3 & I4); [clear - SH LT; lia|].
    assert (NE : run_from (S f') true c pre1 pre1 (tr_rest r) <> []) by discriminate.
    repeat split.
    + cbn [turns_ok]. rewrite TOK. apply turns_ok_same. exact I1.
    + rewrite chain_ok_cons by exact NE. unfold is_token at 1, mk_turn. cbn [t_end]. rewrite E. exact I2.
    + apply (stream_ok_step cs (mk_turn r) _ (tr_rest r) NE); [exact S1 | exact S2 | exact I3].
    + cbn [length]. clear - SH I4. lia. }
  (* the last turn *)
  all: repeat split;
    [ cbn [turns_ok forallb]; now rewrite TOK
    | cbn [chain_ok]; unfold is_token, mk_turn; cbn [t_end]; now rewrite E
    | apply stream_ok_last; [rewrite E; discriminate | exact SR]
    | cbn [length]; clear; lia ].
Qed.

Lemma run_spec c pre0 pre1 cs : wfc c cs ->
  let ts := run c pre0 pre1 cs in
  turns_ok c pre0 pre1 ts = true /\ chain_ok ts = true /\ stream_ok cs ts = true /\ (length ts <= S (length cs))%nat.
Proof. intros WF. apply run_from_spec; [exact WF | lia]. Qed.

Lemma turns_ok_forall c p0 p1 ts : turns_ok c p0 p1 ts = true ->
  forall t, In t ts -> turn_ok c p0 t = true \/ turn_ok c p1 t = true.
Proof.
  destruct ts as [|t0 rest]; [discriminate|]. cbn [turns_ok]. intros H t [<-|Hin].
  - left. now apply andb_true_iff in H as [H _].
  - right. apply andb_true_iff in H as [_ H]. rewrite forallb_forall in H. now apply H.
Qed.

Lemma turn_ok_bound c p t : turn_ok c p t = true ->
  (0 < wcap c -> t_payload t - last_group (t_frames t) < Z.max (wcap c) (p + 1)) /\
  (t_end t = TToken -> (1 <= length (ids (t_frames t)))%nat) /\
  (0 < ecap c -> t_uarrow t <= ecap c) /\
  (t_hdr t = true <-> t_end t = TErr EExt).
Proof.
  unfold turn_ok, ext_err. intros H. repeat (apply andb_true_iff in H as [H ?]).
  repeat split.
  - lia.
  - intros E. rewrite E in *. cbn [tend_eqb negb orb] in *. lia.
  - lia.
  - intros T. rewrite T in *. apply tend_eqb_eq. now destruct (tend_eqb (t_end t) (TErr EExt)).
  - intros T. rewrite T in *. cbn [tend_eqb errk_eqb] in *. now destruct (t_hdr t).
Qed.

Lemma run_from_legacy_eq c pre1 : wcap c <= 0 -> forall fuel pre cs,
  run_from fuel true c pre pre1 cs = run_from fuel false c pre pre1 cs.
Proof.
  intros WC. induction fuel as [|f IH]; intros pre cs; [reflexivity|].
  cbn [run_from]. rewrite (turn_wcap_unset c cs WC). destruct (tr_end _); try reflexivity. now rewrite IH.
Qed.

Lemma run_budgets c pre1 : forall fuel pre cs t, In t (run_from fuel true c pre pre1 cs) ->
  Forall (fun b => fst b = wcap c) (t_budgets t).
Proof.
  induction fuel as [|f IH]; intros pre cs t; [intros []|]. cbn [run_from]. intros [<-|Hin].
  - exact (turn_budget_wire (turn_shape_turn true c cs pre 0 0 0)).
  - destruct (tr_end _); try (now destruct Hin). eapply IH; exact Hin.
Qed.

Lemma in_run_bound c pre0 pre1 cs t : wfc c cs -> In t (run c pre0 pre1 cs) ->
  (0 < wcap c -> t_payload t - last_group (t_frames t) < Z.max (wcap c) (Z.max pre0 pre1 + 1)) /\
  (t_end t = TToken -> (1 <= length (ids (t_frames t)))%nat) /\
  (0 < ecap c -> t_uarrow t <= ecap c) /\
  (t_hdr t = true <-> t_end t = TErr EExt).
Proof.
  intros WF Hin. destruct (run_spec c pre0 pre1 cs WF) as (A & _).
  destruct (turns_ok_forall _ _ _ _ A t Hin) as [H|H]; apply turn_ok_bound in H as (H1 & H2 & H3 & H4);
    (split; [intros WC; specialize (H1 WC); lia|auto]).
Qed.

(* twenty 4240-byte batches under a 10 000-byte wire cap *)
Definition w_cycles : list cycle :=
  map (fun i => {| c_logs := []; c_act := AEmit;
                   c_b := {| b_id := Z.of_nat i; b_rows := 512; b_wire := 4240; b_arrow := 4224; b_raw := 0 |} |})
      (seq 1 20).
Definition w_caps : caps := {| wcap := 10000; ecap := 0; limit := 0; ext_on := false; thr := 0 |}.
