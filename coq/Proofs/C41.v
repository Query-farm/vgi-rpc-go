(* Lemmas for C41 (Arrow buffers released on every exit). The 675 path classes are swept once, by
   evaluation, on the call with one stream turn ([classes_ok]); [segments_one] lifts a class to any
   number of turns, the further segments being repeats; [leaks] says where a variant may leave
   something behind. *)
From VR Require Import Model.C41 Lib.Lists.
Open Scope N_scope.

(* [valid_exit] and [valid_feature] accept a code only on a branch that has
   compared it with a constant of the enumeration: try the constants in turn *)
Lemma valid_exit_mem t k e f : valid_exit t k e f = true -> mem e exits = true.
Proof.
  unfold valid_exit, exits, mem. cbn [existsb].
  repeat match goal with |- context [e =? ?c] => destruct (e =? c); [intros _; reflexivity|] end.
  cbn. discriminate.
Qed.

Lemma valid_feature_mem t k f : valid_feature t k f = true -> mem f features = true.
Proof.
  unfold valid_feature, features, mem. cbn [existsb].
  repeat match goal with |- context [f =? ?c] => destruct (f =? c); [intros _; reflexivity|] end.
  cbn. discriminate.
Qed.

Lemma valid_dims : forall t k e f, valid t k e f = true ->
  In t transports /\ In k kinds /\ In e exits /\ In f features.
Proof.
  intros t k e f H. unfold valid in H.
  apply andb_true_iff in H as [H _]. apply andb_true_iff in H as [H He].
  apply andb_true_iff in H as [H Hf]. apply andb_true_iff in H as [Ht Hk].
  repeat split; apply (existsb_eqb_In N.eqb N.eqb_eq); eauto using valid_exit_mem, valid_feature_mem.
Qed.

Lemma valid_in_all_classes : forall t k e f, valid t k e f = true -> In (t, k, e, f) all_classes.
Proof.
  intros t k e f H. destruct (valid_dims _ _ _ _ H) as [Ht [Hk [He Hf]]]. unfold all_classes.
  repeat (apply in_flat_map; eexists; split; [eassumption|]). rewrite H. now left.
Qed.

Lemma all_classes_valid : forall t k e f, In (t, k, e, f) all_classes -> valid t k e f = true.
Proof.
  intros t k e f H. unfold all_classes in H. repeat (apply in_flat_map in H as [? [_ H]]).
  destruct (valid _ _ _ _) eqn:V; [|destruct H]. destruct H as [[= <- <- <- <-]|[]]. exact V.
Qed.

Lemma classes_tie : flat_map class_code all_classes = c41_path_classes.
Proof. vm_compute. reflexivity. Qed.

(* as many classes as the compiled list has four-byte codes *)
Lemma classes_count : length all_classes = 675%nat.
Proof.
  apply (Nat.mul_cancel_r _ _ 4); [discriminate|].
  rewrite <- (length_flat_map_const class_code 4 all_classes), classes_tie; [reflexivity|].
  now intros [[[t k] e] f].
Qed.

(* a segment runs without a fault, and to the empty heap unless leaking is allowed *)
Definition seg_ok (leak : bool) (s : list event) : bool :=
  match run s [] with Some [] => true | Some _ => leak | None => false end.

Lemma collect_nil l : forallb (seg_ok false) l = true -> collect (map (fun s => run s []) l) = Some [].
Proof.
  induction l as [|s l IH]; [reflexivity|]. unfold seg_ok at 1. cbn [forallb map collect]. intro H.
  apply andb_true_iff in H as [H1 H2]. destruct (run s []) as [[|]|]; try discriminate. now rewrite IH.
Qed.

Lemma collect_some leak l : forallb (seg_ok leak) l = true -> collect (map (fun s => run s []) l) <> None.
Proof.
  induction l as [|s l IH]; [discriminate|]. unfold seg_ok at 1. cbn [forallb map collect]. intro H.
  apply andb_true_iff in H as [H1 H2]. destruct (run s []); [|discriminate].
  destruct (collect _); [discriminate | now apply IH].
Qed.

Lemma segments_one (P : list event -> bool) v t k e f pre :
  forallb P (segments v t k e f 1) = true -> forallb P (segments v t k e f pre) = true.
Proof.
  unfold segments. cbn [forallb]. destruct (P (outer v t k e f)); [cbn [andb] | discriminate].
  destruct (is_stream k && init_ok t k e f); [|reflexivity].
  rewrite !forallb_app. intro H. apply andb_true_iff in H as [H1 H2]. rewrite H2, andb_true_r.
  unfold npre in *. destruct ((e =? eCastFail) && (t =? tP)); [reflexivity|].
  destruct ((e =? eCap) && ((k =? kX) || (f =? fExtOut))); [reflexivity|].
  cbn in H1. rewrite andb_true_r in H1.
  apply forallb_forall. intros s Hs. apply repeat_spec in Hs. now subst s.
Qed.

(* where a variant is known to leave something behind: the recorded finding,
   and for the legacy code also the two repaired families *)
Definition leaks (v : variant) (t k e f : N) : bool :=
  match v with
  | Repaired => false
  | Current => in_finding t k e f
  | Legacy => in_finding t k e f || in_legacy_finding t k e f
  end.

(* The variants differ only in the three repairs, and a trace consults a repair
   only on the paths it concerns: the refused second emit, the cast, the HTTP
   write error. *)
Lemma dispatch_repaired t k ex f :
  (ex =? eWrite) && negb (t =? tP) = false -> dispatch Current t k ex f = dispatch Repaired t k ex f.
Proof.
  intro H. unfold dispatch. cbv zeta.
  destruct (ex =? eOk); [reflexivity|]. destruct ((ex =? eTErr) || (ex =? eTPanic)); [reflexivity|].
  destruct (ex =? eNoEmit); [reflexivity|]. destruct (ex =? eDouble); [reflexivity|].
  destruct (ex =? eWrite); [|reflexivity]. destruct (t =? tP); [reflexivity | discriminate H].
Qed.

Lemma dispatch_legacy t k ex f :
  (ex =? eDouble) = false -> dispatch Legacy t k ex f = dispatch Current t k ex f.
Proof.
  intro H. unfold dispatch. cbv zeta.
  destruct (ex =? eOk); [reflexivity|]. destruct ((ex =? eTErr) || (ex =? eTPanic)); [reflexivity|].
  destruct (ex =? eNoEmit); [reflexivity|]. rewrite H. reflexivity.
Qed.

Lemma segments_repaired t k e f pre :
  mem t transports = true -> in_finding t k e f = false ->
  segments Current t k e f pre = segments Repaired t k e f pre.
Proof.
  intros Ht NF. unfold segments.
  assert (D : forall last, turn Current t k e f last = turn Repaired t k e f last).
  { intro last. unfold turn. cbv zeta. rewrite !(dispatch_repaired t k (if last then e else eOk) f); [reflexivity|].
    unfold in_finding in NF. unfold transports, mem in Ht. cbn [existsb] in Ht.
    destruct last; [|reflexivity]. destruct (e =? eWrite); [|reflexivity]. destruct (t =? tP); [reflexivity|].
    cbn [orb] in Ht. rewrite orb_false_r in Ht. rewrite Ht in NF. discriminate NF. }
  now rewrite !D.
Qed.

Lemma segments_legacy t k e f pre :
  in_legacy_finding t k e f = false -> segments Legacy t k e f pre = segments Current t k e f pre.
Proof.
  unfold in_legacy_finding. intro NL. apply orb_false_iff in NL as [NL Ecf].
  apply orb_false_iff in NL as [NL Fec]. apply orb_false_iff in NL as [Ed Fc].
  unfold segments.
  assert (D : forall last, turn Legacy t k e f last = turn Current t k e f last).
  { intro last. unfold turn. cbv zeta.
    assert (X : ((if last then e else eOk) =? eDouble) = false) by (destruct last; [exact Ed | reflexivity]).
    assert (Y : ((if last then e else eOk) =? eCastFail) = false) by (destruct last; [exact Ecf | reflexivity]).
    rewrite !(dispatch_legacy t k _ f X), Y, Fc, Fec. reflexivity. }
  now rewrite !D.
Qed.

Definition class_ok (c : class) (v : variant) : bool :=
  let '(t, k, e, f) := c in forallb (seg_ok (leaks v t k e f)) (segments v t k e f 1).

(* a class is run on the repaired traces, and on another variant's only where that variant differs *)
Definition class_sweep (c : class) : bool :=
  let '(t, k, e, f) := c in
  class_ok c Repaired
  && (negb (in_finding t k e f) || class_ok c Current)
  && (negb (in_legacy_finding t k e f) || class_ok c Legacy).

(* [forallb] over classes, reading them off their four-byte codes *)
Fixpoint forall_codes (P : class -> bool) (s : bytes) : bool :=
  match s with t :: k :: e :: f :: r => P (t, k, e, f) && forall_codes P r | _ => true end.

Lemma forall_codes_classes P l : forall_codes P (flat_map class_code l) = forallb P l.
Proof. induction l as [|[[[t k] e] f] l IH]; [reflexivity|]. cbn [flat_map class_code app forall_codes forallb]. now rewrite IH. Qed.

(* the finite sweep over the 675 classes; run over the compiled list of codes,
   so that [valid] is not evaluated on the whole product a second time *)
Lemma classes_ok : forallb class_sweep all_classes = true.
Proof. rewrite <- forall_codes_classes, classes_tie. vm_compute. reflexivity. Qed.

Lemma segments_ok v t k e f pre :
  valid t k e f = true -> forallb (seg_ok (leaks v t k e f)) (segments v t k e f pre) = true.
Proof.
  intro V. apply segments_one. pose proof classes_ok as A. rewrite forallb_forall in A.
  specialize (A _ (valid_in_all_classes _ _ _ _ V)). unfold class_sweep, class_ok in A. cbn [leaks] in A.
  apply andb_true_iff in A as [A L]. apply andb_true_iff in A as [R C].
  assert (Ht : mem t transports = true) by (unfold valid in V; do 4 (apply andb_true_iff in V as [V _]); exact V).
  assert (HC : forallb (seg_ok (in_finding t k e f)) (segments Current t k e f 1) = true).
  { destruct (in_finding t k e f) eqn:NF; [exact C|]. now rewrite (segments_repaired t k e f 1 Ht NF). }
  destruct v; cbn [leaks]; [|exact HC|exact R].
  destruct (in_legacy_finding t k e f) eqn:NL; [exact L|].
  now rewrite orb_false_r, (segments_legacy t k e f 1 NL).
Qed.

Lemma outstanding_zero v t k e f pre :
  valid t k e f = true -> leaks v t k e f = false -> outstanding v t k e f pre = Some [].
Proof. intros V L. apply collect_nil. rewrite <- L. now apply segments_ok. Qed.

Lemma spec_ok_map (g : call -> callobs) i :
  (forall c, In c i -> call_clean (g c) = true) -> spec_ok i (map g i) = true.
Proof.
  intro H. unfold spec_ok. rewrite map_length, Nat.eqb_refl. apply forallb_forall.
  intros o Ho. apply in_map_iff in Ho as [c [<- Hc]]. now apply H.
Qed.

(* [model_call] on the repaired traces *)
Definition model_call_repaired (c : call) : callobs :=
  let '(Call t k e f pre) := c in
  match outstanding Repaired t k e f pre with
  | Some h => let n := Z.of_nat (n_tracked h) in CallObs n n (exc_of t k e f)
  | None => CallObs (-1)%Z (-1)%Z (exc_of t k e f)
  end.

Definition leaked (v : variant) (t k e f : N) (pre : nat) : nat :=
  match outstanding v t k e f pre with Some h => n_tracked h | None => O end.

Lemma n_tracked_app a b : n_tracked (a ++ b) = (n_tracked a + n_tracked b)%nat.
Proof. unfold n_tracked. now rewrite filter_app, app_length. Qed.

(* a stream call that ends without an exit turn leaves behind what its outer segment leaves
   and, for every turn, what one turn leaves *)
Lemma leaked_turns v t k e f pre ho hf :
  is_stream k && init_ok t k e f = true -> has_exit_turn t k e f = false ->
  run (outer v t k e f) [] = Some ho -> run (turn v t k e f false) [] = Some hf ->
  leaked v t k e f pre = (n_tracked ho + npre t k e f pre * n_tracked hf)%nat.
Proof.
  intros Hs Hx Ho Hf. unfold leaked, outstanding, segments. rewrite Hs, Hx, app_nil_r. cbn [map collect]. rewrite Ho.
  assert (G : forall n, exists h, collect (map (fun s => run s []) (repeat (turn v t k e f false) n)) = Some h
                                  /\ n_tracked h = (n * n_tracked hf)%nat).
  { induction n as [|n [h [C L]]]; [now exists []|]. exists (hf ++ h). cbn [repeat map collect].
    rewrite Hf, C, n_tracked_app, L. now split. }
  destruct (G (npre t k e f pre)) as [h [-> L]]. now rewrite n_tracked_app, L.
Qed.
