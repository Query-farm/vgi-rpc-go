(* Proofs/C20.v — trimming as a decomposition into white-space tokens ([made_of]);
   the header lattice, where each piece of [emittable] is found in the expose list, and a
   tabulated row that agrees with the model is covered for that reason ([row_ok_covered]);
   the exits of ServeHTTP as one equation ([serve_one_shape]) over what [route] may hand
   over ([out_ok]), none of which leaves [emittable]. *)
From VR Require Import Model.C20 Lib.Lists.
Open Scope N_scope.

Lemma bsubset_incl a b : bsubset a b = true <-> incl a b.
Proof.
  unfold bsubset, incl. rewrite forallb_forall. split; intros H x Hx; now apply existsb_beqb_In, H.
Qed.

Lemma hdr_beq_eq x y : hdr_beq x y = true <-> x = y.
Proof. split; [apply internal_hdr_dec_bl | apply internal_hdr_dec_lb]. Qed.

Lemma hmem_in h l : hmem h l = true <-> In h l.
Proof. exact (existsb_eqb_In hdr_beq hdr_beq_eq h l). Qed.

Lemma hsubset_incl a b : hsubset a b = true <-> incl a b.
Proof.
  unfold hsubset, incl. rewrite forallb_forall. split; intros H x Hx; now apply hmem_in, H.
Qed.

Lemma has_prefix_app_l t m r : has_prefix t m = true -> has_prefix t (m ++ r) = true.
Proof.
  intro H. apply has_prefix_spec in H as [x ->]. rewrite <- app_assoc. apply has_prefix_app.
Qed.

Inductive made_of (toks : list bytes) : bytes -> Prop :=
  | mo_nil : made_of toks []
  | mo_app t l : In t toks -> made_of toks l -> made_of toks (t ++ l).

Lemma made_of_app toks a b : made_of toks a -> made_of toks b -> made_of toks (a ++ b).
Proof.
  induction 1 as [|t l Ht Hl IH]; intro Hb; [assumption|].
  rewrite <- app_assoc. constructor; auto.
Qed.

Lemma made_of_rev toks l : made_of (map (@rev N) toks) l -> made_of toks (rev l).
Proof.
  induction 1 as [|t l Ht Hl IH]; [constructor|].
  rewrite rev_app_distr. apply made_of_app; [assumption|].
  apply in_map_iff in Ht as [t0 [<- Ht0]]. rewrite rev_involutive.
  rewrite <- (app_nil_r t0). constructor; [assumption | constructor].
Qed.

Lemma strip_tok_some toks s s' :
  strip_tok toks s = Some s' -> exists t, In t toks /\ s = t ++ s'.
Proof.
  induction toks as [|t r IH]; cbn [strip_tok]; [discriminate|].
  destruct (has_prefix t s) eqn:E.
  - intro H. inversion H; subst. apply has_prefix_spec in E as [x ->].
    exists t. split; [now left|]. now rewrite drop_app_len.
  - intro H. destruct (IH H) as [t0 [H1 H2]]. exists t0. split; [now right | assumption].
Qed.

Lemma strip_tok_none toks s :
  strip_tok toks s = None -> forall t, In t toks -> has_prefix t s = false.
Proof.
  induction toks as [|t r IH]; cbn [strip_tok]; [intros _ t []|].
  destruct (has_prefix t s) eqn:E; [discriminate|].
  intros H t0 [<- | Hin]; [assumption | now apply IH].
Qed.

Lemma utrim_left_decomp toks fuel : forall s,
  exists l, made_of toks l /\ s = l ++ utrim_left toks fuel s.
Proof.
  induction fuel as [|f IH]; intro s; cbn [utrim_left].
  - exists []. split; [constructor | reflexivity].
  - destruct (strip_tok toks s) as [s'|] eqn:E.
    + apply strip_tok_some in E as [t [Ht ->]]. destruct (IH s') as [l [Hl Hs]].
      exists (t ++ l). split; [now constructor|]. rewrite <- app_assoc. now rewrite <- Hs.
    + exists []. split; [constructor | reflexivity].
Qed.

Definition nonempty_toks (toks : list bytes) : Prop := forall t, In t toks -> t <> [].

Lemma utrim_left_fix toks : nonempty_toks toks -> forall fuel s,
  (length s <= fuel)%nat -> strip_tok toks (utrim_left toks fuel s) = None.
Proof.
  intros Hne fuel. induction fuel as [|f IH]; intros s Hlen; cbn [utrim_left].
  - destruct s; [|cbn in Hlen; lia].
    destruct (strip_tok toks []) as [s'|] eqn:E; [|reflexivity].
    apply strip_tok_some in E as [t [Ht E]]. destruct t; [now apply Hne in Ht | discriminate].
  - destruct (strip_tok toks s) as [s'|] eqn:E; [|assumption].
    apply IH. apply strip_tok_some in E as [t [Ht ->]].
    rewrite app_length in Hlen. destruct t; [now apply Hne in Ht | cbn in Hlen; lia].
Qed.

Lemma space_tokens_nonempty : nonempty_toks space_tokens.
Proof.
  assert (H : forallb (fun t => match t with [] => false | _ => true end) space_tokens = true)
    by (vm_compute; reflexivity).
  intros t Ht. rewrite forallb_forall in H. specialize (H t Ht). now destruct t.
Qed.

Lemma rev_tokens_nonempty : nonempty_toks (map (@rev N) space_tokens).
Proof.
  intros t Ht. apply in_map_iff in Ht as [t0 [<- Ht0]]. apply space_tokens_nonempty in Ht0.
  intro E. apply Ht0. apply (f_equal (@rev N)) in E. now rewrite rev_involutive in E.
Qed.

Lemma trim_left_spec s : exists l,
  made_of space_tokens l /\ s = l ++ go_trim_left s
  /\ forall t, In t space_tokens -> has_prefix t (go_trim_left s) = false.
Proof.
  unfold go_trim_left. destruct (utrim_left_decomp space_tokens (length s) s) as [l [Hl Hs]].
  exists l. split; [assumption|]. split; [assumption|].
  apply strip_tok_none. apply utrim_left_fix; [apply space_tokens_nonempty | lia].
Qed.

Lemma trim_right_spec s : exists r,
  made_of space_tokens r /\ s = go_trim_right s ++ r
  /\ forall t, In t space_tokens -> has_suffix t (go_trim_right s) = false.
Proof.
  unfold go_trim_right.
  destruct (utrim_left_decomp (map (@rev N) space_tokens) (length s) (rev s)) as [l [Hl Hs]].
  exists (rev l). split; [now apply made_of_rev|]. split.
  - rewrite <- rev_app_distr, <- Hs. now rewrite rev_involutive.
  - intros t Ht. unfold has_suffix. rewrite rev_involutive.
    apply (strip_tok_none (map (@rev N) space_tokens)).
    + apply utrim_left_fix; [apply rev_tokens_nonempty | rewrite rev_length; lia].
    + now apply in_map.
Qed.

Lemma trim_space_id s :
  strip_tok space_tokens s = None -> strip_tok (map (@rev N) space_tokens) (rev s) = None ->
  go_trim_space s = s.
Proof.
  intros H1 H2. unfold go_trim_space, go_trim_left, go_trim_right.
  assert (E1 : forall f, utrim_left space_tokens f s = s) by (intros [|f]; cbn [utrim_left]; [|rewrite H1]; reflexivity).
  rewrite E1.
  assert (E2 : forall f, utrim_left (map (@rev N) space_tokens) f (rev s) = rev s)
    by (intros [|f]; cbn [utrim_left]; [|rewrite H2]; reflexivity).
  rewrite E2. apply rev_involutive.
Qed.

Lemma max_rid_val : max_rid = 128%nat. Proof. vm_compute. reflexivity. Qed.
Lemma mint_len_val : mint_len = 16%nat. Proof. vm_compute. reflexivity. Qed.

Lemma resolve_spec vs mint :
  resolve_request_id vs mint =
  if usable (go_trim_space (hdr_get vs)) then go_trim_space (hdr_get vs) else mint.
Proof.
  unfold resolve_request_id, usable. destruct (go_trim_space (hdr_get vs)) as [|b id]; [reflexivity|].
  now destruct (Nat.ltb max_rid (length (b :: id))).
Qed.

Lemma usable_iff id : usable id = true <-> (1 <= length id <= 128)%nat.
Proof.
  unfold usable. rewrite max_rid_val. destruct id as [|b id]; cbn [length].
  - split; [discriminate | lia].
  - rewrite negb_true_iff, Nat.ltb_ge. lia.
Qed.

Lemma mint_shape_iff m :
  mint_shape m = true <-> length m = 16%nat /\ Forall (fun c => is_lhex c = true) m.
Proof.
  unfold mint_shape. rewrite mint_len_val, andb_true_iff, Nat.eqb_eq, forallb_forall, Forall_forall.
  tauto.
Qed.

Lemma rid_ok_resolve vs mint : mint_shape mint = true -> rid_ok vs (resolve_request_id vs mint) = true.
Proof.
  intro Hm. unfold rid_ok. rewrite resolve_spec.
  destruct (usable (go_trim_space (hdr_get vs))); [apply beqb_refl | assumption].
Qed.

Lemma all_toggles_complete t : In t all_toggles.
Proof.
  destruct t as [a b c d e f g h i j k l m n]. unfold all_toggles.
  assert (Hb : forall x : bool, In x bools) by (intros []; cbn; auto).
  repeat (apply in_flat_map; eexists; split; [apply Hb|]).
  apply in_map_iff. eexists; split; [reflexivity | apply Hb].
Qed.

Lemma lattice_size : N.of_nat (length all_toggles) = 16384.
Proof.
  eassert (H : N.of_nat (length all_toggles) = _).
  { unfold all_toggles. repeat (apply nlen_flat_map_const; intro). now rewrite map_length. }
  rewrite H. reflexivity.
Qed.

Lemma in_if (b : bool) (l : list hdr) h : In h (if b then l else []) -> In h l.
Proof. destruct b; [auto | intros []]. Qed.

(* Piece by piece ([opt b k] is [if b then [k] else []]): every piece of
   [emittable] either stands as it is in the expose list (same toggle, same
   header), or holds only names from the unconditional part of that list. *)
Lemma expose_covers t h : In h (emittable t) -> In h (expose_std t).
Proof.
  unfold emittable, caps, unauth_hdrs, expose_std, expose_gen. intro H. rewrite !in_app_iff.
  (* [H] is split into the pieces.  One that stands as it is among the disjuncts of the goal
     is found there by [auto]; any other loses its guard, and is split again if it is a list
     of pieces itself (the ones under [t_auth] and [t_sticky]). *)
  repeat (apply in_app_or in H as [H | H]); try solve [auto 10]; try apply in_if in H.
  all: repeat (apply in_app_or in H as [H | H]); try solve [auto 10]; try apply in_if in H.
  (* what is left are closed lists of names, all in the head of the expose list *)
  all: left; revert h H; apply hsubset_incl; reflexivity.
Qed.

Lemma Forall_if {A} (P : A -> Prop) (b : bool) l : Forall P l -> Forall P (if b then l else []).
Proof. destruct b; [auto | constructor]. Qed.

Lemma caps_no_probe t : Forall (fun h => h <> H_echo_probe) (caps t).
Proof.
  unfold caps, opt.
  repeat first [apply Forall_app; split | apply Forall_if | apply Forall_nil | apply Forall_cons; [discriminate|]].
Qed.

Lemma caps_always t : In H_supenc (caps t) /\ In H_ext_enabled (caps t).
Proof.
  split; unfold caps.
  - cbn. now left.
  - do 4 (apply in_or_app; right). cbn. now left.
Qed.

Lemma echo_exposed std echo n : In n echo -> In (echo_name n) (names std echo).
Proof. intro H. unfold names. apply in_or_app. right. now apply in_map. Qed.

Lemma names_std std echo h :
  In h std -> h <> H_echo_probe -> In (hdr_name h) (names std echo).
Proof.
  intros Hin Hne. unfold names. apply in_or_app. left. apply in_map. apply filter_In.
  split; [assumption|]. apply negb_true_iff. destruct (hdr_beq h H_echo_probe) eqn:E; [|reflexivity].
  apply hdr_beq_eq in E. contradiction.
Qed.

Lemma names_inv std echo x :
  In x (names std echo) ->
  (exists h, In h std /\ h <> H_echo_probe /\ x = hdr_name h) \/ (exists n, In n echo /\ x = echo_name n).
Proof.
  unfold names. intro H. apply in_app_or in H as [H | H].
  - left. apply in_map_iff in H as [h [<- Hh]]. apply filter_In in Hh as [Hh Hb].
    exists h. repeat split; [assumption|]. intro E. subst. cbn in Hb. discriminate.
  - right. apply in_map_iff in H as [n [<- Hn]]. now exists n.
Qed.

(* The tabulated lattice points come from the real functions, called by
   vgirpc/verif_c20.go.  [hbit] finds a header's bit by comparing its name with the universe, string
   by string. The rows only ever ask for the tracked headers, so their bits are
   computed once, in the order of [all_hdrs], and every row reads them by
   position. *)
Definition mask_with (bit : hdr -> N) (l : list hdr) : N := fold_right (fun h a => N.lor (bit h) a) 0 l.
Definition hdr_pos (h : hdr) : nat :=
  match h with
  | H_rid => 0 | H_supenc => 1 | H_ext_enabled => 2 | H_maxreq => 3 | H_maxresp => 4 | H_maxext => 5
  | H_upload => 6 | H_maxupload => 7 | H_proof_required => 8 | H_introspect => 9 | H_sticky_enabled => 10
  | H_sticky_ttl => 11 | H_sticky_echo_headers => 12 | H_session => 13 | H_session_close => 14
  | H_echo_probe => 15 | H_www_auth => 16 | H_auth_reason => 17 | H_auth_proxy => 18 | H_rpc_error => 19
  | H_content_encoding => 20 | H_retry_after => 21
  end%nat.
Definition lookup (tab : list N) (h : hdr) : N := nth (hdr_pos h) tab 0.
Definition row_ok_tab (tab : list N) (r : bytes) : bool :=
  let t := toggles_of_mask (row_cfg r) in
  (mask_with (lookup tab) (emittable t) =? row_emit r)
  && (mask_with (lookup tab) (expose_std t) =? row_expose r).

Lemma lookup_tabulated (f : hdr -> N) h : lookup (map f all_hdrs) h = f h.
Proof. destruct h; reflexivity. Qed.

Lemma mask_with_ext f g l : (forall h, f h = g h) -> mask_with f l = mask_with g l.
Proof. intro E. unfold mask_with. induction l as [|h l IH]; cbn [fold_right]; [reflexivity | now rewrite E, IH]. Qed.

Lemma row_ok_tab_sound l :
  forallb (row_ok_tab (map hbit all_hdrs)) l = true -> forallb row_ok l = true.
Proof.
  apply forallb_imp. intro r. unfold row_ok_tab, row_ok, mask_of. cbv zeta.
  now rewrite 2 (mask_with_ext _ _ _ (lookup_tabulated hbit)).
Qed.

Lemma table_rows_are_model : forallb row_ok c20_table = true.
Proof. apply row_ok_tab_sound. vm_compute. reflexivity. Qed.

(* A row that agrees with the model is covered because the model is: the masks are
   those of [emittable] and [expose_std], and [mask_of] turns inclusion of lists into
   inclusion of bits.  Bit 32 and above are out of reach of [N.lnot _ 32], hence the bound. *)
Lemma mask_of_bit l n : N.testbit (mask_of l) n = existsb (fun h => N.testbit (hbit h) n) l.
Proof.
  induction l as [|h l IH]; cbn [mask_of fold_right existsb]; [apply N.bits_0|].
  rewrite N.lor_spec. now f_equal.
Qed.

Lemma mask_of_incl a b : incl a b -> N.ldiff (mask_of a) (mask_of b) = 0.
Proof.
  intro H. apply N.bits_inj. intro n. rewrite N.ldiff_spec, N.bits_0, !mask_of_bit.
  destruct (existsb _ a) eqn:E; [|reflexivity]. apply existsb_exists in E as [h [Hh Hb]].
  replace (existsb _ b) with true; [reflexivity|].
  symmetry. apply existsb_exists. exists h. split; [apply H, Hh | exact Hb].
Qed.

Lemma mask_of_low l : N.log2 (mask_of l) < 32.
Proof.
  induction l as [|h l IH]; cbn [mask_of fold_right]; [reflexivity|].
  rewrite N.log2_lor. apply N.max_lub_lt; [destruct h; reflexivity | exact IH].
Qed.

Lemma row_ok_covered r : row_ok r = true -> row_covered r = true.
Proof.
  unfold row_ok, row_covered. cbv zeta. intro H. apply andb_true_iff in H as [He Hx].
  apply N.eqb_eq in He, Hx. rewrite <- He, <- Hx, <- N.ldiff_land_low by apply mask_of_low.
  apply N.eqb_eq, mask_of_incl. intro h. apply expose_covers.
Qed.

Lemma table_rows_covered : forallb row_covered c20_table = true.
Proof. exact (forallb_imp _ _ _ row_ok_covered table_rows_are_model). Qed.

(* [t_ext] occurs in neither [emittable] nor [expose_std], so the model predicts the same
   masks at the same lattice point whatever the external-location configuration: tabulated
   again under a resolve-only configuration, the compiled code yields the same rows.  Should
   the two tables ever differ for a good reason (a header that depends on the Storage
   backend), the model gains that dependence and this lemma gives way to a second
   [apply row_ok_tab_sound; vm_compute] over [c20_table_resolve]. *)
Lemma table_resolve_same : c20_table_resolve = c20_table.
Proof. reflexivity. Qed.

(* what a response may carry beyond the id and the capabilities: the rest of [emittable] *)
Definition beyond (t : toggles) : list hdr :=
  [H_rpc_error] ++ opt (t_compress t) H_content_encoding
  ++ (if t_auth t then unauth_hdrs t ++ [H_retry_after] else [])
  ++ (if t_sticky t then [H_session; H_session_close] ++ opt (t_echo t) H_echo_probe else []).

Lemma emittable_split t : emittable t = H_rid :: caps t ++ beyond t.
Proof. reflexivity. Qed.

Definition out_extra (o : outcome) : list hdr := snd (fst o).
Definition out_echo (o : outcome) : bool := snd o.

(* what [route] may hand over: tracked headers within [beyond], echo headers only
   with sticky sessions on *)
Definition out_ok (c : config) (o : outcome) : Prop :=
  incl (out_extra o) (beyond (tg c)) /\ (out_echo o = true -> c_sticky c = true).

Lemma out_ok_bare c st b : out_ok c (st, b, [], false).
Proof. split; [apply incl_nil_l | discriminate]. Qed.
Lemma out_ok_rpc c st b : out_ok c (st, b, [H_rpc_error], false).
Proof. split; [intros h [<- | []]; now left | discriminate]. Qed.
Lemma out_ok_if c (x : bool) a b : (x = true -> out_ok c a) -> out_ok c b -> out_ok c (if x then a else b).
Proof. destruct x; auto. Qed.
Lemma out_ok_auth c st l :
  has_auth (c_auth c) = true -> incl l (unauth_hdrs (tg c) ++ [H_retry_after]) -> out_ok c (st, false, l, false).
Proof.
  intros Ha Hl. split; [|discriminate]. intros h H. unfold beyond. change (t_auth (tg c)) with (has_auth (c_auth c)).
  rewrite Ha. cbn [app]. right. apply in_or_app. right. apply in_or_app. left. apply Hl, H.
Qed.
Lemma out_ok_session c st l e :
  c_sticky c = true -> incl l [H_session; H_session_close] -> out_ok c (st, true, l, e).
Proof.
  intros Hs Hl. split; [|intros _; exact Hs]. intros h H. unfold beyond. change (t_sticky (tg c)) with (c_sticky c).
  rewrite Hs. cbn [app]. right. do 2 (apply in_or_app; right). apply Hl in H. destruct H as [<- | [<- | []]]; cbn; auto.
Qed.
(* authenticate either lets the handler's outcome through or answers itself: 401 with
   writeUnauthorized's headers, 503 with Retry-After, or a bare 500 *)
Lemma out_ok_authd c k : out_ok c k -> out_ok c (authd c k).
Proof.
  intro Hk. unfold authd. destruct (c_auth c) eqn:Ea; try exact Hk; try apply out_ok_bare.
  1, 2: apply out_ok_auth; [now rewrite Ea | apply incl_appl, incl_refl].
  apply out_ok_auth; [now rewrite Ea | apply incl_appr, incl_refl].
Qed.

Lemma route_ok c q : out_ok c (route c q).
Proof.
  unfold route, wrong_method, plain, arrow.
  destruct (q_kind q);
    repeat first [ apply out_ok_bare | apply out_ok_rpc | apply out_ok_authd | apply out_ok_if; [intro Es|] ].
  (* three kinds are left *)
  - (* Q_unary_open: a session opens *)
    apply andb_prop in Es as [Es _]. apply out_ok_session; [exact Es | intros x Hx; cbn in Hx |- *; tauto].
  - (* Q_unary_open_close *)
    apply andb_prop in Es as [Es _]. apply out_ok_session; [exact Es | intros x Hx; cbn in Hx |- *; tauto].
  - (* Q_introspect: its own 503 needs an authenticated principal *)
    destruct (c_auth c) eqn:Ea; try apply out_ok_bare.
    apply out_ok_auth; [now rewrite Ea | apply incl_appr, incl_refl].
Qed.

(* Every exit of ServeHTTP at once.  The hook-failure 500 carries the id alone; the
   preflight and the 413 add the capabilities and the expose list; a routed request adds
   on top what [route] hands over and, for an Arrow body, the encoding. *)
Lemma serve_one_shape c hook_ok q : exists st extra (echo : bool),
  serve_one c hook_ok q =
    {| r_status := st; r_rid := resolve_request_id (q_rid q) (q_mint q);
       r_std := H_rid :: (if hook_ok then caps (tg c) ++ extra else []);
       r_echo := if echo then c_echo c else [];
       r_expose := if hook_ok && c_cors c then Some (expose_std (tg c), c_echo c) else None;
       r_ext := if hook_ok then ext_code c else 0 |}
  /\ incl extra (beyond (tg c))
  /\ (echo = true -> c_sticky c = true).
Proof.
  unfold serve_one, serve_one_gen. destruct hook_ok; cbn [negb andb].
  2: now exists 500, [], false.
  destruct (is_options (q_kind q)); [|destruct (is_big (q_kind q) && c_maxreq c)].
  1, 2: eexists _, [], false; rewrite app_nil_r; destruct (c_cors c); now repeat split.
  destruct (route_ok c q) as [Hex Hec]. destruct (route c q) as [[[st arr] extra] echo].
  eexists st, _, echo. split; [destruct (c_cors c); reflexivity|]. split; [|exact Hec].
  apply incl_app; [exact Hex|]. intros h H. unfold beyond. cbn [app]. right. apply in_or_app. left.
  change (In h (opt (c_compress c) H_content_encoding)).
  destruct arr, (c_compress c), (q_accept_zstd q); first [exact H | destruct H].
Qed.

Lemma serve_one_within c hook_ok q : incl (r_std (serve_one c hook_ok q)) (emittable (tg c)).
Proof.
  destruct (serve_one_shape c hook_ok q) as (st & extra & echo & -> & Hex & _). cbn [r_std].
  rewrite emittable_split. apply incl_cons; [now left|]. apply incl_tl. destruct hook_ok; [|apply incl_nil_l].
  apply incl_app_app; [apply incl_refl | exact Hex].
Qed.

Lemma serve_one_exposed c hook_ok q : incl (r_std (serve_one c hook_ok q)) (expose_std (tg c)).
Proof. intros h H. apply expose_covers, (serve_one_within c hook_ok q), H. Qed.

Lemma serve_one_echo c hook_ok q :
  incl (r_echo (serve_one c hook_ok q)) (c_echo c)
  /\ (r_echo (serve_one c hook_ok q) <> [] -> c_sticky c = true).
Proof.
  destruct (serve_one_shape c hook_ok q) as (st & extra & echo & -> & _ & Hec). cbn [r_echo].
  destruct echo; [split; [apply incl_refl | auto] | split; [intros x [] | congruence]].
Qed.

Lemma resp_ok_model c hook_ok q :
  mint_shape (q_mint q) = true -> resp_ok c hook_ok q (render (serve_one c hook_ok q)) = true.
Proof.
  intros Hm. pose proof (serve_one_exposed c hook_ok q) as Hex. destruct (serve_one_echo c hook_ok q) as [Hecho _].
  destruct (serve_one_shape c hook_ok q) as (st & extra & echo & E & _). rewrite E in *. clear E.
  unfold resp_ok, render. cbn [o_rid o_present o_expose o_ext r_rid r_std r_echo r_expose r_ext] in *.
  apply andb_true_iff. split; [apply andb_true_iff; split|].
  - now apply rid_ok_resolve.
  - apply existsb_beqb_In. change h_request_id with (hdr_name H_rid). apply names_std; [now left | discriminate].
  - destruct hook_ok; [|reflexivity]. cbn [andb].
    apply andb_true_iff. split; [|apply N.eqb_refl]. apply andb_true_iff. split.
    + apply bsubset_incl. intros x Hx. apply in_map_iff in Hx as [h [<- Hh]].
      apply names_std; [right; apply in_or_app; now left|].
      exact (proj1 (Forall_forall _ _) (caps_no_probe (tg c)) h Hh).
    + destruct (c_cors c); [|reflexivity].
      apply bsubset_incl. intros x Hx. apply names_inv in Hx as [[h [Hh [Hne ->]]] | [n [Hn ->]]].
      * apply names_std; [|assumption]. now apply Hex.
      * apply echo_exposed. now apply Hecho.
Qed.

Lemma seq_ok_model c : forall qs nf,
  forallb (fun q => mint_shape (q_mint q)) qs = true ->
  seq_ok c nf qs (map render (serve_seq c nf qs)) = true.
Proof.
  unfold serve_seq. induction qs as [|q qs IH]; intros nf Hm; [reflexivity|].
  cbn [forallb] in Hm. apply andb_true_iff in Hm as [Hm1 Hm2].
  destruct nf as [|n]; cbn [serve_seq_gen map seq_ok]; rewrite resp_ok_model by assumption; now apply IH.
Qed.

Lemma serve_seq_length c qs nf : length (serve_seq c nf qs) = length qs.
Proof.
  unfold serve_seq. revert nf. induction qs as [|q qs IH]; intro nf; [reflexivity|].
  destruct nf; cbn [serve_seq_gen length]; now rewrite IH.
Qed.

(* the server before fix 846e992: a 503 under CORS fails the property *)
Definition witness_config : config :=
  {| c_compress := false; c_extmode := E_none; c_maxreq := false; c_maxresp := false; c_maxext := false;
     c_upload := false; c_maxupload := false; c_proof := false; c_extraproxy := false;
     c_introspect := false; c_sticky := false; c_oauth := false; c_cors := true; c_notfound := true;
     c_prefix := false; c_echo := []; c_auth := A_unavail |}.
Definition witness_request : request :=
  {| q_kind := Q_unary_ok; q_rid := [str "trace-me"]; q_accept_zstd := false; q_sess_accept := false;
     q_mint := str "0123456789abcdef" |}.
Definition witness_input : input := Serve witness_config 0 [witness_request].
