(* [turn_ok_order] / [turn_err_shape] / [turn_prod_shape] say what a scripted turn
   yields; [handle_refused] .. [handle_failed] give the response for each way a request can go;
   [step_ok] checks the decidable property on each and [run_ok] carries it along any history. *)
From VR Require Import Model.C16 Lib.Lists.
From VR Require Model.C04 Proofs.C04.
Open Scope N_scope.

Lemma mval_eqb_refl v : mval_eqb v v = true.
Proof. destruct v; cbn [mval_eqb]; [apply beqb_refl|apply Nat.eqb_refl|reflexivity]. Qed.
Lemma rmeta_eqb_refl m : rmeta_eqb m m = true.
Proof. apply list_eqb_refl. intros [k v]. unfold pair_eqb; cbn [fst snd]. now rewrite beqb_refl, mval_eqb_refl. Qed.
Lemma mval_eqb_eq a b : mval_eqb a b = true -> a = b.
Proof.
  destruct a, b; cbn [mval_eqb]; intro H; try discriminate; try reflexivity.
  - apply beqb_eq in H. now subst.
  - apply Nat.eqb_eq in H. now subst.
Qed.

Lemma strip_in kv m : In kv (strip m) <-> In kv m /\ is_fw (fst kv) = false.
Proof. unfold strip. rewrite filter_In. unfold keep. now rewrite Bool.negb_true_iff. Qed.
Lemma strip_idem m : strip (strip m) = strip m.
Proof. unfold strip. rewrite filter_filter. apply filter_ext. intro kv. apply Bool.andb_diag. Qed.
Lemma no_fw_key_strip m : no_fw_key (strip m) = true.
Proof. unfold no_fw_key. apply forallb_forall. intros kv H. unfold strip in H. now apply filter_In in H. Qed.
(* the three framework keys are stripped whatever the table's order *)
Lemma fw_keys : is_fw c16_meta_stream_state = true /\ is_fw c16_meta_call_state = true /\ is_fw c16_meta_cancel = true.
Proof. now vm_compute. Qed.
Lemma token_key_fw k : is_token_key k = true -> is_fw k = true.
Proof.
  unfold is_token_key. intro H. apply Bool.orb_true_iff in H. destruct fw_keys as (A & B & _).
  destruct H as [H|H]; apply beqb_eq in H; now subst.
Qed.
Lemma no_token_strip m : tokens_proper m = true -> no_token (strip m) = true.
Proof.
  unfold tokens_proper, no_token. rewrite !forallb_forall. intros H kv Hin.
  apply strip_in in Hin. destruct Hin as [Hin Hfw]. specialize (H kv Hin).
  destruct (is_token_key (fst kv)) eqn:T; [apply token_key_fw in T; congruence|].
  now rewrite Bool.orb_false_r in H.
Qed.

Lemma lits_user (l : kvlist) : lits (map (fun kv => VLit (snd kv)) l) = true.
Proof. unfold lits. induction l as [|x l IH]; cbn [map forallb is_tok negb andb]; [reflexivity|exact IH]. Qed.

Lemma turn_ok_order prod t x : act_ok (t_act t) = true ->
  exists n v um uc, lits uc = true
    /\ turn prod t x = TROk (map (C04.log_frame []) (t_logs t) ++ [FData n v um] ++ map (C04.log_frame []) (t_late t)) uc.
Proof.
  intro H. unfold turn. destruct (t_act t); try discriminate H;
    do 4 eexists; (split; [apply lits_user | reflexivity]).
Qed.
Lemma turn_ok_shape prod t x : act_ok (t_act t) = true ->
  exists fs uc, turn prod t x = TROk fs uc /\ count is_data fs = 1%nat /\ count is_exc fs = 0%nat /\ lits uc = true.
Proof.
  intro H. destruct (turn_ok_order prod t x H) as (n & v & um & uc & L & E). rewrite E. do 2 eexists.
  split; [reflexivity|]. rewrite !count_app, !C04.logs_no_data, !C04.logs_no_exc. repeat split. exact L.
Qed.
Lemma turn_err_shape t x : act_ok (t_act t) = false -> exists ty msg, turn false t x = TRErr (FExc ty msg [] []).
Proof.
  intro H. unfold turn, exc. destruct (t_act t); try discriminate H; eexists; eexists; reflexivity.
Qed.
Lemma turn_prod_shape t :
  match turn true t 0 with
  | TROk fs uc => act_ok (t_act t) = true /\ count is_data fs = 1%nat /\ count is_exc fs = 0%nat /\ lits uc = true
  | TRFin fs uc => act_ok (t_act t) = false /\ act_fin (t_act t) = true /\ count is_exc fs = 0%nat
                   /\ (count is_data fs <= 1)%nat /\ lits uc = true
  | TRErr e => act_ok (t_act t) = false /\ act_fin (t_act t) = false /\ exists ty msg, e = FExc ty msg [] []
  end.
Proof.
  unfold turn, exc. destruct (t_act t); cbn [act_ok act_fin]; rewrite ?count_app, ?C04.logs_no_data, ?C04.logs_no_exc.
  (* AEmit, AEmit0, AEmit2Ignore: validated *)
  1, 2, 4: repeat split; apply lits_user.
  (* AEmit2, ANoEmit, AErr, AEmitErr: failed *)
  1, 2, 5, 6: repeat split; eexists; eexists; reflexivity.
  (* AFinish, AEmitFinish: finished, with no or one data batch *)
  - repeat split. cbn. lia.
  - repeat split; [cbn; lia | apply lits_user].
Qed.

Lemma cursor_on_data_curs_of fs uc fresh : cursor_on_data fs (curs_of fs uc fresh) fresh = true.
Proof.
  unfold curs_of. induction fs as [|f fs IH]; cbn [map cursor_on_data]; [reflexivity|].
  rewrite IH, Bool.andb_true_r. destruct (is_data f); [|reflexivity].
  rewrite last_last, mval_eqb_refl. now destruct uc.
Qed.
Lemma bare_curs_prod fs uc : lits uc = true -> bare fs (curs_prod fs uc) = true.
Proof.
  intro L. unfold curs_prod. induction fs as [|f fs IH]; cbn [map bare]; [reflexivity|].
  rewrite IH, Bool.andb_true_r. now destruct (is_data f).
Qed.

Lemma handler_view_seen_of t m : handler_view_ok m (seen_of false t m) = true.
Proof.
  unfold handler_view_ok, seen_of; cbn [sn_meta sn_batch sn_leak]. rewrite rmeta_eqb_refl.
  destruct (tokens_proper m) eqn:T.
  - rewrite (no_token_strip m T). destruct (t_peek t); [rewrite no_fw_key_strip, (no_token_strip m T)|]; reflexivity.
  - destruct (t_peek t); [rewrite no_fw_key_strip|]; reflexivity.
Qed.
Lemma handler_view_seen_prod m : handler_view_ok m (seen_prod (strip m)) = true.
Proof.
  unfold handler_view_ok, seen_prod; cbn [sn_meta sn_batch sn_leak]. rewrite rmeta_eqb_refl.
  destruct (tokens_proper m) eqn:T; [rewrite (no_token_strip m T)|]; reflexivity.
Qed.

Lemma tr_eqb_refl a : tr_eqb a a = true.
Proof. destruct a; cbn [tr_eqb]; rewrite ?N.eqb_refl, ?Z.eqb_refl, ?beqb_refl; reflexivity. Qed.

(* reduce the field projections of a response record, nothing else *)
Ltac proj := cbn [r_status r_errhdr r_schema r_frames r_curs r_first r_hascall r_pos r_seen r_trace r_strip fst snd].

Lemma handle_refused leaks i minted o e :
  gate i minted o = VRefuse e -> handle leaks i minted o = (refuse e o, minted).
Proof. intro A. unfold handle. now rewrite A. Qed.

Lemma handle_cancelled leaks i minted o p : gate i minted o = VAccept p -> cancelled o = true ->
  handle leaks i minted o =
  ({| r_status := 200; r_errhdr := false; r_schema := out_schema; r_frames := []; r_curs := [];
      r_first := None; r_hascall := false; r_pos := None; r_seen := None;
      r_trace := if has_canceller (i_cancel i) then [TCancel p] else []; r_strip := strip (o_meta o) |}, minted).
Proof. intros A C. unfold handle. now rewrite A, C. Qed.

Lemma handle_producer leaks i minted o p :
  gate i minted o = VAccept p -> cancelled o = false -> i_prod i = true ->
  handle leaks i minted o = produce_resp i minted p (seen_prod (strip (o_meta o))) [] false (strip (o_meta o)).
Proof. intros A C PR. unfold handle. now rewrite A, C, PR. Qed.

Lemma handle_validated leaks i minted o p fs uc :
  gate i minted o = VAccept p -> cancelled o = false -> i_prod i = false ->
  turn false (turn_at i p) (insum (o_body o)) = TROk fs uc ->
  handle leaks i minted o =
  ({| r_status := 200; r_errhdr := false; r_schema := out_schema; r_frames := fs;
      r_curs := curs_of fs uc (VCur (length minted)); r_first := first_of (curs_of fs uc (VCur (length minted)));
      r_hascall := false; r_pos := Some (p + 1); r_seen := Some (seen_of leaks (turn_at i p) (o_meta o));
      r_trace := [TEx p (insum (o_body o))]; r_strip := strip (o_meta o) |}, minted ++ [p + 1]).
Proof. intros A C PR E. unfold handle. now rewrite A, C, PR, E. Qed.

Lemma handle_failed leaks i minted o p e :
  gate i minted o = VAccept p -> cancelled o = false -> i_prod i = false ->
  turn false (turn_at i p) (insum (o_body o)) = TRErr e ->
  handle leaks i minted o =
  ({| r_status := 200; r_errhdr := true; r_schema := out_schema; r_frames := [e]; r_curs := [[]];
      r_first := None; r_hascall := false; r_pos := None; r_seen := Some (seen_of leaks (turn_at i p) (o_meta o));
      r_trace := [TEx p (insum (o_body o))]; r_strip := strip (o_meta o) |}, minted).
Proof. intros A C PR E. unfold handle. now rewrite A, C, PR, E. Qed.

Lemma gate_expect i known o :
  match gate i known o with VAccept p => expect i known o = Some p | VRefuse _ => expect i known o = None end.
Proof.
  (* [expect] makes the tests of [gate] in another order: every combination of their outcomes *)
  unfold gate, expect.
  destruct (i_prod i), (cancelled o), (is_tick (o_body o)); cbn [negb andb orb];
    destruct (get_first c16_meta_stream_state (o_meta o)) as [v|]; try reflexivity;
    destruct (presented known v); try reflexivity;
    destruct (i_cache i), (call_ok (get_first c16_meta_call_state (o_meta o))); reflexivity.
Qed.

Lemma is_nil_snoc {A} (l : list A) x : is_nil (l ++ [x]) = false.
Proof. now destruct l. Qed.

Lemma produce_spec i minted p sn pre wc st :
  let r := fst (produce_resp i minted p sn pre wc st) in
  spec_produce (turn_at i p) (VCur (length minted)) p r = true
  /\ learn minted r = snd (produce_resp i minted p sn pre wc st)
  /\ r_trace r = pre ++ [TProd p] /\ r_seen r = Some sn /\ r_strip r = st
  /\ r_hascall r = wc && act_ok (t_act (turn_at i p)).
Proof.
  unfold produce_resp. pose proof (turn_prod_shape (turn_at i p)) as Hshape.
  destruct (turn true (turn_at i p) 0) as [fs uc|fs uc|e]; unfold spec_produce; proj.
  - destruct Hshape as (A & D & X & L). rewrite A, !removelast_last, !last_last, !is_nil_snoc, D, X, (bare_curs_prod fs uc L).
    cbn [list_eqb mval_eqb opt_eqb negb andb Nat.eqb]. rewrite Nat.eqb_refl, N.eqb_refl, ?Bool.andb_true_r.
    repeat split; reflexivity.
  - destruct Hshape as (A & F & X & D & L). rewrite A, F, X, (bare_curs_prod fs uc L), (proj2 (Nat.leb_le _ 1) D), ?Bool.andb_false_r.
    repeat split; reflexivity.
  - destruct Hshape as (A & F & ty & msg & ->). rewrite A, F, ?Bool.andb_false_r. repeat split; reflexivity.
Qed.

Lemma seen_handle leaks i minted o :
  r_seen (fst (handle leaks i minted o)) =
  match gate i minted o with
  | VRefuse _ => None
  | VAccept p => if cancelled o then None
                 else Some (if i_prod i then seen_prod (strip (o_meta o)) else seen_of leaks (turn_at i p) (o_meta o))
  end.
Proof.
  unfold handle. destruct (gate i minted o) as [e|p]; [reflexivity|]. destruct (cancelled o); [reflexivity|].
  destruct (i_prod i); [apply produce_spec|]. destruct (act_ok (t_act (turn_at i p))) eqn:K.
  - destruct (turn_ok_shape false (turn_at i p) (insum (o_body o)) K) as (fs & uc & E & _). now rewrite E.
  - destruct (turn_err_shape (turn_at i p) (insum (o_body o)) K) as (ty & msg & E). now rewrite E.
Qed.

Lemma step_ok i known o :
  spec_step i known o (fst (handle false i known o)) = true
  /\ learn known (fst (handle false i known o)) = snd (handle false i known o).
Proof.
  pose proof (gate_expect i known o) as GE. unfold spec_step.
  destruct (gate i known o) as [e|p] eqn:G; rewrite GE; [|destruct (cancelled o) eqn:C; [|destruct (i_prod i) eqn:PR]].
  - rewrite (handle_refused false i known o e G). unfold refuse; proj.
    rewrite rmeta_eqb_refl. split; reflexivity.
  - rewrite (handle_cancelled false i known o p G C). proj.
    rewrite rmeta_eqb_refl. split; [|reflexivity]. cbn [negb andb is_nil]. unfold no_cursor; proj.
    destruct (has_canceller (i_cancel i)); cbn [list_eqb]; rewrite ?tr_eqb_refl; reflexivity.
  - rewrite (handle_producer false i known o p G C PR).
    destruct (produce_spec i known p (seen_prod (strip (o_meta o))) [] false (strip (o_meta o))) as (SP & L & T & SN & ST & HC).
    destruct (produce_resp i known p (seen_prod (strip (o_meta o))) [] false (strip (o_meta o))) as [r m'].
    cbn [fst snd] in *. rewrite ST, HC, SN, T, SP, rmeta_eqb_refl, handler_view_seen_prod.
    assert (Z.eqb (r_status r) 200 = true) as ->.
    { unfold spec_produce in SP. apply Bool.andb_true_iff in SP. destruct SP as [SP _].
      apply Bool.andb_true_iff in SP. now destruct SP. }
    cbn [app list_eqb negb andb]. rewrite tr_eqb_refl. split; [reflexivity|exact L].
  - destruct (act_ok (t_act (turn_at i p))) eqn:A.
    + destruct (turn_ok_shape false (turn_at i p) (insum (o_body o)) A) as (fs & uc & E & D & X & _).
      rewrite (handle_validated false i known o p fs uc G C PR E). proj.
      rewrite rmeta_eqb_refl, handler_view_seen_of, D, X, cursor_on_data_curs_of.
      cbn [negb andb list_eqb opt_eqb Nat.eqb]. rewrite tr_eqb_refl, N.eqb_refl. split; reflexivity.
    + destruct (turn_err_shape (turn_at i p) (insum (o_body o)) A) as (ty & msg & E).
      rewrite (handle_failed false i known o p _ G C PR E). proj.
      rewrite rmeta_eqb_refl, handler_view_seen_of.
      cbn [negb andb list_eqb]. rewrite tr_eqb_refl. split; reflexivity.
Qed.

Lemma run_ok i ops : forall known, spec_run i known ops (run false i known ops) = true.
Proof.
  induction ops as [|o ops IH]; intro known; cbn [run spec_run]; [reflexivity|].
  destruct (step_ok i known o) as [Hstep L]. destruct (handle false i known o) as [r k'] eqn:H.
  cbn [fst snd] in Hstep, L. cbn [spec_run]. rewrite Hstep, L. apply IH.
Qed.

Lemma handler_meta leaks i minted o p :
  gate i minted o = VAccept p -> cancelled o = false -> i_prod i = false ->
  exists s, r_seen (fst (handle leaks i minted o)) = Some s
    /\ sn_meta s = filter (fun kv => negb (is_fw (fst kv))) (o_meta o)
    /\ sn_leak s = false
    /\ (leaks = false -> forall b, sn_batch s = Some b -> b = sn_meta s).
Proof.
  intros A C PR. rewrite seen_handle, A, C, PR. eexists. split; [reflexivity|].
  unfold seen_of; cbn [sn_meta sn_batch sn_leak]. split; [reflexivity|]. split; [reflexivity|].
  intros ->. destruct (t_peek (turn_at i p)); intros b H; now inversion H.
Qed.

(* of every request: one that is refused or cancelled shows the handler nothing *)
Lemma seen_no_fw_key_no_token i minted o s :
  r_seen (fst (handle false i minted o)) = Some s ->
  (forall kv, In kv (sn_meta s) -> is_fw (fst kv) = false)
  /\ (tokens_proper (o_meta o) = true ->
      no_token (sn_meta s) = true /\ (forall b, sn_batch s = Some b -> no_token b = true) /\ sn_leak s = false).
Proof.
  rewrite seen_handle. destruct (gate i minted o) as [e|p]; [discriminate|]. destruct (cancelled o); [discriminate|].
  intro Hs. injection Hs as Hs.
  assert (M : sn_meta s = strip (o_meta o) /\ (forall b, sn_batch s = Some b -> b = strip (o_meta o)) /\ sn_leak s = false).
  { subst s. destruct (i_prod i); repeat split; cbn [seen_prod seen_of sn_batch]; [discriminate|].
    destruct (t_peek (turn_at i p)); intros b Hb; now inversion Hb. }
  destruct M as (M & B & K). rewrite M. split.
  - intros kv Hin. now apply strip_in in Hin.
  - intro T. split; [now apply no_token_strip|]. split; [|exact K]. intros b Hb. rewrite (B b Hb). now apply no_token_strip.
Qed.

(* a protocol-following continuation presenting the k-th minted cursor *)
Definition follows (i : input) (k : nat) (o : op) : Prop :=
  get_first c16_meta_stream_state (o_meta o) = Some (VCur k) /\ cancelled o = false
  /\ is_tick (o_body o) = false
  /\ (i_cache i = true \/ get_first c16_meta_call_state (o_meta o) = Some VCall).
Fixpoint follow_all (i : input) (k : nat) (ops : list op) : Prop :=
  match ops with [] => True | o :: r => follows i k o /\ follow_all i (S k) r end.
Fixpoint all_ok (i : input) (p : N) (n : nat) : Prop :=
  match n with O => True | S n' => act_ok (t_act (turn_at i p)) = true /\ all_ok i (p + 1) n' end.
Fixpoint visits (p : N) (ops : list op) : list (list tr) :=
  match ops with [] => [] | o :: r => [TEx p (insum (o_body o))] :: visits (p + 1) r end.
Fixpoint positions (p : N) (ops : list op) : list (option N) :=
  match ops with [] => [] | o :: r => Some (p + 1) :: positions (p + 1) r end.

Lemma follows_gate i minted k o p : follows i k o -> nth_error minted k = Some p -> gate i minted o = VAccept p.
Proof.
  intros (G & C & K & CA) Hnth. unfold gate. rewrite C, K, G; cbn [negb andb presented]. rewrite Bool.andb_false_r, Hnth.
  destruct CA as [CA|CA]; rewrite CA; [reflexivity|]. cbn [call_ok negb]. now rewrite Bool.andb_false_r.
Qed.

Section Tokens.
  Variable token : Type.
  Variable seal : N -> N -> token.            (* nonce (crypto/rand: never repeated = the mint counter), sealed state *)
  Hypothesis seal_inj : forall n s n' s', seal n s = seal n' s' -> n = n' /\ s = s'.

  (* the bytes of the k-th minted cursor *)
  Definition wire (minted : list N) (k : nat) : option token :=
    option_map (seal (N.of_nat k)) (nth_error minted k).

  Lemma fresh_token minted s k t :
    wire minted k = Some t -> seal (N.of_nat (length minted)) s <> t.
  Proof.
    unfold wire. destruct (nth_error minted k) as [q|] eqn:E; cbn [option_map]; intro H; [|discriminate].
    inversion H; subst t. intro Heq. apply seal_inj in Heq. destruct Heq as [Hn _].
    assert (k < length minted)%nat by (apply nth_error_Some; congruence). lia.
  Qed.
End Tokens.

(* a turn whose handler reads the input batch's own metadata ([t_peek]): the code before fix
   270d950 shows it the cursor and the call token *)
Definition legacy_witness : input :=
  {| i_turns := [ {| t_logs := []; t_act := AEmit; t_value := 1; t_meta := []; t_peek := true; t_late := [] |} ];
     i_cancel := CNone; i_cache := true;
     i_ops := [ {| o_meta := [(str "a", VLit (str "1")); (c16_meta_stream_state, VCur 0);
                              (str "b", VLit (str "2")); (c16_meta_call_state, VCall)];
                   o_body := BData [5%Z] |} ];
     i_prod := false |}.
Lemma legacy_refuted : spec_ok legacy_witness (model_legacy legacy_witness) = false
  /\ exists r s b, nth_error (model_legacy legacy_witness) 1 = Some r /\ r_seen r = Some s /\ sn_batch s = Some b
       /\ In (c16_meta_stream_state, VCur 0) b /\ In (c16_meta_call_state, VCall) b.
Proof.
  split; [now vm_compute|]. eexists; eexists; eexists. split; [reflexivity|]. split; [reflexivity|]. split; [reflexivity|].
  split; [right; left; reflexivity|right; right; right; left; reflexivity].
Qed.

(* first-match readers and a handler that emits metadata under the stream-state key *)
Definition shadow_witness : input :=
  {| i_turns := [ {| t_logs := []; t_act := AEmit; t_value := 1;
                     t_meta := [(c16_meta_stream_state, str "user-cursor")]; t_peek := false; t_late := [] |} ];
     i_cancel := CNone; i_cache := true;
     i_ops := [ {| o_meta := [(c16_meta_stream_state, VCur 0); (c16_meta_call_state, VCall)]; o_body := BData [5%Z] |} ];
     i_prod := false |}.

(* a response in which the cursor rides a LOG batch raised after the Emit while the data batch has
   none (what a collector that mis-indexes its data batch produces) is rejected by the decidable property *)
Definition late_witness : input :=
  {| i_turns := [ {| t_logs := []; t_act := AEmit; t_value := 1; t_meta := []; t_peek := false;
                     t_late := [ C04.Build_logmsg (str "INFO") (str "after-emit") [] ] |} ];
     i_cancel := CNone; i_cache := true;
     i_ops := [ {| o_meta := [(c16_meta_stream_state, VCur 0); (c16_meta_call_state, VCall)]; o_body := BData [5%Z] |} ];
     i_prod := false |}.
Definition cursor_on_log (r : resp) : resp :=
  {| r_status := r_status r; r_errhdr := r_errhdr r; r_schema := r_schema r;
     r_frames := rev (r_frames r); r_curs := r_curs r; r_first := r_first r; r_hascall := r_hascall r;
     r_pos := None; r_seen := r_seen r; r_trace := r_trace r; r_strip := r_strip r |}.

(* a turn that emits its data batch and then PANICS: one EXCEPTION batch, no cursor, nothing minted.
   Exchange: the turn is the first continuation; the same cursor presented again fails the same way,
   and cursor 1, which a validated turn would have minted, does not exist. Producer: the turn runs
   inside /init, so no cursor exists at all and every continuation is refused *)
Definition emit_panic_witness (prod : bool) : input :=
  {| i_turns := [ {| t_logs := []; t_act := AEmitErr (C04.EPanic (str "kaboom")); t_value := 7; t_meta := []; t_peek := false;
                     t_late := [ C04.Build_logmsg (str "INFO") (str "after-emit") [] ] |} ];
     i_cancel := CNone; i_cache := true;
     i_ops := [ {| o_meta := [(c16_meta_stream_state, VCur 0); (c16_meta_call_state, VCall)]; o_body := BData [5%Z] |};
                {| o_meta := [(c16_meta_stream_state, VCur 0); (c16_meta_call_state, VCall)]; o_body := BData [6%Z] |};
                {| o_meta := [(c16_meta_stream_state, VCur 1); (c16_meta_call_state, VCall)]; o_body := BData [6%Z] |} ];
     i_prod := prod |}.
