(* Proofs/C10.v — the protocol-version gate decides exactly "same numeric major and minor",
   for version strings of unbounded length: on canonical components (digits, no leading
   zero) comparing lengths and then bytes is comparing the numbers ([cmp_part_numeric]).
   [num] is a Horner fold; both halves follow from its monotonicity in the accumulator
   ([num_acc_lt]). *)
From VR Require Import Model.C10.
Open Scope N_scope.

Definition digits (s : bytes) : bool := forallb is_digit s.

Lemma is_digit_iff c : is_digit c = true <-> 48 <= c <= 57.
Proof. unfold is_digit. now rewrite andb_true_iff, !N.leb_le. Qed.
Lemma is_19_iff c : is_19 c = true <-> 49 <= c <= 57.
Proof. unfold is_19. now rewrite andb_true_iff, !N.leb_le. Qed.

Lemma num_acc_cons acc c s : num_acc acc (c :: s) = num_acc (acc * 10 + (c - 48)) s.
Proof. reflexivity. Qed.

(* a smaller accumulator stays smaller through at least as many further digits: the extra
   leading digits of [b] only raise its accumulator, then each step keeps a gap of one *)
Lemma num_acc_lt b : forall a acc1 acc2, digits a = true -> (length a <= length b)%nat -> acc1 < acc2 ->
  num_acc acc1 a < num_acc acc2 b.
Proof.
  induction b as [|y b IH]; intros a acc1 acc2 Da L H.
  - destruct a; [exact H | cbn [length] in L; lia].
  - rewrite (num_acc_cons acc2). destruct (Nat.leb_spec (length a) (length b)) as [L'|L'].
    + apply IH; [exact Da | exact L' | lia].
    + destruct a as [|x a]; cbn [length] in L, L'; [lia|].
      cbn [digits forallb] in Da. apply andb_true_iff in Da as [Dx Da]. rewrite num_acc_cons.
      apply IH; [exact Da | lia | apply is_digit_iff in Dx; lia].
Qed.

Lemma canon_digits s : canon_part s = true -> digits s = true /\ s <> [].
Proof.
  destruct s as [|c [|d t]]; cbn [canon_part]; intro H; try discriminate.
  - split; [cbn; now rewrite H | discriminate].
  - apply andb_true_iff in H as [Hc Ht]. split; [|discriminate].
    cbn [digits forallb]. cbn [forallb] in Ht. rewrite Ht, andb_true_r.
    apply is_19_iff in Hc. apply is_digit_iff. lia.
Qed.

(* a comparison result, read as the order fact it stands for *)
Lemma compare_is (c : comparison) a b :
  match c with Eq => a = b | Lt => a < b | Gt => b < a end -> c = N.compare a b.
Proof.
  destruct c; intro H; symmetry;
    [apply N.compare_eq_iff | apply N.compare_lt_iff | apply N.compare_gt_iff]; exact H.
Qed.

(* at equal width the first differing digit decides *)
Lemma lex_num a : forall b acc, length a = length b -> digits a = true -> digits b = true ->
  lex_cmp a b = N.compare (num_acc acc a) (num_acc acc b).
Proof.
  induction a as [|x a IH]; intros [|y b] acc L Ha Hb; cbn [length] in L; try discriminate.
  - symmetry. apply N.compare_refl.
  - cbn [digits forallb] in Ha, Hb. apply andb_true_iff in Ha as [Hx Ha]. apply andb_true_iff in Hb as [Hy Hb].
    injection L as L. cbn [lex_cmp]. rewrite !num_acc_cons. apply is_digit_iff in Hx, Hy.
    destruct (N.compare_spec x y) as [E|E|E].
    + subst y. now apply IH.
    + apply (compare_is Lt), num_acc_lt; [exact Ha | lia | lia].
    + apply (compare_is Gt), num_acc_lt; [exact Hb | lia | lia].
Qed.

(* the longer of two canonical components starts with a non-zero digit *)
Lemma shorter_smaller a b : canon_part a = true -> canon_part b = true ->
  (length a < length b)%nat -> num a < num b.
Proof.
  intros Ha Hb L. destruct (canon_digits a Ha) as [Da Na].
  destruct b as [|y [|z t]]; cbn [length] in L; [lia | destruct a; [congruence | cbn [length] in L; lia] |].
  cbn [canon_part] in Hb. apply andb_true_iff in Hb as [Hy _]. unfold num. rewrite num_acc_cons.
  apply num_acc_lt; [exact Da | cbn [length]; lia | apply is_19_iff in Hy; lia].
Qed.

Lemma cmp_part_numeric a b : canon_part a = true -> canon_part b = true ->
  cmp_part a b = N.compare (num a) (num b).
Proof.
  intros Ha Hb. unfold cmp_part.
  destruct (Nat.compare_spec (length a) (length b)) as [E|E|E].
  - apply (lex_num a b 0); [exact E | apply canon_digits, Ha | apply canon_digits, Hb].
  - now apply (compare_is Lt), shorter_smaller.
  - now apply (compare_is Gt), shorter_smaller.
Qed.

Lemma digits_nodot s : digits s = true -> mem DOT s = false.
Proof.
  induction s as [|c s IH]; cbn [digits forallb mem existsb]; [reflexivity|]. intro H.
  apply andb_true_iff in H as [Hc Hs]. fold (mem DOT s). rewrite (IH Hs). apply is_digit_iff in Hc. unfold DOT.
  assert (H : (46 =? c) = false) by (apply N.eqb_neq; lia). now rewrite H.
Qed.

Lemma cmp_eq_iff a b : N.compare a b = Eq <-> a = b.
Proof. apply N.compare_eq_iff. Qed.

Lemma verdict_eqb_refl v : verdict_eqb v v = true.
Proof. destruct v; reflexivity. Qed.

(* the pre-fix gate admits clients whose major differs above 2^63 *)
Definition legacy_srv : bytes := str "99999999999999999999.0.0".
Definition legacy_cli : bytes := str "99999999999999999998.0.1".

Theorem legacy_refuted :
  exists sv cv p, parse sv = Some p /\ same_major_minor sv cv = false /\ gate_legacy p (Some cv) = Admit.
Proof.
  exists legacy_srv, legacy_cli, (str "99999999999999999999", str "0", str "0").
  repeat split; vm_compute; reflexivity.
Qed.
