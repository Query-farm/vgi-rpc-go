(* Proofs/C05.v — the notions the statements of C05 are phrased with, and the
   witness against the pre-fix fallback. *)
From VR Require Import Model.C05.
Open Scope N_scope.

(* erase every Go dynamic type name from an error value *)
Fixpoint erase (e : goerr) : goerr :=
  match e with
  | GCustom _ m => GCustom [] m
  | GWrap p i => GWrap p (erase i)
  | x => x
  end.

Fixpoint wrapn (n : nat) (p : bytes) (e : goerr) : goerr :=
  match n with O => e | S k => GWrap p (wrapn k p e) end.

Fixpoint prefixes (n : nat) (p : bytes) : bytes :=
  match n with O => [] | S k => p ++ colon_sp ++ prefixes k p end.

(* the pre-fix fallback put the Go type name on the wire *)
Definition exc_type_legacy (e : goerr) : bytes :=
  match e with
  | GPlain _ => str "*errors.errorString"
  | GCustom gt _ => gt
  | GWrap _ _ => str "*fmt.wrapError"
  | x => exc_type x
  end.

Theorem legacy_refuted :
  exists e, (forall ty m k, e <> GRpc ty m k) /\ ~ In (exc_type_legacy e) wire_names.
Proof.
  exists (GPlain (str "boom")). split; [intros; discriminate|].
  intro H. apply existsb_beqb_In in H. vm_compute in H. discriminate H.
Qed.
