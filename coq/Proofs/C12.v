(* Proofs/C12.v — state tokens.  What [open_token] answers is read off the key-independent
   shape of the text and, for a well-formed envelope, off the AEAD ([open_token_by_shape]);
   every run of the handler is classified once ([handle_cases]: user code only behind the three
   checks, otherwise a 400 whose label a cursor failure fixes); with an ideal AEAD whatever is
   accepted was sealed under the key for that slot ([accepted_sealed]). *)
From VR Require Import Model.C12 Lib.Lists.

Lemma slot_versions_differ : ver_of SCursor <> ver_of SCall.
Proof. vm_compute. discriminate. Qed.

Lemma aad_of_inj s s' : aad_of s = aad_of s' -> s = s'.
Proof. destruct s, s'; try reflexivity; vm_compute; discriminate. Qed.

Lemma label_eqb_refl a : label_eqb a a = true.
Proof. destruct a; cbn; rewrite ?N.eqb_refl; reflexivity. Qed.

Lemma label_eqb_eq a b : label_eqb a b = true <-> a = b.
Proof.
  split; [|intros ->; apply label_eqb_refl].
  destruct a, b; intro H; try discriminate H; try reflexivity.
  cbn in H. apply andb_true_iff in H as [H1 H2]. apply N.eqb_eq in H1, H2. now subst.
Qed.

Lemma slot_eqb_eq a b : slot_eqb a b = true <-> a = b.
Proof. destruct a, b; cbn; split; intro H; try reflexivity; discriminate. Qed.

Definition shape_label (s : slot) (sh : shape) : label :=
  match sh with ShMalformed => LMalformed | ShVersion v => LVersion v (ver_of s) | ShWell _ => LSignature end.

Lemma filter_nil_no_user (tr : list act) a : filter user_code tr = [] -> In a tr -> user_code a = false.
Proof.
  intros Hf Hi. destruct (user_code a) eqn:E; [|reflexivity].
  pose proof (proj2 (filter_In user_code a tr) (conj Hi E)) as H. rewrite Hf in H. destruct H.
Qed.

Section Generic.
  Variable K : Type.
  Variable openx : K -> bytes -> bytes -> option payload.
  Variable strict : bool.
  Variable k : K.

  Notation open_token := (open_token K openx strict k).

  Lemma shape_well_inv s t body :
    shape_of strict s t = ShWell body ->
    b64_lenient t = Some (ver_of s :: body)
    /\ (strict = true -> t = b64enc (ver_of s :: body))
    /\ (N.of_nat (length (ver_of s :: body)) <? min_len) = false.
  Proof.
    unfold shape_of. destruct (b64_lenient t) as [raw|]; [|discriminate].
    destruct (strict && negb (beqb (b64enc raw) t)) eqn:Ec; [discriminate|].
    destruct (N.of_nat (length raw) <? min_len) eqn:El; [discriminate|].
    destruct raw as [|v b]; [discriminate|].
    destruct (v =? ver_of s) eqn:Ev; [|discriminate].
    intro H; inversion H; subst. apply N.eqb_eq in Ev; subst v.
    split; [reflexivity|]. split; [|exact El].
    intros ->. cbn in Ec. apply negb_false_iff in Ec. apply beqb_eq in Ec. now symmetry.
  Qed.

  Lemma open_token_by_shape s t :
    match shape_of strict s t with
    | ShMalformed => exists f, open_token s t = inl f /\ auth_fail f = true /\ label_of s f = LMalformed
    | ShVersion v => open_token s t = inl (FVersion v)
    | ShWell body => open_token s t =
                       match openx k (aad_of s) body with
                       | None => inl FSignature
                       | Some p => check_payload s p
                       end
    end.
  Proof.
    unfold shape_of, C12.open_token. destruct (b64_lenient t) as [raw|]; [|eexists; repeat split].
    destruct (strict && negb (beqb (b64enc raw) t)); [eexists; repeat split|].
    destruct (N.of_nat (length raw) <? min_len); [eexists; repeat split|].
    destruct raw as [|v b]; [eexists; repeat split|].
    destruct (v =? ver_of s); cbn; reflexivity.
  Qed.

  Lemma check_payload_not_auth s p f : check_payload s p = inl f -> auth_fail f = false.
  Proof. destruct p, s; cbn; try destruct expired; intro H; inversion H; reflexivity. Qed.

  (* an authenticity failure answers with the label its shape fixes *)
  Lemma open_token_fail_label s t f :
    open_token s t = inl f -> auth_fail f = true ->
    label_of s f = shape_label s (shape_of strict s t).
  Proof.
    intros H Ha. pose proof (open_token_by_shape s t) as Hs.
    destruct (shape_of strict s t) as [|v|body].
    - destruct Hs as (f' & Hf & _ & Hc). cbn. congruence.
    - rewrite H in Hs. inversion Hs; subst. reflexivity.
    - rewrite H in Hs. destruct (openx k (aad_of s) body) as [p|].
      + symmetry in Hs. apply check_payload_not_auth in Hs. congruence.
      + inversion Hs; subst. reflexivity.
  Qed.

  (* a text fails authentication, or is a well-formed envelope whose sealed part opens, and the
     answer is the check of what it held *)
  Variant opening (s : slot) (t : bytes) : Prop :=
  | Unauthentic f : open_token s t = inl f -> auth_fail f = true -> opening s t
  | Authentic body p :
      shape_of strict s t = ShWell body -> openx k (aad_of s) body = Some p ->
      open_token s t = check_payload s p -> opening s t.

  Lemma open_token_authenticated s t : opening s t.
  Proof.
    pose proof (open_token_by_shape s t) as Hs.
    destruct (shape_of strict s t) as [|v|body] eqn:E.
    - destruct Hs as (f & Hf & Ha & _). exact (Unauthentic s t f Hf Ha).
    - exact (Unauthentic s t _ Hs eq_refl).
    - destruct (openx k (aad_of s) body) as [p|] eqn:Eo.
      + exact (Authentic s t body p E Eo Hs).
      + exact (Unauthentic s t _ Hs eq_refl).
  Qed.

  Notation handle := (handle K openx strict k).

  (* user code runs only behind a successful cursor open, call resolution and method check *)
  Definition guarded (tr : list act) : Prop :=
    forall p a post, tr = p ++ a :: post -> user_code a = true ->
    In (AOpenCursor true) p /\ (In (ACacheGet true) p \/ In (AOpenCall true) p) /\ In (AMethodCheck true) p.

  Lemma guarded_user_free tr : filter user_code tr = [] -> guarded tr.
  Proof. intros Hf p a post -> Hu. pose proof (filter_nil_no_user _ a Hf (in_elt a p post)). congruence. Qed.

  Lemma user_free_prefix pfx sfx p a post :
    filter user_code pfx = [] -> pfx ++ sfx = p ++ a :: post -> user_code a = true ->
    exists p', p = pfx ++ p'.
  Proof.
    revert p. induction pfx as [|b pfx IH]; intros p Hf E Hu; [now exists p|].
    cbn in Hf. destruct (user_code b) eqn:Eb; [discriminate|].
    destruct p as [|b' p]; inversion E; subst; [congruence|].
    destruct (IH p Hf H1 Hu) as [p' ->]. now exists p'.
  Qed.

  Lemma guarded_behind pfx sfx :
    filter user_code pfx = [] -> In (AOpenCursor true) pfx ->
    In (ACacheGet true) pfx \/ In (AOpenCall true) pfx -> In (AMethodCheck true) pfx ->
    guarded (pfx ++ sfx).
  Proof.
    intros Hf A B C p a post E Hu. destruct (user_free_prefix _ _ _ _ _ Hf E Hu) as [p' ->].
    rewrite !in_app_iff. tauto.
  Qed.

  (* the runs of the handler: the accepting run, user code behind sound success flags; or a 400
     without any user code *)
  Variant ran (cold : bool) (c : cache) (q : req) (tr : list act) : Prop :=
  | Turned tc cid r0 :
      guarded tr -> last_resp tr = (200, LOk) ->
      map ev_code (filter user_code tr) = [1; 2; if q_cancel q then 5 else 3; 4] ->
      q_cursor q = Some tc -> open_token SCursor tc = inr (cid, r0) ->
      (cold = false /\ cache_get c cid = Some (q_route q)
       \/ exists tk, q_call q = Some tk /\ open_token SCall tk = inr (cid, q_route q)
                     /\ (cold = true \/ cache_get c cid = None)) ->
      ran cold c q tr
  | Refused l :
      last_resp tr = (400, l) -> l <> LOk -> filter user_code tr = [] -> ran cold c q tr.

  Lemma ran_guarded cold c q tr : ran cold c q tr -> guarded tr.
  Proof. intros [? ? ? Hg|l _ _ Hf]; [exact Hg | exact (guarded_user_free tr Hf)]. Qed.

  Lemma handle_cases cold c q : ran cold c q (fst (handle cold c q)).
  Proof.
    unfold C12.handle, run_user. destruct (q_cursor q) as [tc|] eqn:Eq.
    2:{ apply (Refused _ _ _ _ LMissingState); try reflexivity; discriminate. }
    destruct (open_token SCursor tc) as [f|[cid r0]] eqn:Eo.
    { apply (Refused _ _ _ _ (label_of SCursor f)); try reflexivity; destruct f; discriminate. }
    destruct (if cold then None else cache_get c cid) as [m|] eqn:Ec.
    { destruct cold; [discriminate|].
      destruct (route_eqb m (q_route q)) eqn:Er;
        [|apply (Refused _ _ _ _ LWrongMethod); try reflexivity; discriminate].
      apply (Turned _ _ _ _ tc cid r0); auto.
      - (* membership in the literal prefix: the depth is the position of the last flag *)
        apply (guarded_behind [AReadBody; AParseRequest; AOpenCursor true; ACacheGet true; AMethodCheck true]);
          cbn; auto 6.
      - now destruct (q_cancel q).
      - now destruct (q_cancel q).
      - left. split; [reflexivity|]. destruct m, (q_route q); try discriminate; exact Ec. }
    destruct (q_call q) as [[|x tk]|] eqn:Ek;
      [apply (Refused _ _ _ _ LMissingCall); try reflexivity; discriminate |
      |apply (Refused _ _ _ _ LMissingCall); try reflexivity; discriminate].
    destruct (open_token SCall (x :: tk)) as [f|[cid' m]] eqn:Eo2.
    { apply (Refused _ _ _ _ (label_of SCall f)); try reflexivity; destruct f; discriminate. }
    destruct (cid' =? cid) eqn:Ei.
    2:{ apply (Refused _ _ _ _ LMalformed); try reflexivity; discriminate. }
    apply N.eqb_eq in Ei; subst cid'.
    destruct (route_eqb m (q_route q)) eqn:Er;
      [|apply (Refused _ _ _ _ LWrongMethod); try reflexivity; discriminate].
    apply (Turned _ _ _ _ tc cid r0); auto.
    - apply (guarded_behind [AReadBody; AParseRequest; AOpenCursor true; ACacheGet false; AOpenCall true; AMethodCheck true]);
        cbn; auto 7.
    - now destruct (q_cancel q).
    - now destruct (q_cancel q).
    - right. exists (x :: tk). split; [exact Ek|]. split; [|destruct cold; auto].
      destruct m, (q_route q); try discriminate; exact Eo2.
  Qed.

  (* a cursor that fails to open decides the whole response, whatever else the request holds *)
  Lemma cursor_failure_response cold c q tc f :
    q_cursor q = Some tc -> open_token SCursor tc = inl f ->
    fst (handle cold c q) = [AReadBody; AParseRequest; AOpenCursor false; ARespond 400 (label_of SCursor f)].
  Proof. intros H1 H2. unfold C12.handle. rewrite H1, H2. reflexivity. Qed.
End Generic.

Section Ideal.
  Variable K : Type.
  Variable sealx : K -> N -> bytes -> payload -> bytes.     (* key, nonce, aad, plaintext |-> nonce ++ ct *)
  Variable openx : K -> bytes -> bytes -> option payload.
  (* INT-CTXT, ideal form: only what was sealed under (k, a) opens under (k, a) *)
  Hypothesis int_ctxt : forall k a c p, openx k a c = Some p -> exists n, c = sealx k n a p.
  Variable k : K.

  (* a well-formed envelope whose sealed part opens was sealed under this key for this slot;
     with the canonical-text check the text itself is the encoding of that envelope *)
  Lemma opened_was_sealed strict s t body p :
    shape_of strict s t = ShWell body -> openx k (aad_of s) body = Some p ->
    exists n, b64_lenient t = Some (ver_of s :: sealx k n (aad_of s) p)
              /\ (strict = true -> t = b64enc (ver_of s :: sealx k n (aad_of s) p)).
  Proof.
    intros Hs Ho. destruct (shape_well_inv strict s t body Hs) as (Hd & Hc & _).
    destruct (int_ctxt _ _ _ _ Ho) as [n ->]. eauto.
  Qed.

  Lemma accepted_sealed s t x :
    open_token K openx true k s t = inr x ->
    exists n p, t = b64enc (ver_of s :: sealx k n (aad_of s) p).
  Proof.
    intro H. destruct (open_token_authenticated K openx true k s t) as [f Hf _|body p Hs Ho _]; [congruence|].
    destruct (opened_was_sealed true s t body p Hs Ho) as (n & _ & Hc). exists n, p. now apply Hc.
  Qed.
End Ideal.

(* normalizeTokenKey *)
Definition norm_key (sha : bytes -> bytes) (key : bytes) : bytes :=
  if N.of_nat (length key) =? Z.to_N c12_key_size then key else sha key.

Lemma tbl_open_some tb k a body p :
  tbl_open tb k a body = Some p -> exists s, In (k, s, body, p) tb /\ aad_of s = a.
Proof.
  induction tb as [|[[[k' s] b] p'] r IH]; cbn; [discriminate|].
  destruct ((k' =? k) && beqb (aad_of s) a && beqb b body) eqn:E.
  - intro H; inversion H; subst. apply andb_true_iff in E as [E E3]. apply andb_true_iff in E as [E1 E2].
    apply N.eqb_eq in E1. apply beqb_eq in E2, E3. subst. exists s. auto.
  - intro H. destruct (IH H) as (s' & Hi & Ha). exists s'. auto.
Qed.

Lemma tbl_open_none tb k a body :
  (forall s p, In (k, s, body, p) tb -> aad_of s <> a) -> tbl_open tb k a body = None.
Proof.
  intro H. destruct (tbl_open tb k a body) as [p|] eqn:E; [|reflexivity].
  destruct (tbl_open_some _ _ _ _ _ E) as (s & Hi & Ha). exfalso. eapply H; eauto.
Qed.

Lemma in_table refs k s body p :
  In (k, s, body, p) (table_of refs) ->
  exists r, In r refs /\ r_key r = k /\ r_slot r = s /\ r_text r = b64enc (ver_of s :: body).
Proof.
  unfold table_of. rewrite in_flat_map. intros (r & Hr & Hi). exists r. split; [exact Hr|].
  unfold entry_of in Hi. destruct (b64_lenient (r_text r)) as [[|v b]|]; try contradiction.
  destruct ((v =? ver_of (r_slot r)) && beqb (b64enc (v :: b)) (r_text r)) eqn:E; [|contradiction].
  destruct Hi as [Hi|[]]. inversion Hi; subst. apply andb_true_iff in E as [E1 E2].
  apply N.eqb_eq in E1. apply beqb_eq in E2. subst v. auto.
Qed.

Lemma sealed_text_intro refs s t r :
  In r refs -> r_key r = 0 -> r_slot r = s -> r_text r = t -> sealed_text refs s t = true.
Proof.
  intros Hi Hk Hs Ht. unfold sealed_text. apply existsb_exists. exists r. split; [exact Hi|].
  rewrite Hk, Hs, Ht. cbn. rewrite beqb_refl. destruct s; reflexivity.
Qed.

Lemma tbl_opened_was_sealed refs s t body p :
  shape_of true s t = ShWell body -> tbl_open (table_of refs) 0 (aad_of s) body = Some p ->
  sealed_text refs s t = true.
Proof.
  intros Hs Ho. destruct (shape_well_inv true s t body Hs) as (_ & Hc & _).
  destruct (tbl_open_some _ _ _ _ _ Ho) as (s' & Hi & Ha). apply aad_of_inj in Ha. subst s'.
  destruct (in_table _ _ _ _ _ Hi) as (r & Hr & Hk & Hsl & Ht).
  eapply sealed_text_intro; eauto. rewrite Ht. symmetry. now apply Hc.
Qed.

Lemma tbl_accepted_sealed refs s t x :
  open_token N (tbl_open (table_of refs)) true 0 s t = inr x -> sealed_text refs s t = true.
Proof.
  intro H. destruct (open_token_authenticated N (tbl_open (table_of refs)) true 0 s t) as [f Hf _|body p Hs Ho _]; [congruence|].
  eapply tbl_opened_was_sealed; eauto.
Qed.

Lemma pobs_of_fields tr bid :
  o_label (pobs_of tr bid) = snd (last_resp tr) /\ o_body (pobs_of tr bid) = bid
  /\ o_status (pobs_of tr bid) = fst (last_resp tr)
  /\ o_evs (pobs_of tr bid) = map ev_code (filter user_code tr)
  /\ o_acc (pobs_of tr bid) = ((fst (last_resp tr) =? 200) && label_eqb (snd (last_resp tr)) LOk).
Proof. unfold pobs_of. destruct (last_resp tr) as [s l]. cbn. auto. Qed.

(* what the specification expects of a text that fails authentication is what the table AEAD
   answers: the expectation is read off the shape, and a well-formed envelope that opens is sealed *)
Lemma expected_label_refused refs s t l :
  expected_auth_label refs s t = Some l ->
  exists f, open_token N (tbl_open (table_of refs)) true 0 s t = inl f /\ label_of s f = l.
Proof.
  unfold expected_auth_label. intro H.
  destruct (open_token_authenticated N (tbl_open (table_of refs)) true 0 s t) as [f Hf Ha|body p Hs Ho _].
  - exists f. split; [exact Hf|]. rewrite (open_token_fail_label _ _ _ _ _ _ _ Hf Ha).
    destruct (shape_of true s t); [| |destruct (sealed_text refs s t)]; now inversion H.
  - rewrite Hs, (tbl_opened_was_sealed _ _ _ _ _ Hs Ho) in H. discriminate.
Qed.

Lemma pres_ok_model refs cold c q bid :
  pres_ok refs cold (q_cursor q) (q_call q)
          (pobs_of (fst (handle N (tbl_open (table_of refs)) true 0 cold c q)) bid) = true.
Proof.
  set (tb := table_of refs). unfold pres_ok. apply andb_true_intro. split.
  - pose proof (handle_cases N (tbl_open tb) true 0 cold c q) as Hc0.
    destruct (handle N (tbl_open tb) true 0 cold c q) as [tr c']. cbn [fst] in *.
    destruct (pobs_of_fields tr bid) as (Hl & _ & Hst & He & Ha).
    destruct Hc0 as [tc cid r0 _ Hr _ Hq Ho Hc|l Hr Hne Hf]; rewrite Ha, Hst, Hl, He, Hr; cbn [fst snd].
    + rewrite Hq. cbn. rewrite (tbl_accepted_sealed _ _ _ _ Ho). destruct cold; [|reflexivity].
      destruct Hc as [[Hc _]|(tk & Hk & Ho2 & _)]; [discriminate|].
      rewrite Hk. exact (tbl_accepted_sealed _ _ _ _ Ho2).
    + rewrite Hf. destruct l; try reflexivity. congruence.
  - destruct (q_cursor q) as [tc|] eqn:Eq; [|reflexivity].
    destruct (expected_auth_label refs SCursor tc) as [l|] eqn:Ex; [|reflexivity].
    destruct (expected_label_refused _ _ _ _ Ex) as (f & Hf & <-).
    rewrite (cursor_failure_response _ _ _ _ _ _ _ _ _ Eq Hf). cbn. apply label_eqb_refl.
Qed.

Lemma spec_run_model refs rt cold cn : forall ps c bm,
  spec_run refs cold bm ps (run true (table_of refs) refs rt cold cn c bm ps) = true.
Proof.
  induction ps as [|[mc mk] ps IH]; intros c bm; [reflexivity|].
  cbn [run].
  set (q := {| q_route := rt; q_cursor := present refs mc; q_call := present refs mk; q_cancel := cn |}).
  pose proof (pres_ok_model refs cold c q) as Hp.
  destruct (handle N (tbl_open (table_of refs)) true 0 cold c q) as [tr c'] eqn:Eh.
  cbn [fst] in Hp.
  destruct (body_id bm (snd (last_resp tr))) as [bid bm'] eqn:Eb.
  cbn [spec_run].
  destruct (pobs_of_fields tr bid) as (Hl & Hb & _).
  rewrite Hl, Eb, Hb, N.eqb_refl. specialize (Hp bid). cbn [q_cursor q_call q] in Hp. rewrite Hp.
  cbn [andb]. apply IH.
Qed.

(* before fix 99fee40 several texts were accepted for one envelope *)
Definition legacy_raw : bytes := Z.to_N tokver_cursor :: repeat 7 42.   (* 43 bytes: two padding characters *)
Definition legacy_input (m : mut) : input :=
  {| i_route := RProd; i_cold := false; i_cancel := false;
     i_refs := [{| r_text := b64enc legacy_raw; r_key := 0; r_slot := SCursor; r_pay := PCursor false 0 |}];
     i_warm := [(0, RProd)]; i_fams := [FOne m MNone] |}.

(* text position 57 holds the four slack bits of a 43-byte envelope *)
Lemma legacy_slack_flip :
  nth 57 (b64enc legacy_raw) 0 = 119 /\ nth 58 (b64enc legacy_raw) 0 = pad
  /\ spec_ok (legacy_input (MFlip 0 57 6)) (model_legacy (legacy_input (MFlip 0 57 6))) = false
  /\ map o_acc (model_legacy (legacy_input (MFlip 0 57 6))) = [true]
  /\ map o_acc (model (legacy_input (MFlip 0 57 6))) = [false]
  /\ map o_acc (model (legacy_input (MId 0))) = [true].
Proof. repeat split; vm_compute; reflexivity. Qed.

(* a symbolic AEAD satisfying the premises (non-vacuity) *)
Definition pay_code (p : payload) : bytes :=
  match p with
  | PEmpty => [0] | PBadTag => [1] | PBadZstd => [2] | PBadGob => [3]
  | PCursor e c => [4; if e then 1 else 0; c]
  | PCall e c m => [5; if e then 1 else 0; c; match m with RProd => 0 | RExch => 1 end]
  end.
Definition pay_decode (b : bytes) : option payload :=
  match b with
  | [0] => Some PEmpty | [1] => Some PBadTag | [2] => Some PBadZstd | [3] => Some PBadGob
  | [4; e; c] => Some (PCursor (e =? 1) c)
  | [5; e; c; m] => Some (PCall (e =? 1) c (if m =? 0 then RProd else RExch))
  | _ => None
  end.
(* 40 zero bytes stand for nonce and tag; then key, nonce, |aad|, aad, plaintext in clear *)
Definition sym_sealx (k n : N) (a : bytes) (p : payload) : bytes :=
  repeat 0 40 ++ k :: n :: N.of_nat (length a) :: a ++ pay_code p.
Definition sym_openx (k : N) (a c : bytes) : option payload :=
  match nth_error c 41 with
  | Some n => match pay_decode (skipn (43 + length a) c) with
              | Some p => if beqb c (sym_sealx k n a p) then Some p else None
              | None => None
              end
  | None => None
  end.

Lemma sym_int_ctxt k a c p : sym_openx k a c = Some p -> exists n, c = sym_sealx k n a p.
Proof.
  unfold sym_openx. destruct (nth_error c 41) as [n|]; [|discriminate].
  destruct (pay_decode _) as [p'|]; [|discriminate].
  destruct (beqb c (sym_sealx k n a p')) eqn:E; [|discriminate].
  intro H; inversion H; subst. apply beqb_eq in E. eauto.
Qed.

Lemma sym_binds k1 k2 n a1 a2 p p' :
  sym_openx k2 a2 (sym_sealx k1 n a1 p) = Some p' -> k2 = k1 /\ a2 = a1.
Proof.
  intro H. destruct (sym_int_ctxt _ _ _ _ H) as [n' E]. unfold sym_sealx in E.
  apply app_inv_head in E. inversion E as [[Hk Hn Hl Ha]]. split; [now symmetry|].
  apply Nat2N.inj in Hl. symmetry. exact (proj1 (app_eq_len _ _ _ _ Ha Hl)).
Qed.

Lemma sym_correct_example :
  sym_openx 7 (aad_of SCursor) (sym_sealx 7 3 (aad_of SCursor) (PCursor false 9)) = Some (PCursor false 9)
  /\ sym_openx 8 (aad_of SCursor) (sym_sealx 7 3 (aad_of SCursor) (PCursor false 9)) = None
  /\ sym_openx 7 (aad_of SCall) (sym_sealx 7 3 (aad_of SCursor) (PCursor false 9)) = None.
Proof. repeat split; vm_compute; reflexivity. Qed.
