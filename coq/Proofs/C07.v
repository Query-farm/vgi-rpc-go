(* Proofs/C07.v — parameter binding.  [schema_eqb] decides equality, so behind the gate the
   sent schema IS the declared one; then the by-name field loop resolves every column at its
   own ordinal ([bind_loop_positional]) and [deserialize] is a case split on the payload
   ([deserialize_eq]). *)
From VR Require Import Model.C07.
Open Scope N_scope.

Lemma tunit_eqb_eq a b : tunit_eqb a b = true <-> a = b.
Proof. destruct a, b; cbn; intuition congruence. Qed.
Lemma iw_eqb_eq a b : iw_eqb a b = true <-> a = b.
Proof. destruct a, b; cbn; intuition congruence. Qed.
Lemma fw_eqb_eq a b : fw_eqb a b = true <-> a = b.
Proof. destruct a, b; cbn; intuition congruence. Qed.

Lemma meta_eqb_eq a b : meta_eqb a b = true <-> a = b.
Proof. apply list_eqb_eq, pair_eqb_eq; apply beqb_eq. Qed.

(* each equality test of the type language, read as the equality it decides;
   used as one top-down pass ([rewrite_strat]); [autorewrite] does the same, about twice
   as slowly *)
Local Hint Rewrite andb_true_iff Bool.eqb_true_iff iw_eqb_eq fw_eqb_eq tunit_eqb_eq N.eqb_eq Z.eqb_eq
  beqb_eq meta_eqb_eq : eqb_iff.

(* unlike constructors: the test is false and the terms differ; like ones: the
   test is a conjunction of component tests, and constructors are injective *)
Lemma prim_eqb_eq a b : prim_eqb a b = true <-> a = b.
Proof.
  split.
  - destruct a, b; cbn [prim_eqb]; try discriminate;
      try (rewrite_strat (topdown (hints eqb_iff))); intuition congruence.
  - intros <-. destruct a; cbn [prim_eqb]; try (rewrite_strat (topdown (hints eqb_iff))); intuition congruence.
Qed.

Scheme ty_mut := Induction for ty Sort Prop
  with fields_mut := Induction for fields Sort Prop.
Combined Scheme ty_fields_ind from ty_mut, fields_mut.

Lemma ty_fields_eqb_eq :
  (forall a b, ty_eqb a b = true <-> a = b) /\ (forall a b, fields_eqb a b = true <-> a = b).
Proof.
  apply ty_fields_ind;
    [ intros p | intros i IH1 v IH2 o | intros e IH1 n m | intros k IH1 v IH2 n | intros fs IH1
    | | intros n t IH1 u m r IH2 ];
    intro b; destruct b; cbn [ty_eqb fields_eqb]; try (split; discriminate);
    try (rewrite_strat (topdown (hints eqb_iff))); rewrite ?prim_eqb_eq, ?IH1, ?IH2; intuition congruence.
Qed.

Lemma schema_eqb_eq a b : schema_eqb a b = true <-> a = b.
Proof. apply ty_fields_eqb_eq. Qed.

Lemma schema_eqb_refl a : schema_eqb a a = true.
Proof. now apply schema_eqb_eq. Qed.

Lemma derive_names ds declared : derive ds = Some declared -> fnames declared = map d_name ds.
Proof.
  revert declared; induction ds as [|d r IH]; intros declared H; cbn in H.
  - inversion H; reflexivity.
  - destruct (derive_ty (d_go d) (d_over d)); [|discriminate]. destruct (derive r); [|discriminate].
    inversion H; subst; cbn. f_equal. now apply IH.
Qed.

Lemma fnames_len f : length (fnames f) = flen f.
Proof. induction f; cbn; congruence. Qed.

Lemma ftypes_len f : length (ftypes f) = flen f.
Proof. induction f; cbn; congruence. Qed.

Lemma derive_len ds declared : derive ds = Some declared -> flen declared = length ds.
Proof. intro H. rewrite <- fnames_len, (derive_names _ _ H). apply map_length. Qed.

(* the field loop when column j is field j *)
Fixpoint bind_zip (ad : cfg) (ds : list dfield) (ts : list ty) (vs : list val)
  : outcome * list val :=
  match ds with
  | [] => (Ran, [])
  | d :: r =>
      match bind_field ad d (hd (TPrim PNull) ts) (hd VNull vs) with
      | BErr => (TypeErr, [])
      | BCrash => (Crash, [])
      | BOk x => match bind_zip ad r (tl ts) (tl vs) with
                 | (Ran, xs) => (Ran, x :: xs)
                 | other => other
                 end
      end
  end.

Lemma nth_hd_skipn {A} (l : list A) n d : nth n l d = hd d (skipn n l).
Proof. revert l; induction n as [|n IH]; intros [|x l]; cbn; try reflexivity. apply IH. Qed.
Lemma skipn_S_tl {A} (l : list A) n : skipn (S n) l = tl (skipn n l).
Proof. revert l; induction n as [|n IH]; intros [|x l]; try reflexivity. exact (IH l). Qed.
Lemma nth_error_hd_skipn {A} (l : list A) n x r : skipn n l = x :: r -> nth_error l n = Some x.
Proof.
  revert l; induction n as [|n IH]; intros [|y l] H; cbn in *; try discriminate.
  - now inversion H.
  - now apply IH.
Qed.

(* resolveColumn takes the ordinal fast path whenever the name at that ordinal matches *)
Lemma resolve_positional names ord name :
  nth_error names ord = Some name -> resolve names ord name = Some ord.
Proof. intro H. unfold resolve. rewrite H, beqb_refl. reflexivity. Qed.

Lemma bind_loop_positional c ds : forall ord names tys vs,
  skipn ord names = map d_name ds ->
  bind_loop c ds ord names tys vs = bind_zip c ds (skipn ord tys) (skipn ord vs).
Proof.
  induction ds as [|d r IH]; intros ord names tys vs H; [reflexivity|].
  cbn [bind_loop bind_zip]. cbn [map] in H.
  rewrite (resolve_positional names ord (d_name d)) by (eapply nth_error_hd_skipn; exact H).
  rewrite <- !nth_hd_skipn.
  destruct (bind_field c d (nth ord tys (TPrim PNull)) (nth ord vs VNull)); try reflexivity.
  rewrite IH by (rewrite skipn_S_tl, H; reflexivity).
  rewrite !skipn_S_tl. reflexivity.
Qed.

Lemma bind_zip_ran c ds : forall ts vs xs,
  bind_zip c ds ts vs = (Ran, xs) ->
  length xs = length ds /\
  forall j d, nth_error ds j = Some d ->
    exists x, nth_error xs j = Some x /\
              bind_field c d (nth j ts (TPrim PNull)) (nth j vs VNull) = BOk x.
Proof.
  induction ds as [|d r IH]; intros ts vs xs H; cbn [bind_zip] in H.
  - inversion H; subst. split; [reflexivity|]. intros [|j] d' E; discriminate.
  - destruct (bind_field c d (hd (TPrim PNull) ts) (hd VNull vs)) as [x| |] eqn:Ef; try discriminate.
    destruct (bind_zip c r (tl ts) (tl vs)) as [[| |] ys] eqn:Er; try discriminate.
    inversion H; subst. destruct (IH _ _ _ Er) as [Hl Hc]. split; [cbn; congruence|].
    intros [|j] d' E; cbn in E.
    + inversion E; subst. exists x. split; [reflexivity|].
      destruct ts, vs; exact Ef.
    + destruct (Hc j d' E) as [y [Hy Hb]]. exists y. split; [exact Hy|].
      destruct ts, vs; cbn in *; try exact Hb; destruct j; exact Hb.
Qed.

Lemma bind_zip_outcome_trace ad ds ts vs :
  (fst (bind_zip ad ds ts vs) = Ran \/ snd (bind_zip ad ds ts vs) = []).
Proof.
  revert ts vs; induction ds as [|d r IH]; intros ts vs; cbn [bind_zip]; [left; reflexivity|].
  destruct (bind_field ad d (hd (TPrim PNull) ts) (hd VNull vs)); try (right; reflexivity).
  destruct (IH (tl ts) (tl vs)) as [E|E]; destruct (bind_zip ad r (tl ts) (tl vs)) as [[| |] ys];
    cbn in *; auto; discriminate.
Qed.

Lemma deserialize_eq c ds declared b :
  derive ds = Some declared ->
  deserialize c ds declared b =
    match unwrap b with
    | EErr => (Crash, [])
    | EBatch fs vs => if schema_eqb fs declared then bind_zip c ds (ftypes declared) vs else (TypeErr, [])
    end.
Proof.
  intro Hd. unfold deserialize. destruct (unwrap b) as [|fs vs]; [reflexivity|].
  destruct (schema_eqb fs declared) eqn:E; [|reflexivity]. apply schema_eqb_eq in E as ->.
  apply bind_loop_positional, derive_names, Hd.
Qed.

Lemma model_with_obs c i declared :
  derive (i_decl i) = Some declared ->
  o_reg (model_with c i) = true /\ o_declared (model_with c i) = declared
  /\ o_outcome (model_with c i) = fst (deserialize c (i_decl i) declared (i_sent i))
  /\ o_trace (model_with c i) =
       match fst (deserialize c (i_decl i) declared (i_sent i)) with
       | Ran => [snd (deserialize c (i_decl i) declared (i_sent i))]
       | _ => []
       end.
Proof.
  intro Hd. unfold model_with. rewrite Hd.
  destruct (deserialize c (i_decl i) declared (i_sent i)) as [[| |] xs]; repeat split.
Qed.

Definition cells_bind (ad : cfg) (ds : list dfield) (ts : list ty) (vs : list val) : Prop :=
  fst (bind_zip ad ds ts vs) = Ran.

Lemma runs_iff c i declared :
  derive (i_decl i) = Some declared ->
  (o_outcome (model_with c i) = Ran <->
   exists vs, unwrap (i_sent i) = EBatch declared vs /\ cells_bind c (i_decl i) (ftypes declared) vs).
Proof.
  intro Hd. destruct (model_with_obs c i declared Hd) as (_ & _ & -> & _).
  rewrite (deserialize_eq _ _ _ _ Hd). unfold cells_bind. split.
  - destruct (unwrap (i_sent i)) as [|fs vs]; [discriminate|].
    destruct (schema_eqb fs declared) eqn:E; [|discriminate]. apply schema_eqb_eq in E as ->. eauto.
  - intros (vs & -> & Hc). now rewrite schema_eqb_refl.
Qed.

Lemma conv_prim_defined_indep k p v v' :
  (exists x, conv_prim k p v = Some x) -> exists x', conv_prim k p v' = Some x'.
Proof.
  (* only conv_prim is unfolded: a plain cbn would evaluate wrap's 2 ^ 64 in every case *)
  intros [x H]. destruct p as [| |s w|[| |]| | | | |n| | |u z|u|u|u|pp ss]; cbn [conv_prim] in *;
    try discriminate H.
  2: destruct (kind_int k) as [[sg b]|]; [eauto | discriminate H].
  all: destruct k; try discriminate H; eauto.
Qed.

Lemma bind_field_expect d t v :
  bind_field current d t v =
    match expect_field d t v with
    | Some x => BOk x
    | None => if is_null v then BErr else BCrash
    end.
Proof.
  unfold expect_field, bind_field. cbn [current cfg_default cfg_ptrmap].
  unfold apply_default, conv_field. cbn [negb]. rewrite andb_false_r.
  destruct (is_null v); [destruct (d_default d)|]; reflexivity.
Qed.

Lemma expect_field_some d t v x :
  expect_field d t v = Some x ->
  (is_null v = false -> conv (d_go d) t v = Some x) /\
  (is_null v = true -> forall s, d_default d = Some s -> default_literal (d_go d) s = Some x) /\
  (is_null v = true -> d_default d = None -> x = zero_of d).
Proof.
  unfold expect_field. destruct (is_null v); [destruct (d_default d)|];
    intro H; repeat split; try discriminate; intros; congruence.
Qed.

Lemma bind_zip_vs_expect ds : forall ts vs,
  length ts = length ds -> length vs = length ds ->
  match expect_all (zip3 ds ts vs) with
  | Some xs => bind_zip current ds ts vs = (Ran, xs)
  | None => fst (bind_zip current ds ts vs) <> Ran /\ snd (bind_zip current ds ts vs) = []
  end.
Proof.
  induction ds as [|d r IH]; intros [|t ts] [|v vs] Ht Hv; try discriminate; [reflexivity|].
  cbn [zip3 expect_all bind_zip hd tl]. rewrite bind_field_expect.
  specialize (IH ts vs ltac:(cbn in Ht; lia) ltac:(cbn in Hv; lia)).
  destruct (expect_field d t v) as [x|]; [|destruct (is_null v); cbn; (split; [discriminate | reflexivity])].
  destruct (expect_all (zip3 r ts vs)) as [xs|]; [now rewrite IH|].
  destruct (bind_zip current r ts vs) as [[| |] ys]; cbn in *; intuition discriminate.
Qed.

Lemma val_eqb_refl : forall v, val_eqb v v = true.
Proof.
  fix IH 1. intros [|z|b|s|l|i d]; cbn [val_eqb];
    rewrite ?Z.eqb_refl, ?beqb_refl, ?(list_eqb_refl _ beqb_refl); try reflexivity.
  - apply Bool.eqb_reflx.
  - induction l as [|a l IHl]; [reflexivity|]. now rewrite IH, IHl.
Qed.

Definition df (n : bytes) (g : gty) (ptr nl : bool) (dflt : option bytes) : dfield :=
  {| d_name := n; d_go := g; d_ptr := ptr; d_over := ONone; d_nullable := nl; d_default := dflt |}.

(* struct{A *string `vgirpc:"a,default=dd"`} with a: utf8 nullable = [null] *)
Definition w_ptr_default : input :=
  {| i_decl := [df (str "a") (GLeaf KString) true false (Some (str "dd"))];
     i_sent := Plain (FCons (str "a") (TPrim PUtf8) true [] FNil) [VNull] |}.
(* struct{A int32 `vgirpc:"a,nullable,default=5"`} with a: int32 nullable = [null] *)
Definition w_int32_default : input :=
  {| i_decl := [df (str "a") (GLeaf KInt32) false true (Some (str "5"))];
     i_sent := Plain (FCons (str "a") (TPrim (PInt true W32)) true [] FNil) [VNull] |}.
(* struct{V *map[string]float64 `vgirpc:"v"`} with v: map<utf8,float64> nullable = [{}] *)
Definition w_ptr_map : input :=
  {| i_decl := [df (str "v") (GMap KString KFloat64) true false None];
     i_sent := Plain (FCons (str "v") (TMap (TPrim PUtf8) (TPrim (PFloat F64)) true) true [] FNil) [VL []] |}.

(* before c81cf36: a null with a declared default did not yield the default
   for a pointer field (the setter panicked) nor for a sized numeric field
   (refused); the repaired code yields it in both cases *)
Lemma legacy_defaults_refuted :
  (spec_ok w_ptr_default (model_legacy_defaults w_ptr_default) = false /\
   o_outcome (model_legacy_defaults w_ptr_default) = Crash /\ o_trace (model w_ptr_default) = [[VS (str "dd")]]) /\
  (spec_ok w_int32_default (model_legacy_defaults w_int32_default) = false /\
   o_outcome (model_legacy_defaults w_int32_default) = TypeErr /\ o_trace (model w_int32_default) = [[VI 5]]).
Proof. vm_compute. repeat split; reflexivity. Qed.

(* before 099ce14: an equal schema with a non-null pointer-to-map cell was
   refused; the repaired code runs the handler with the (empty) map *)
Lemma legacy_ptr_map_refuted :
  spec_ok w_ptr_map (model_legacy_ptrmap w_ptr_map) = false /\
  o_outcome (model_legacy_ptrmap w_ptr_map) = Crash /\
  o_outcome (model w_ptr_map) = Ran /\ o_trace (model w_ptr_map) = [[VL []]].
Proof. vm_compute. repeat split; reflexivity. Qed.
