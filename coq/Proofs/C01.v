(* Proofs/C01.v — lemmas for Props/C01.v. Each reader is given by equations on the forms of
   input the theorems speak of. FindStreamTokens: the walk over concatenated streams is the scan
   of the batches it can reach ([find_loop_flat]), and a scan is first cursor token, first call
   token up to it ([scan_spec]); what [scan_app] says of a prefix without cursor recovers a
   stamped token. FindProtocolVersion: [fpv_spec]. ReadUnaryResult: the first batch that is not
   a log decides ([rur_spec]), hence its value behind a run of logs ([read_unary_logs]) and on
   the envelope WriteUnaryResult frames ([read_unary_envelope]). ReadRequest on what
   WriteRequest framed is one equation ([read_request_written]); the accepting and the two
   rejecting theorems are its branches. The byte-level loop over a codec oracle is reduced to
   [find_loop]. *)
From VR Require Import Model.C01.
Open Scope N_scope.

Lemma or_first_none_r {A} (a : option A) : or_first a None = a.
Proof. now destruct a. Qed.
Lemma or_first_assoc {A} (a b c : option A) :
  or_first (or_first a b) c = or_first a (or_first b c).
Proof. now destruct a. Qed.

Lemma first_some_cons_none {A B} (f : A -> option B) x l :
  first_some f (x :: l) = None -> f x = None /\ first_some f l = None.
Proof. cbn [first_some]. destruct (f x); cbn; [discriminate | auto]. Qed.

Lemma upto_none l : first_some cursor_of l = None -> upto_cursor l = l.
Proof.
  induction l as [|b l IH]; intro H; [reflexivity|].
  apply first_some_cons_none in H as [Hb Hl].
  cbn [upto_cursor]. rewrite Hb. now rewrite IH.
Qed.

Lemma scan_spec bs : forall call,
  scan_batches bs call =
  (first_some cursor_of bs, or_first call (first_some call_of (upto_cursor bs))).
Proof.
  induction bs as [|b t IH]; intro call; cbn [scan_batches first_some upto_cursor].
  - now rewrite or_first_none_r.
  - destruct (cursor_of b) as [tok|] eqn:Hc; cbn [or_first first_some].
    + now rewrite or_first_none_r.
    + now rewrite IH, or_first_assoc.
Qed.

Definition broken (t : term) : bool := match t with TBroken => true | _ => false end.

(* what the walk goes on to after a stream that ended in [t] *)
Definition after (t : term) (rest : body) : body := match t with TEos => rest | _ => [] end.

Lemma reach_stream sc bs t rest :
  reach (Stream sc bs t :: rest) = if broken t then [] else bs ++ reach (after t rest).
Proof. destruct t; cbn [reach broken after]; now rewrite ?app_nil_r. Qed.

Lemma find_loop_stream sc bs t rest call :
  find_loop (Stream sc bs t :: rest) call =
  if broken t then (None, call) else
  let '(st, c) := scan_batches bs None in
  match st with Some _ => (st, or_first call c) | None => find_loop (after t rest) (or_first call c) end.
Proof. destruct t; reflexivity. Qed.

Lemma scan_app l1 l2 : forall call,
  scan_batches (l1 ++ l2) call =
  let '(st, c) := scan_batches l1 call in match st with Some _ => (st, c) | None => scan_batches l2 c end.
Proof.
  induction l1 as [|b l1 IH]; intro call; [reflexivity|]. cbn [app scan_batches].
  destruct (cursor_of b); [reflexivity | apply IH].
Qed.

Lemma find_loop_flat bd : forall call, find_loop bd call = scan_batches (reach bd) call.
Proof.
  induction bd as [|[sc bs t|] rest IH]; intro call; try reflexivity.
  rewrite find_loop_stream, reach_stream. destruct (broken t); [reflexivity|].
  rewrite scan_app, (scan_spec bs call), (scan_spec bs None). cbn [or_first].
  destruct (first_some cursor_of bs); [reflexivity|]. destruct t; (apply IH || reflexivity).
Qed.

Lemma find_tokens_exact bd : find_stream_tokens bd = spec_tokens bd.
Proof. unfold find_stream_tokens, spec_tokens. now rewrite find_loop_flat, scan_spec. Qed.

Definition clean (pre : body) : bool :=
  forallb (fun g => match g with Stream _ _ TEos => true | _ => false end) pre.

Lemma reach_app pre rest : clean pre = true -> reach (pre ++ rest) = reach pre ++ reach rest.
Proof.
  induction pre as [|g pre IH]; intro H; [reflexivity|].
  cbn [clean forallb] in H. apply andb_true_iff in H as [Hg Hp].
  destruct g as [sc bs t|]; [|discriminate]. destruct t; try discriminate.
  cbn [app reach]. now rewrite (IH Hp), app_assoc.
Qed.

Lemma ne_state_call : beqb k_stream_state k_call_state = false.
Proof. reflexivity. Qed.

Lemma cursor_of_token sc tok call : tok <> [] -> cursor_of (token_batch sc tok call) = Some tok.
Proof.
  intro H. unfold cursor_of, get_ne, token_batch. cbn [b_meta get].
  rewrite beqb_refl. destruct tok; [contradiction | reflexivity].
Qed.

Lemma call_of_token sc tok call :
  call_of (token_batch sc tok call) = match call with [] => None | _ => Some call end.
Proof.
  unfold call_of, get_ne, token_batch. cbn [b_meta]. destruct call as [|c call].
  - cbn [get]. now rewrite ne_state_call.
  - cbn [get]. now rewrite ne_state_call, beqb_refl.
Qed.

Lemma fpv_spec bs : fpv_batches bs = dflt (first_some pv_of bs).
Proof.
  induction bs as [|b t IH]; [reflexivity|]. cbn [fpv_batches first_some].
  destruct (pv_of b); cbn [or_first dflt]; [reflexivity | exact IH].
Qed.

Lemma get_method_req m v : get k_method (req_meta m v) = Some m.
Proof. reflexivity. Qed.
Lemma get_reqver_req m v : get k_request_version (req_meta m v) = Some wire_version.
Proof. reflexivity. Qed.
Lemma get_pv_req m v :
  get k_protocol_version (req_meta m v) = match v with [] => None | _ => Some v end.
Proof. destruct v; reflexivity. Qed.
Lemma get_reqid_req m v : get k_request_id (req_meta m v) = None.
Proof. destruct v; reflexivity. Qed.
Lemma get_loglevel_req m v : get k_log_level (req_meta m v) = None.
Proof. destruct v; reflexivity. Qed.
Lemma get_location_req m v : get k_location (req_meta m v) = None.
Proof. destruct v; reflexivity. Qed.
Lemma get_shm_req m v : get k_shm_offset (req_meta m v) = None.
Proof. destruct v; reflexivity. Qed.
Lemma map_view_req m v : map_view (req_meta m v) = req_meta m v.
Proof. destruct v; reflexivity. Qed.

Lemma find_pv_write_request m sc rows cols v rest :
  find_protocol_version (write_request m sc rows cols v :: rest) = v.
Proof.
  unfold find_protocol_version, write_request. cbn [fpv_batches].
  unfold pv_of, get_ne. cbn [b_meta]. rewrite get_pv_req. now destruct v.
Qed.

Definition accepted (m : bytes) (sc : schema) (rows : N) (cols : list column) (v : bytes) : request :=
  {| q_method := m; q_version := wire_version; q_request_id := []; q_log_level := [];
     q_schema := sc; q_rows := rows; q_cols := cols; q_meta := req_meta m v |}.

Lemma nofields_nil sc : nofields sc = true -> sc = [].
Proof. now destruct sc. Qed.

Lemma row_rule_req m sc rows cols v :
  row_rule_violated sc {| b_rows := rows; b_meta := req_meta m v; b_cols := cols |}
  = negb (nofields sc) && negb (rows =? 1).
Proof.
  unfold row_rule_violated, is_shm_pointer, has. cbn [b_rows b_meta].
  rewrite get_location_req, get_shm_req. cbn [negb]. now rewrite andb_false_r, !andb_true_r.
Qed.

Lemma read_request_written m sc rows cols v rest :
  read_request (write_request m sc rows cols v :: rest) =
  if utf8_valid m then
    if nofields sc || (rows =? 1) then Acc (accepted m sc rows cols v) else Rej RsRowCount
  else Rej RsBadUtf8.
Proof.
  unfold write_request. cbn [read_request]. unfold validate. cbn [b_meta].
  rewrite get_method_req, get_reqver_req, beqb_refl, row_rule_req, <- negb_orb.
  destruct (utf8_valid m); [|reflexivity]. destruct (nofields sc || (rows =? 1)); [|reflexivity].
  unfold mk_request, accepted. cbn [negb b_meta b_rows b_cols].
  now rewrite get_reqid_req, get_loglevel_req, map_view_req.
Qed.

Lemma read_write_request m sc rows cols v rest :
  utf8_valid m = true -> (sc = [] \/ rows = 1) ->
  read_request (write_request m sc rows cols v :: rest) = Acc (accepted m sc rows cols v).
Proof.
  intros Hu Hr. rewrite read_request_written, Hu.
  now destruct Hr as [-> | ->]; [|rewrite N.eqb_refl, orb_true_r].
Qed.

Lemma row_rule_false sc b :
  row_rule_violated sc b = false <->
  (sc = [] \/ b_rows b = 1 \/ has k_location (b_meta b) = true \/ is_shm_pointer b = true).
Proof.
  unfold row_rule_violated. split.
  - intro H. destruct sc; [now left|]. cbn [nofields negb andb] in H.
    destruct (b_rows b =? 1) eqn:E1; [right; left; now apply N.eqb_eq|].
    destruct (has k_location (b_meta b)); [right; right; now left|].
    destruct (is_shm_pointer b); [now repeat right | discriminate].
  - intros [-> | [H | [H | H]]]; [reflexivity | | |].
    + rewrite H, N.eqb_refl. cbn. now rewrite andb_false_r.
    + rewrite H. cbn. now rewrite andb_false_r.
    + rewrite H. cbn. now rewrite !andb_false_r.
Qed.

Lemma validate_accepts_iff sc b q :
  validate sc b = Acc q <->
  exists meth, get k_method (b_meta b) = Some meth /\ utf8_valid meth = true
    /\ get k_request_version (b_meta b) = Some wire_version
    /\ (sc = [] \/ b_rows b = 1 \/ has k_location (b_meta b) = true \/ is_shm_pointer b = true)
    /\ q = mk_request sc b meth wire_version.
Proof.
  unfold validate. split.
  - destruct (get k_method (b_meta b)) as [meth|]; [|discriminate].
    destruct (utf8_valid meth) eqn:Hu; [|discriminate]. cbn [negb].
    destruct (get k_request_version (b_meta b)) as [ver|]; [|discriminate].
    destruct (beqb ver wire_version) eqn:Hv; [|discriminate]. cbn [negb].
    apply beqb_eq in Hv. subst ver.
    destruct (row_rule_violated sc b) eqn:Hr; [discriminate|].
    intro H. inversion H. exists meth. repeat split; try reflexivity; try assumption.
    now apply row_rule_false.
  - intros (meth & Hm & Hu & Hv & Hr & ->). rewrite Hm, Hu, Hv, beqb_refl. cbn [negb].
    apply row_rule_false in Hr. now rewrite Hr.
Qed.

Lemma validate_errors sc b :
  let m := b_meta b in
  (get k_method m = None -> validate sc b = Rej RsNoMethod)
  /\ (forall meth, get k_method m = Some meth -> utf8_valid meth = false ->
        validate sc b = Rej RsBadUtf8)
  /\ (forall meth, get k_method m = Some meth -> utf8_valid meth = true ->
        get k_request_version m = None -> validate sc b = Rej RsNoVersion)
  /\ (forall meth ver, get k_method m = Some meth -> utf8_valid meth = true ->
        get k_request_version m = Some ver -> ver <> wire_version ->
        validate sc b = Rej RsWrongVersion)
  /\ (forall meth, get k_method m = Some meth -> utf8_valid meth = true ->
        get k_request_version m = Some wire_version -> row_rule_violated sc b = true ->
        validate sc b = Rej RsRowCount).
Proof.
  cbn zeta. unfold validate. repeat split.
  - now intros ->.
  - now intros meth -> ->.
  - now intros meth -> -> ->.
  - intros meth ver -> -> -> Hne. cbn [negb]. apply beqb_neq in Hne. now rewrite Hne.
  - intros meth -> -> -> ->. cbn [negb]. now rewrite beqb_refl.
Qed.

Lemma rur_spec sc bs :
  rur_batches sc bs =
  match drop_logs bs with
  | b :: _ => if b_rows b =? 0 then None else decide_result sc b
  | [] => None
  end.
Proof.
  induction bs as [|b t IH]; [reflexivity|]. cbn [rur_batches drop_logs]. unfold is_log.
  replace (0 <? b_rows b) with (negb (b_rows b =? 0)) by now destruct (b_rows b).
  destruct (b_rows b =? 0) eqn:E; cbn [negb andb]; [|now rewrite E].
  destruct (log_level_skippable b); [exact IH | now rewrite E].
Qed.

Lemma read_unary_exact bd : read_unary_result bd = spec_ur bd.
Proof.
  unfold read_unary_result, spec_ur, first_stream.
  destruct bd as [|[sc bs t|] rest]; try reflexivity. destruct t; try reflexivity; apply rur_spec.
Qed.

Lemma drop_logs_app logs l : forallb is_log logs = true -> drop_logs (logs ++ l) = drop_logs l.
Proof.
  induction logs as [|b logs IH]; intro H; [reflexivity|].
  cbn [forallb] in H. apply andb_true_iff in H as [Hb Hl].
  cbn [app drop_logs]. rewrite Hb. now apply IH.
Qed.

Lemma read_unary_stream sc bs t rest :
  read_unary_result (Stream sc bs t :: rest) = if broken t then None else rur_batches sc bs.
Proof. now destruct t. Qed.

Lemma read_unary_logs sc logs l t rest : forallb is_log logs = true ->
  read_unary_result (Stream sc (logs ++ l) t :: rest) = if broken t then None else rur_batches sc l.
Proof. intro H. now rewrite read_unary_stream, !rur_spec, drop_logs_app. Qed.

Lemma rur_rows sc b more : b_rows b <> 0 -> rur_batches sc (b :: more) = decide_result sc b.
Proof. intro H. cbn [rur_batches]. now replace (0 <? b_rows b) with true by (symmetry; apply N.ltb_lt; lia). Qed.

Lemma rur_zero_not_log sc b more :
  b_rows b = 0 -> log_level_skippable b = false -> rur_batches sc (b :: more) = None.
Proof. intros Hr Hs. cbn [rur_batches]. now rewrite Hr, Hs. Qed.

Lemma unary_skips_logs sc logs b more t rest :
  t <> TBroken -> forallb is_log logs = true -> b_rows b <> 0 ->
  read_unary_result (Stream sc (logs ++ b :: more) t :: rest) = decide_result sc b.
Proof.
  intros Ht Hl Hr. rewrite (read_unary_logs _ _ _ _ _ Hl), (rur_rows _ _ _ Hr). now destruct t.
Qed.

Lemma unary_none_after_logs sc logs l t rest :
  forallb is_log logs = true -> rur_batches sc l = None ->
  read_unary_result (Stream sc (logs ++ l) t :: rest) = None.
Proof. intros Hl E. rewrite (read_unary_logs _ _ _ _ _ Hl), E. now destruct (broken t). Qed.

Lemma exception_not_skippable b :
  get k_log_level (b_meta b) = Some level_exception -> log_level_skippable b = false.
Proof. intro H. unfold log_level_skippable. now rewrite H, beqb_refl. Qed.

Lemma no_level_not_skippable b :
  get k_log_level (b_meta b) = None -> log_level_skippable b = false.
Proof. intro H. unfold log_level_skippable. now rewrite H. Qed.

Lemma decide_no_result_field sc b : field_index f_result sc = None -> decide_result sc b = None.
Proof. intro H. unfold decide_result. now rewrite H. Qed.

Lemma decide_not_binary sc b i n ty :
  field_index f_result sc = Some i -> nth_error sc i = Some (n, ty) -> ty <> TBinary ->
  decide_result sc b = None.
Proof.
  intros Hi Hn Ht. unfold decide_result. rewrite Hi, Hn.
  destruct ty; try reflexivity. contradiction.
Qed.

Lemma decide_empty_column sc b i :
  field_index f_result sc = Some i -> nth_error (b_cols b) i = Some [] ->
  decide_result sc b = None.
Proof.
  intros Hi Hn. unfold decide_result. rewrite Hi, Hn.
  destruct (nth_error sc i) as [[n ty]|]; [|reflexivity]. now destruct ty.
Qed.

Lemma envelope_ok_inv sc : envelope_ok sc = true -> exists n, sc = [(n, TBinary)].
Proof.
  destruct sc as [|[n ty] [|f2 sc']]; try discriminate; destruct ty; try discriminate.
  intros _. now exists n.
Qed.

Lemma read_unary_envelope n r rest :
  read_unary_result (Stream [(n, TBinary)] [ {| b_rows := 1; b_meta := []; b_cols := [[r]] |} ] TEos :: rest)
  = if beqb n f_result then Some ([(n, TBinary)], r) else None.
Proof.
  cbn [read_unary_result rur_batches b_rows]. change (0 <? 1) with true.
  unfold decide_result. cbn [field_index]. now destruct (beqb n f_result).
Qed.

Lemma rur_some_has_field sc bs sc' r :
  rur_batches sc bs = Some (sc', r) -> sc' = sc /\ field_index f_result sc <> None.
Proof.
  induction bs as [|b t IH]; [discriminate|]. cbn [rur_batches].
  destruct (0 <? b_rows b).
  - unfold decide_result. destruct (field_index f_result sc) as [i|]; [|discriminate].
    destruct (nth_error sc i) as [[n ty]|]; [|discriminate].
    destruct ty; try discriminate.
    destruct (nth_error (b_cols b) i) as [[|v col]|]; try discriminate.
    intro H. inversion H. split; [reflexivity | discriminate].
  - destruct (log_level_skippable b); [exact IH | discriminate].
Qed.

Lemma ctype_eqb_refl c : ctype_eqb c c = true. Proof. now destruct c. Qed.
Lemma schema_eqb_refl s : schema_eqb s s = true.
Proof. apply list_eqb_refl. intro. apply pair_eqb_refl; [apply beqb_refl | apply ctype_eqb_refl]. Qed.
Lemma meta_eqb_refl m : meta_eqb m m = true.
Proof. apply list_eqb_refl. intro. apply pair_eqb_refl; apply beqb_refl. Qed.
Lemma cols_eqb_refl c : cols_eqb c c = true.
Proof. apply list_eqb_refl. intro. apply list_eqb_refl. apply beqb_refl. Qed.
Lemma batch_eqb_refl b : batch_eqb b b = true.
Proof. unfold batch_eqb. now rewrite N.eqb_refl, meta_eqb_refl, cols_eqb_refl. Qed.
Lemma seg_eqb_refl g : seg_eqb g g = true.
Proof.
  destruct g as [sc bs t|]; [|reflexivity]. cbn [seg_eqb].
  rewrite schema_eqb_refl, (list_eqb_refl _ batch_eqb_refl). now destruct t.
Qed.
Lemma body_eqb_refl b : body_eqb b b = true.
Proof. apply list_eqb_refl, seg_eqb_refl. Qed.
Lemma request_eqb_refl q : request_eqb q q = true.
Proof.
  unfold request_eqb.
  now rewrite !beqb_refl, schema_eqb_refl, N.eqb_refl, cols_eqb_refl, meta_eqb_refl.
Qed.
Lemma ob_eqb_refl o : ob_eqb o o = true.
Proof. apply opt_eqb_refl, beqb_refl. Qed.
Lemma tok_eqb_refl p : tok_eqb p p = true.
Proof. apply pair_eqb_refl; apply ob_eqb_refl. Qed.
Lemma ur_eqb_refl u : ur_eqb u u = true.
Proof. apply opt_eqb_refl. intro. apply pair_eqb_refl; [apply schema_eqb_refl | apply beqb_refl]. Qed.
Lemma bools_eqb_refl l : list_eqb Bool.eqb l l = true.
Proof. apply list_eqb_refl. now intros []. Qed.

Lemma spec_request_model bd : spec_request bd (view (read_request bd)) = true.
Proof.
  destruct bd as [|[sc [|b bs] t|] rest]; try reflexivity; [now destruct t|].
  cbn [read_request spec_request]. unfold validate.
  destruct (get k_method (b_meta b)) as [meth|]; [|reflexivity].
  destruct (utf8_valid meth) eqn:Hu; [|reflexivity]. cbn [negb].
  destruct (get k_request_version (b_meta b)) as [ver|]; [|reflexivity].
  destruct (beqb ver wire_version) eqn:Hv; [|reflexivity]. cbn [negb].
  apply beqb_eq in Hv. subst ver.
  destruct (row_rule_violated sc b) eqn:Hr; [reflexivity|].
  cbn [view negb andb dflt]. apply request_eqb_refl.
Qed.

Lemma spec_req_roundtrip_model ss :
  forall o, o_rr o = view (read_request (wire ss)) -> o_pv o = find_protocol_version (wire ss) ->
  spec_req_roundtrip ss o = true.
Proof.
  intros o Hrr Hpv. destruct ss as [|s [|s2 ss]]; try reflexivity; [|now destruct s].
  destruct s as [| |m sc rows cols v|]; try reflexivity.
  unfold spec_req_roundtrip. unfold wire in Hrr, Hpv. cbn [cut terminal expand expand_s] in Hrr, Hpv.
  rewrite Hpv, find_pv_write_request, Hrr, read_request_written.
  destruct (utf8_valid m); [|reflexivity]. destruct (nofields sc || (rows =? 1)); [|reflexivity].
  cbn [andb view accepted q_method q_version q_schema q_rows q_cols q_meta q_request_id q_log_level].
  now rewrite get_pv_req, !beqb_refl, schema_eqb_refl, N.eqb_refl, cols_eqb_refl, ob_eqb_refl.
Qed.

Lemma spec_res_roundtrip_model ss :
  forall o, o_body o = wire ss -> o_werr o = map writer_failed (cut ss) ->
            o_ur o = read_unary_result (wire ss) ->
  spec_res_roundtrip ss o = true.
Proof.
  intros o Hb Hw Hu. destruct ss as [|s [|s2 ss]]; try reflexivity; [|now destruct s].
  destruct s as [| | |sc res]; try reflexivity.
  unfold spec_res_roundtrip. rewrite Hb, Hw, Hu. unfold wire.
  cbn [cut terminal expand expand_s map].
  destruct sc as [|[n ty] [|f2 sc']]; [reflexivity | | now destruct ty].
  destruct ty; try reflexivity.
  unfold writer_failed. cbn [expand_s write_unary_result envelope_ok expand]. rewrite read_unary_envelope.
  cbn [list_eqb Bool.eqb andb]. apply ur_eqb_refl.
Qed.

Lemma legacy_refuted :
  exists bd, guard_first bd = false /\ find_protocol_version_legacy bd <> [].
Proof.
  exists [Stream [] [ {| b_rows := 0; b_meta := [(k_protocol_version, str "1.2.3")]; b_cols := [] |} ] TBroken].
  split; [reflexivity | vm_compute; discriminate].
Qed.

(* The byte level. [dec] reads one IPC stream off the front of a byte string and returns what is
   left, as ipc.Reader does on a bytes.Reader; [enc] is any writer it inverts.
   The loop below is FindStreamTokens as written, including the guard against a
   decoder that makes no progress, with fuel = number of bytes + 1. *)
Section Codec.
  Variable enc : seg -> bytes.
  Variable dec : bytes -> option (seg * bytes).
  Hypothesis dec_enc : forall sc bs rest,
    dec (enc (Stream sc bs TEos) ++ rest) = Some (Stream sc bs TEos, rest).
  Hypothesis enc_nonempty : forall g, enc g <> [].
  (* checkIPCStreamFraming on the bytes at the current offset; it never refuses
     a stream the codec reads *)
  Variable guard : bytes -> bool.
  Hypothesis guard_enc : forall sc bs rest, guard (enc (Stream sc bs TEos) ++ rest) = true.

  Fixpoint find_bytes (fuel : nat) (data : bytes) (state call : option bytes)
    : option bytes * option bytes :=
    match fuel with
    | O => (state, call)
    | S fuel' =>
        match data with
        | [] => (state, call)                          (* r.Len() == 0 *)
        | _ =>
            if negb (guard data) then (state, call) else  (* framing refused *)
            match dec data with
            | None | Some (Junk, _) => (state, call)   (* the stream does not open *)
            | Some (Stream _ bs t, rest) =>
                let '(s, c) := scan_batches bs None in
                let state' := or_first state s in
                let call' := or_first call c in
                match state' with
                | Some _ => (state', call')
                | None =>
                    match t with
                    | TEos =>
                        if (length rest =? length data)%nat then (state', call')
                        else find_bytes fuel' rest state' call'
                    | _ => (state', call')
                    end
                end
            end
        end
    end.

  Definition encode (ss : body) : bytes := concat (map enc ss).

  Lemma find_bytes_clean ss : forall fuel call,
    clean ss = true -> (length (encode ss) < fuel)%nat ->
    find_bytes fuel (encode ss) None call = find_loop ss call.
  Proof.
    induction ss as [|g ss IH]; intros fuel call Hc Hf.
    - destruct fuel; [inversion Hf | reflexivity].
    - cbn [clean forallb] in Hc. apply andb_true_iff in Hc as [Hg Hc].
      destruct g as [sc bs t|]; [|discriminate]. destruct t; try discriminate.
      destruct fuel as [|fuel]; [inversion Hf|].
      unfold encode in *. cbn [map concat] in *. cbn [find_bytes].
      destruct (enc (Stream sc bs TEos) ++ concat (map enc ss)) eqn:Hd.
      { apply app_eq_nil in Hd as [Hd _]. now apply enc_nonempty in Hd. }
      rewrite <- Hd in Hf |- *. rewrite guard_enc, dec_enc. cbn [negb find_loop].
      destruct (scan_batches bs None) as [s c]. cbn [or_first].
      destruct s; [reflexivity|].
      rewrite app_length in *.
      assert (Hlen : length (enc (Stream sc bs TEos)) <> 0%nat).
      { intro E. apply length_zero_iff_nil in E. now apply enc_nonempty in E. }
      replace (length (concat (map enc ss)) =?
               length (enc (Stream sc bs TEos)) + length (concat (map enc ss)))%nat
        with false by (symmetry; apply Nat.eqb_neq; lia).
      apply IH; [assumption | lia].
  Qed.
End Codec.
