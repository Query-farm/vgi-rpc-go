(* Proofs/C08.v — values survive Arrow serialization.  The scalar cases come down to Go's
   truncating / and % with a borrow being floor division ([floor_of_trunc]).  Both directions
   of the property say that one partial map undoes another ([round_trip]); that passes through
   [mapM], [pairM] and [zipM], so the induction over field types ([g2w], [w2g]) only joins
   the leaves ([leaf_g2w], [leaf_w2g]) to the containers. *)
From VR Require Import Model.C08 Lib.Ints.
From Coq Require Import ZifyBool.
Open Scope Z_scope.

(* [eu]: lia with Go's truncating / and % and with floor div/mod; [consts]: the unit
   constants as numerals, for lia *)
Ltac eu := Z.to_euclidean_division_equations; lia.
Ltac consts := unfold E3, E6, E9, DAY in *.

(* [swrap_id] at half-modulus 2^(bits-1).  The range hypothesis has the shape of
   irange / in64 / in32, so those are instances. *)
Lemma wrapS_id bits z : 0 < bits ->
  (- 2 ^ (bits - 1) <=? z) && (z <? 2 ^ (bits - 1)) = true -> wrapS bits z = z.
Proof.
  intros Hb Hz. apply (swrap_id (2 ^ (bits - 1)) (2 ^ bits) z);
    [apply Z.pow_pos_nonneg; lia | rewrite <- Z.pow_succ_r by lia; f_equal; lia | lia].
Qed.
Lemma wrapU_id bits z : (0 <=? z) && (z <? 2 ^ bits) = true -> wrapU bits z = z.
Proof. intro H. apply Z.mod_small. lia. Qed.

Lemma i64_id z : in64 z = true -> i64 z = z.
Proof. exact (wrapS_id 64 z eq_refl). Qed.
Lemma i32_id z : in32 z = true -> i32 z = z.
Proof. exact (wrapS_id 32 z eq_refl). Qed.

Lemma iwrap_id k z : irange k z = true -> iwrap k z = z.
Proof.
  unfold irange, iwrap. destruct (isigned k); [apply wrapS_id; now destruct k | apply wrapU_id].
Qed.

Lemma range_mono lo hi lo' hi' z :
  lo' <= lo -> hi <= hi' -> (lo <=? z) && (z <? hi) = true -> (lo' <=? z) && (z <? hi') = true.
Proof. lia. Qed.
Lemma irange_wide k z : irange k z = true -> irange (wide k) z = true.
Proof. destruct k; apply range_mono; apply Z.leb_le; reflexivity. Qed.

(* toInt64 / toUint64 followed by the narrowing cast *)
Lemma narrow_id k z : irange k z = true -> iwrap k (iwrap (wide k) z) = z.
Proof. intro H. rewrite (iwrap_id (wide k)) by now apply irange_wide. now apply iwrap_id. Qed.

Lemma int_dec_enc g a x :
  irange g x = true -> irange a x = true -> dec_int g a (enc_int g a x) = x.
Proof. intros Hg Ha. unfold dec_int, enc_int. now rewrite (narrow_id a), (narrow_id g). Qed.
Lemma int_enc_dec g a w :
  irange g w = true -> irange a w = true -> enc_int g a (dec_int g a w) = w.
Proof. intros Hg Ha. unfold dec_int, enc_int. now rewrite (narrow_id g), (narrow_id a). Qed.

(* Go's / and %, with one borrow when the remainder is negative, are floor
   division: the shape of time.Unix, Time.Add and daysSinceEpoch *)
Lemma floor_of_trunc a b : 0 < b ->
  (if Z.rem a b <? 0 then (Z.quot a b - 1, Z.rem a b + b) else (Z.quot a b, Z.rem a b))
  = (a / b, a mod b).
Proof.
  intro Hb. pose proof (Z.quot_rem' a b). pose proof (Z.rem_bound_abs a b).
  destruct (Z.rem a b <? 0) eqn:Neg; f_equal;
    [apply Z.div_unique with (r := Z.rem a b + b) | apply Z.mod_unique with (q := Z.quot a b - 1)
    |apply Z.div_unique with (r := Z.rem a b) | apply Z.mod_unique with (q := Z.quot a b)]; lia.
Qed.

Lemma div_mod_pack q r b : 0 <= r < b -> (q * b + r) / b = q /\ (q * b + r) mod b = r.
Proof.
  intro H. split; symmetry; [apply Z.div_unique with (r := r) | apply Z.mod_unique with (q := q)]; lia.
Qed.

Lemma div_mod_back v k : v / k * k + v mod k = v.
Proof. pose proof (Z_div_mod_eq_full v k). lia. Qed.

Lemma go_unix_floor sec nsec :
  go_unix sec nsec = (sec + nsec / E9, nsec mod E9).
Proof.
  unfold go_unix. destruct ((nsec <? 0) || (E9 <=? nsec)) eqn:C.
  - cbv zeta. pose proof (floor_of_trunc nsec E9 eq_refl) as F.
    replace (nsec - Z.quot nsec E9 * E9) with (Z.rem nsec E9) by (pose proof (Z.quot_rem' nsec E9); lia).
    destruct (Z.rem nsec E9 <? 0); injection F as <- <-; f_equal; lia.
  - rewrite Z.div_small, Z.mod_small by lia. f_equal. lia.
Qed.

(* a count of units of m nanoseconds, k to the second: time.Unix(v / k, v % k * m) *)
Lemma go_unix_scaled k m v : 0 < k -> 0 < m -> k * m = E9 ->
  go_unix (Z.quot v k) (Z.rem v k * m) = (v / k, v mod k * m).
Proof.
  intros Hk Hm E9km. rewrite go_unix_floor, <- E9km, Z.div_mul_cancel_r, Z.mul_mod_distr_r by lia.
  pose proof (Z.quot_rem' v k) as E.
  assert (D : v / k = Z.quot v k + Z.rem v k / k) by (rewrite <- Z.div_add_l by lia; f_equal; lia).
  assert (M : v mod k = Z.rem v k mod k)
    by (rewrite <- (Z.mod_add (Z.rem v k) (Z.quot v k) k) by lia; f_equal; lia).
  now rewrite D, M.
Qed.

Lemma dec_ts_floor u v :
  dec_ts u v = match u with
               | USec => (v, 0)
               | UMilli => (v / E3, v mod E3 * E6)
               | UMicro => (v / E6, v mod E6 * E3)
               | UNano => (v / E9, v mod E9)
               end.
Proof.
  destruct u; unfold dec_ts;
    [|apply (go_unix_scaled E3 E6) | apply (go_unix_scaled E6 E3) | exact (go_unix_floor 0 v)]; reflexivity.
Qed.

Lemma ts_raw_dec u v : ts_raw u (fst (dec_ts u v)) (snd (dec_ts u v)) = v.
Proof.
  rewrite dec_ts_floor. destruct u; cbn [fst snd ts_raw]; rewrite ?Z.quot_mul by discriminate;
    [reflexivity | apply div_mod_back ..].
Qed.
Lemma ts_enc_dec u v :
  in64 v = true -> enc_ts u (fst (dec_ts u v)) (snd (dec_ts u v)) = v.
Proof. intro H. unfold enc_ts. rewrite ts_raw_dec. now apply i64_id. Qed.

(* s seconds and n nanoseconds counted in units of m nanoseconds, k to the second *)
Lemma unit_split k m s n : 0 < k -> 0 < m -> 0 <= n < k * m ->
  let c := s * k + Z.quot n m in (c / k, c mod k * m) = (s, n / m * m).
Proof.
  intros Hk Hm Hn. cbv zeta. rewrite Z.quot_div_nonneg by lia.
  destruct (div_mod_pack s (n / m) k) as [-> ->]; [|reflexivity].
  split; [apply Z.div_pos | apply Z.div_lt_upper_bound]; lia.
Qed.

Lemma dec_ts_raw u s n :
  time_ok s n = true -> dec_ts u (ts_raw u s n) = (s, ts_trunc u n).
Proof.
  unfold time_ok. intros Hn. rewrite dec_ts_floor.
  destruct u; unfold ts_raw, ts_trunc.
  - reflexivity.
  - apply (unit_split E3 E6); [reflexivity | reflexivity | consts; lia].
  - apply (unit_split E6 E3); [reflexivity | reflexivity | consts; lia].
  - now destruct (div_mod_pack s n E9) as [-> ->]; [lia|].
Qed.
(* for nanoseconds the int64 guard is Go's 1678..2262 window *)
Lemma ts_dec_enc u s n :
  time_ok s n = true -> in64 (ts_raw u s n) = true ->
  dec_ts u (enc_ts u s n) = (s, ts_trunc u n).
Proof. intros Hn Hr. unfold enc_ts. rewrite i64_id by assumption. now apply dec_ts_raw. Qed.

Lemma enc_date_floor s : enc_date s = i32 (s / DAY).
Proof.
  unfold enc_date. cbv zeta. f_equal. pose proof (floor_of_trunc s DAY eq_refl) as F.
  destruct (Z.rem s DAY <? 0); now injection F.
Qed.

Lemma date_enc_dec d : in32 d = true -> enc_date (fst (dec_date d)) = d.
Proof.
  intro H. rewrite enc_date_floor. unfold dec_date. cbn [fst].
  rewrite Z.div_mul by discriminate. now apply i32_id.
Qed.
Lemma date_dec_enc s : in32 (s / DAY) = true -> dec_date (enc_date s) = (s / DAY * DAY, 0).
Proof. intro H. rewrite enc_date_floor, i32_id by assumption. reflexivity. Qed.

Lemma epoch_add_floor d : epoch_add d = (d / E9, d mod E9).
Proof. exact (floor_of_trunc d E9 eq_refl). Qed.

(* the time of day is the microsecond timestamp of the instant within its day *)
Lemma enc_time_ts s n : enc_time s n = ts_raw UMicro (s mod DAY) n.
Proof. unfold enc_time, ts_raw. cbv zeta. generalize (s mod DAY), (Z.quot n E3). intros x q. consts. eu. Qed.

Lemma dec_time_ts v : in64 (v * E3) = true -> dec_time v = dec_ts UMicro v.
Proof.
  intro H. unfold dec_time. rewrite i64_id, epoch_add_floor, dec_ts_floor by assumption.
  change E9 with (E6 * E3). now rewrite Z.div_mul_cancel_r, Z.mul_mod_distr_r.
Qed.

Lemma time_enc_dec v :
  0 <= v < DAY * E6 -> enc_time (fst (dec_time v)) (snd (dec_time v)) = v.
Proof.
  intro H. rewrite dec_time_ts, enc_time_ts by (unfold in64; consts; lia).
  rewrite Z.mod_small; [apply ts_raw_dec|]. rewrite dec_ts_floor. cbn [fst].
  split; [apply Z.div_pos | apply Z.div_lt_upper_bound]; consts; lia.
Qed.
Lemma time_dec_enc s n :
  time_ok s n = true -> dec_time (enc_time s n) = (s mod DAY, n / E3 * E3).
Proof.
  intro H. rewrite enc_time_ts, dec_time_ts; [now apply dec_ts_raw|].
  pose proof (Z.mod_pos_bound s DAY eq_refl) as B. unfold time_ok in H. unfold in64, ts_raw.
  rewrite Z.quot_div_nonneg by (lia || reflexivity). generalize dependent (s mod DAY). intros x B. consts. eu.
Qed.

Lemma dur_enc_dec v : dur_guard v = true -> enc_dur (dec_dur v) = v.
Proof.
  unfold dur_guard, enc_dur, dec_dur. intro H.
  rewrite i64_id by (unfold in64; consts; eu). apply Z.quot_mul. discriminate.
Qed.
Lemma dur_dec_enc n : in64 n = true -> dec_dur (enc_dur n) = Z.quot n E3 * E3.
Proof. unfold enc_dur, dec_dur. intro H. apply i64_id. unfold in64 in *. consts. eu. Qed.

Lemma dig_digit n : is_digit (dig n) = true.
Proof. unfold is_digit, dig. assert (0 <= n mod 10 < 10) by eu. lia. Qed.
Lemma dig_val n : Z.of_N (dig n) - 48 = n mod 10.
Proof. unfold dig. assert (0 <= n mod 10 < 10) by eu. lia. Qed.

Lemma digits_val_app a b : forall acc,
  digits_val acc (a ++ b) = obind (fun v => digits_val v b) (digits_val acc a).
Proof.
  induction a as [|c a IH]; intro acc; cbn [app digits_val obind]; [reflexivity|].
  destruct (is_digit c); [apply IH | reflexivity].
Qed.

Lemma show_fuel_digits k : forall n, forallb is_digit (show_fuel k n) = true.
Proof.
  induction k as [|k IH]; intro n; cbn [show_fuel].
  - cbn. now rewrite dig_digit.
  - destruct (n / 10 =? 0); [cbn; now rewrite dig_digit|].
    rewrite forallb_app, IH. cbn. now rewrite dig_digit.
Qed.
Lemma show_fuel_val k : forall n, 0 <= n < 10 ^ Z.of_nat (S k) -> digits_val 0 (show_fuel k n) = Some n.
Proof.
  induction k as [|k IH]; intros n Hn; cbn [show_fuel].
  - cbn [digits_val]. rewrite dig_digit, dig_val. change (10 ^ Z.of_nat 1) with 10 in Hn. f_equal. eu.
  - rewrite Nat2Z.inj_succ, Z.pow_succ_r in Hn by lia. destruct (n / 10 =? 0) eqn:E.
    + cbn [digits_val]. rewrite dig_digit, dig_val. f_equal. eu.
    + rewrite digits_val_app, IH by eu. cbn [obind digits_val]. rewrite dig_digit, dig_val. f_equal. eu.
Qed.
Lemma show_nat_val n : 0 <= n -> digits_val 0 (show_nat n) = Some n.
Proof.
  (* fuel log2 n allows log2 n + 1 digits, and n < 2 ^ (log2 n + 1) <= 10 ^ (log2 n + 1) *)
  intro H. apply show_fuel_val.
  split; [assumption|]. destruct (Z.eq_dec n 0) as [->|Hz]; [cbn; lia|].
  assert (Hl : n < 2 ^ Z.succ (Z.log2 n)) by (apply Z.log2_spec; lia).
  assert (0 <= Z.log2 n) by apply Z.log2_nonneg.
  rewrite Nat2Z.inj_succ, Z2Nat.id by assumption.
  eapply Z.lt_le_trans; [exact Hl|]. apply Z.pow_le_mono_l. lia.
Qed.
Lemma show_fuel_nonempty k n : show_fuel k n <> [].
Proof. destruct k; cbn [show_fuel]; [discriminate|]. destruct (_ =? _); [discriminate|]. now destruct (show_fuel k (n / 10)). Qed.

Lemma show_fixed_len k : forall n, length (show_fixed k n) = k.
Proof. induction k as [|k IH]; intro n; cbn [show_fixed]; [reflexivity|]. rewrite app_length, IH. cbn. lia. Qed.
Lemma show_fixed_val k : forall n, digits_val 0 (show_fixed k n) = Some (n mod 10 ^ Z.of_nat k).
Proof.
  induction k as [|k IH]; intro n; cbn [show_fixed].
  - cbn [digits_val]. change (10 ^ Z.of_nat 0) with 1. f_equal. eu.
  - rewrite digits_val_app, IH. cbn [obind digits_val]. rewrite dig_digit, dig_val. f_equal.
    rewrite Nat2Z.inj_succ, Z.pow_succ_r by lia.
    assert (Hp : 0 < 10 ^ Z.of_nat k) by (apply Z.pow_pos_nonneg; lia).
    rewrite Z.rem_mul_r by lia. ring.
Qed.

Lemma split_dot_digits a b :
  forallb is_digit a = true -> split_dot (a ++ 46%N :: b) = (a, Some b).
Proof.
  induction a as [|c a IH]; intro H; cbn [app split_dot].
  - reflexivity.
  - cbn [forallb] in H. apply andb_true_iff in H as [Hc Ha].
    assert ((c =? 46)%N = false) as -> by (unfold is_digit in Hc; lia).
    now rewrite IH.
Qed.
Lemma pad0_full n s : length s = n -> pad0 n s = s.
Proof. revert s; induction n as [|n IH]; intros [|c s] H; cbn in *; try discriminate; try reflexivity. f_equal. apply IH. lia. Qed.

Lemma parse_udec_fmt a :
  0 <= a ->
  parse_udec (show_nat (a / P10 SC) ++ 46%N :: show_fixed SC (a mod P10 SC)) = Some a.
Proof.
  intro Ha. unfold parse_udec.
  rewrite split_dot_digits by apply show_fuel_digits.
  assert (Hp : 0 < P10 SC) by (apply Z.pow_pos_nonneg; lia).
  destruct (length (show_nat (a / P10 SC)) + length (show_fixed SC (a mod P10 SC)))%nat eqn:L.
  - exfalso. apply Nat.eq_add_0 in L as [L _]. apply length_zero_iff_nil in L.
    now apply show_fuel_nonempty in L.
  - rewrite show_nat_val by (apply Z.div_pos; lia).
    rewrite pad0_full by apply show_fixed_len.
    rewrite skipn_all2 by now rewrite show_fixed_len.
    rewrite show_fixed_val. cbn [digits_val length]. cbn [Z.of_nat]. rewrite andb_false_l.
    f_equal. fold (P10 SC). rewrite Z.mod_mod by lia. eu.
Qed.

Lemma first_digit_not_sign k n r c t :
  show_fuel k n ++ r = c :: t -> c <> 45%N /\ c <> 43%N.
Proof.
  intro H. pose proof (show_fuel_digits k n) as D. pose proof (show_fuel_nonempty k n) as NE.
  destruct (show_fuel k n) as [|d ds]; [contradiction|]. cbn in H. inversion H; subst.
  cbn in D. apply andb_true_iff in D as [D _]. unfold is_digit in D. lia.
Qed.

(* the dispatch on a leading sign falls through for any other first byte *)
Lemma not_sign_match {A} (a b d : A) c :
  c <> 45%N -> c <> 43%N -> match c with 45%N => a | 43%N => b | _ => d end = d.
Proof.
  intros N1 N2. destruct c as [|q]; [reflexivity|].
  repeat (destruct q as [q|q|]; try reflexivity); congruence.
Qed.

Lemma parse_fmt n : dec_fits n = true -> SC <> O -> parse_dec (fmt_dec n) = Some n.
Proof.
  intros Hf Hsc. unfold fmt_dec, parse_dec.
  destruct SC as [|sc] eqn:ESC; [contradiction|]. rewrite <- ESC in *.
  destruct (n <? 0) eqn:Neg.
  - cbn [app]. rewrite parse_udec_fmt by lia. cbn [option_map].
    replace (- Z.abs n) with n by lia. now rewrite Hf.
  - cbn [app].
    destruct (show_nat (Z.abs n / P10 SC) ++ 46%N :: show_fixed SC (Z.abs n mod P10 SC)) as [|c t] eqn:E.
    + exfalso. exact (app_cons_not_nil _ _ _ (eq_sym E)).
    + pose proof (first_digit_not_sign _ _ _ _ _ E) as [N1 N2].
      rewrite (not_sign_match _ _ _ c N1 N2), <- E, parse_udec_fmt by lia.
      replace (Z.abs n) with n by lia. now rewrite Hf.
Qed.

Lemma SC_nonzero : SC <> O.
Proof. vm_compute. discriminate. Qed.

Lemma mapM_cons {A B} (f : A -> option B) a t :
  mapM f (a :: t) = match f a, mapM f t with Some b, Some bt => Some (b :: bt) | _, _ => None end.
Proof. reflexivity. Qed.
Lemma zipM_cons {A B C} (f : A -> B -> option C) a la b lb :
  zipM f (a :: la) (b :: lb) =
  match f a b, zipM f la lb with Some c, Some cs => Some (c :: cs) | _, _ => None end.
Proof. reflexivity. Qed.

(* a null is decoded at pointers only *)
Lemma dec_null t : ty_ok t = true -> is_ptr t = false -> dec t WNull = None.
Proof.
  destruct t as [| | | | | | | | | | | | | |m t]; try easy.
  cbn [ty_ok dec]. destruct t; easy.
Qed.

(* so reading a slot differs from decoding only where decoding fails *)
Lemma slot_dec t w x : ty_ok t = true -> dec t w = Some x -> slot zero dec t w = Some x.
Proof.
  intros Ht E. destruct w; try exact E. destruct (is_ptr t) eqn:P.
  - destruct t; try discriminate P. exact E.
  - now rewrite dec_null in E.
Qed.

(* On every argument [ok] admits, [f] succeeds and [g] takes its result back to the argument
   up to [h]: [trunc t] going out ([f] = [enc t]), the identity coming back ([f] = [dec t]). *)
Definition round_trip {A B} (ok : A -> bool) (f : A -> option B) (g : B -> option A) (h : A -> A) : Prop :=
  forall a, ok a = true -> obind g (f a) = Some (h a).

Lemma round_trip_exists {A B} ok (f : A -> option B) g h a :
  round_trip ok f g h -> ok a = true -> exists b, f a = Some b /\ g b = Some (h a).
Proof. intros R Ha. specialize (R a Ha). destruct (f a) as [b|]; [now exists b | discriminate R]. Qed.

Lemma round_trip_slot_g t : ty_ok t = true ->
  round_trip (val_ok t) (enc t) (dec t) (trunc t) -> round_trip (val_ok t) (enc t) (slot zero dec t) (trunc t).
Proof.
  intros Ht R x Hv. destruct (round_trip_exists _ _ _ _ x R Hv) as (w & -> & D). exact (slot_dec t w _ Ht D).
Qed.
Lemma round_trip_slot_w t : ty_ok t = true ->
  round_trip (wire_ok t) (dec t) (enc t) (fun w => w) ->
  round_trip (wire_ok t) (slot zero dec t) (enc t) (fun w => w).
Proof.
  intros Ht R w Hw. destruct (round_trip_exists _ _ _ _ w R Hw) as (x & D & E).
  cbn [obind]. now rewrite (slot_dec t w x Ht D).
Qed.

Lemma round_trip_mapM {A B} ok (f : A -> option B) g h :
  round_trip ok f g h -> round_trip (forallb ok) (mapM f) (mapM g) (map h).
Proof.
  intros R l. induction l as [|a l IH]; [reflexivity|].
  cbn [forallb]. intro H. apply andb_true_iff in H as [Ha Hl].
  specialize (R a Ha). specialize (IH Hl). rewrite mapM_cons.
  destruct (f a); [|discriminate R]. destruct (mapM f l); [|discriminate IH].
  cbn [obind] in *. now rewrite mapM_cons, R, IH.
Qed.

Lemma round_trip_pairM {A B C D} ok1 ok2 (f1 : A -> option C) (f2 : B -> option D) g1 g2 h1 h2 :
  round_trip ok1 f1 g1 h1 -> round_trip ok2 f2 g2 h2 ->
  round_trip (fun p => ok1 (fst p) && ok2 (snd p)) (pairM f1 f2) (pairM g1 g2)
             (fun p => (h1 (fst p), h2 (snd p))).
Proof.
  intros R1 R2 p H. apply andb_true_iff in H as [Ha Hb].
  specialize (R1 _ Ha). specialize (R2 _ Hb). unfold pairM at 2.
  destruct (f1 (fst p)); [|discriminate R1]. destruct (f2 (snd p)); [|discriminate R2].
  unfold pairM. cbn [obind fst snd] in *. now rewrite R1, R2.
Qed.

Lemma round_trip_zipM {T A B} ok (f : T -> A -> option B) g h ts :
  Forall (fun t => round_trip (ok t) (f t) (g t) (h t)) ts ->
  round_trip (zip_all ok ts) (zipM f ts) (zipM g ts) (zip_map h ts).
Proof.
  induction 1 as [|t ts Rt _ IH]; intros [|a l] Hl; try discriminate Hl; [reflexivity|].
  change (ok t a && zip_all ok ts l = true) in Hl. apply andb_true_iff in Hl as [Ha Hl].
  specialize (Rt a Ha). specialize (IH l Hl). rewrite zipM_cons.
  destruct (f t a); [|discriminate Rt]. destruct (zipM f ts l); [|discriminate IH].
  cbn [obind] in *. now rewrite zipM_cons, Rt, IH.
Qed.

(* the leaves are the types [named_enc_ok] admits under a name *)
Section ty_ind_leaf.
  Variable P : ty -> Prop.
  Hypothesis HLeaf : forall t, named_enc_ok t = true -> P t.
  Hypothesis HPtr : forall t, P t -> P (TPtr t).
  Hypothesis HList : forall t, P t -> P (TList t).
  Hypothesis HMap : forall k v, P k -> P v -> P (TMap k v).
  Hypothesis HStruct : forall fs, Forall P fs -> P (TStruct fs).
  Hypothesis HNamed : forall m t, P t -> P (TNamed m t).
  Fixpoint ty_ind_leaf (t : ty) : P t :=
    match t with
    | TPtr t' => HPtr t' (ty_ind_leaf t')
    | TList t' => HList t' (ty_ind_leaf t')
    | TMap k v => HMap k v (ty_ind_leaf k) (ty_ind_leaf v)
    | TStruct fs =>
        HStruct fs ((fix go (fs : list ty) : Forall P fs :=
                       match fs with
                       | [] => Forall_nil P
                       | t' :: r => Forall_cons t' (ty_ind_leaf t') (go r)
                       end) fs)
    | TNamed m t' => HNamed m t' (ty_ind_leaf t')
    | t' => HLeaf t' eq_refl
    end.
End ty_ind_leaf.

Lemma leaf_g2w t : named_enc_ok t = true -> round_trip (val_ok t) (enc t) (dec t) (trunc t).
Proof.
  (* per leaf kind one shape of Go value is admitted; the others leave [false = true], closed by
     [diff_false_true] because [discriminate] on a hundred goals is slow to check *)
  intros L x Hv. destruct t; try discriminate L;
    destruct x; cbn [val_ok] in Hv; try (exfalso; exact (diff_false_true Hv));
    cbn [enc obind dec trunc].
  - (* TInt *) apply andb_true_iff in Hv as [Hg Ha]. now rewrite int_dec_enc.
  - (* TFlt *) reflexivity.
  - (* TBool *) reflexivity.
  - (* TStr *) reflexivity.
  - (* TBin *) now rewrite Hv.
  - (* TDate *) apply andb_true_iff in Hv as [Hn Hr]. now rewrite date_dec_enc.
  - (* TTs *) apply andb_true_iff in Hv as [Hn Hr]. now rewrite ts_dec_enc.
  - (* TTime *) now rewrite time_dec_enc.
  - (* TDur *) now rewrite dur_dec_enc.
  - (* TDec *) destruct (parse_dec b); [reflexivity | now rewrite andb_false_r in Hv].
Qed.

Lemma leaf_w2g t : named_enc_ok t = true -> round_trip (wire_ok t) (dec t) (enc t) (fun w => w).
Proof.
  intros L w Hw. destruct t; try discriminate L;
    destruct w; cbn [wire_ok] in Hw; try (exfalso; exact (diff_false_true Hw));
    cbn [dec obind enc tm fst snd].
  - (* TInt *) apply andb_true_iff in Hw as [Hg Ha]. now rewrite int_enc_dec.
  - (* TFlt *) reflexivity.
  - (* TBool *) reflexivity.
  - (* TStr *) reflexivity.
  - (* TBin *) now rewrite Hw.
  - (* TDate *) now rewrite date_enc_dec.
  - (* TTs *) now rewrite ts_enc_dec.
  - (* TTime *) now rewrite time_enc_dec by lia.
  - (* TDur *) now rewrite dur_enc_dec.
  - (* TDec *) now rewrite parse_fmt by (assumption || apply SC_nonzero).
Qed.

Lemma g2w t : ty_ok t = true -> round_trip (val_ok t) (enc t) (dec t) (trunc t).
Proof.
  induction t as [t L|t IH|t IH|k v IHk IHv|fs IH|m t IH] using ty_ind_leaf; cbn [ty_ok]; intro Hty.
  - now apply leaf_g2w.
  - (* the pointee is not a pointer, so the wire value it is decoded from is not the null *)
    apply andb_true_iff in Hty as [Hnp Hty]. apply negb_true_iff in Hnp.
    intros [] Hv; try discriminate Hv; [reflexivity|].
    specialize (IH Hty _ Hv). cbn [enc trunc]. destruct (enc t v) as [w|]; [|discriminate IH].
    cbn [obind] in *. destruct w; try (cbn [dec]; now rewrite IH). now rewrite dec_null in IH.
  - intros [] Hv; try discriminate Hv.
    pose proof (round_trip_mapM _ _ _ _ (round_trip_slot_g t Hty (IH Hty)) l Hv) as R.
    cbn [enc trunc]. destruct (mapM (enc t) l); [|discriminate R]. cbn [option_map obind dec] in *. now rewrite R.
  - apply andb_true_iff in Hty as [Hty Hv2]. apply andb_true_iff in Hty as [_ Hk2].
    intros [] Hv; try discriminate Hv.
    pose proof (round_trip_mapM _ _ _ _
                  (round_trip_pairM _ _ _ _ _ _ _ _ (IHk Hk2) (round_trip_slot_g v Hv2 (IHv Hv2))) l Hv) as R.
    cbn [enc trunc]. destruct (mapM _ l); [|discriminate R]. cbn [option_map obind dec] in *. now rewrite R.
  - rewrite forallb_forall in Hty. intros [] Hv; try discriminate Hv.
    assert (R : round_trip (zip_all val_ok fs) (zipM enc fs) (zipM (slot zero dec) fs) (zip_map trunc fs)).
    { apply round_trip_zipM. rewrite Forall_forall in *. intros t Hin. apply round_trip_slot_g; auto. }
    specialize (R l Hv). cbn [enc trunc]. destruct (zipM enc fs l); [|discriminate R].
    cbn [option_map obind dec] in *. now rewrite R.
  - apply andb_true_iff in Hty as [Hn Hty]. intros x Hv. cbn [enc dec trunc]. rewrite Hn. now apply IH.
Qed.

Lemma zip_map_snd {T A} (ok : T -> A -> bool) ts :
  forall l, zip_all ok ts l = true -> zip_map (fun _ a => a) ts l = l.
Proof.
  induction ts as [|t ts IH]; intros [|a l] H; try discriminate H; [reflexivity|].
  change (ok t a && zip_all ok ts l = true) in H. apply andb_true_iff in H as [_ H].
  change (a :: zip_map (fun _ a => a) ts l = a :: l). f_equal. now apply IH.
Qed.

Lemma w2g t : ty_ok t = true -> round_trip (wire_ok t) (dec t) (enc t) (fun w => w).
Proof.
  induction t as [t L|t IH|t IH|k v IHk IHv|fs IH|m t IH] using ty_ind_leaf; cbn [ty_ok]; intro Hty.
  - now apply leaf_w2g.
  - apply andb_true_iff in Hty as [_ Hty]. intros w Hw.
    destruct w; try reflexivity; specialize (IH Hty _ Hw); cbn [dec];
      (destruct (dec t _); [exact IH | discriminate IH]).
  - intros [] Hw; try discriminate Hw.
    pose proof (round_trip_mapM _ _ _ _ (round_trip_slot_w t Hty (IH Hty)) l Hw) as R. rewrite map_id in R.
    cbn [dec]. destruct (mapM _ l); [|discriminate R]. cbn [option_map obind enc] in *. now rewrite R.
  - apply andb_true_iff in Hty as [Hty Hv2]. apply andb_true_iff in Hty as [_ Hk2].
    intros [] Hw; try discriminate Hw.
    pose proof (round_trip_mapM _ _ _ _
                  (round_trip_pairM _ _ _ _ _ _ _ _ (IHk Hk2) (round_trip_slot_w v Hv2 (IHv Hv2))) l Hw) as R.
    rewrite (map_ext _ (fun p => p)), map_id in R by now intros [].
    cbn [dec]. destruct (mapM _ l); [|discriminate R]. cbn [option_map obind enc] in *. now rewrite R.
  - rewrite forallb_forall in Hty. intros [] Hw; try discriminate Hw.
    assert (R : round_trip (zip_all wire_ok fs) (zipM (slot zero dec) fs) (zipM enc fs) (zip_map (fun _ w => w) fs)).
    { apply round_trip_zipM. rewrite Forall_forall in *. intros t Hin. apply round_trip_slot_w; auto. }
    specialize (R l Hw). rewrite (zip_map_snd wire_ok fs l Hw) in R.
    cbn [dec]. destruct (zipM _ fs l); [|discriminate R]. cbn [option_map obind enc] in *. now rewrite R.
  - apply andb_true_iff in Hty as [Hn Hty]. intros w Hw. specialize (IH Hty w Hw). cbn [dec wire_ok] in *.
    destruct (dec t w); [|discriminate IH]. cbn [obind enc] in *. now rewrite Hn.
Qed.

(* Transparent, and by induction on the list: the three lemmas below pass it their own
   recursive call as [H], which the guard checker accepts only because it can unfold this
   proof and see [H] applied to the elements of [l] alone. *)
Lemma leqb_refl {A} (e : A -> A -> bool) (H : forall a, e a a = true) l : leqb e l l = true.
Proof. induction l as [|a l IH]; [reflexivity|]. change (e a a && leqb e l l = true). now rewrite H, IH. Defined.

Lemma gv_eqb_refl : forall x, gv_eqb x x = true.
Proof.
  fix IH 1. intros [z|b|b|n b|s n|n| |v|n l|n l|l]; cbn [gv_eqb];
    rewrite ?Z.eqb_refl, ?eqb_reflx, ?beqb_refl; try reflexivity.
  - apply IH.
  - apply (leqb_refl _ IH).
  - apply leqb_refl. intro p. now rewrite !IH.
  - apply (leqb_refl _ IH).
Qed.
Lemma wv_eqb_refl : forall x, wv_eqb x x = true.
Proof.
  fix IH 1. intros [z|b|b|b| |l|l|l]; cbn [wv_eqb];
    rewrite ?Z.eqb_refl, ?eqb_reflx, ?beqb_refl; try reflexivity.
  - apply (leqb_refl _ IH).
  - apply leqb_refl. intro p. now rewrite !IH.
  - apply (leqb_refl _ IH).
Qed.
Lemma aty_eqb_refl : forall x, aty_eqb x x = true.
Proof.
  fix IH 1. intros [k| | | | | | | | |n| |u z| | |p s|e|k v|l]; cbn [aty_eqb];
    rewrite ?Z.eqb_refl, ?eqb_reflx; try reflexivity.
  - unfold ity_eqb. now rewrite Z.eqb_refl, eqb_reflx.
  - now destruct u.
  - apply IH.
  - now rewrite !IH.
  - apply leqb_refl. intro p. now rewrite IH, eqb_reflx.
Qed.

(* the value on which the defect repaired by a42abbb shows *)
Definition map_null_ty := TMap (TStr SUtf8) (TPtr (TInt I64 I64)).
Definition map_null_val := GMap false [(GBytes false (str "a"), GNil)].
