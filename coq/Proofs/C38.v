(* Lemmas for C38 (access-log records). A record is [assemble] of the dispatch info, so [lookup] of
   a literal key in it reduces to the field's presence flag and value (Ltac [lk]). Across
   requests, [inv]: every stream state and cache entry goes back to the /init that minted its id
   ([opened_by]); [logged_at] reads off it what request number j can log ([logs]), [init_logged]
   that a hooked /init does log, and nothing after them mentions a state. *)
From VR Require Import Model.C38 Lib.Lists.
From Coq Require Import ZifyBool.
Open Scope N_scope.

Definition fkey (f : bool * (bytes * jv)) : bytes := fst (snd f).

Definition sel_at (fs : list (bool * (bytes * jv))) (i : nat) : option jv :=
  match nth_error fs i with Some (true, (_, v)) => Some v | _ => None end.

Lemma lookup_select_notin k fs : ~ In k (map fkey fs) -> lookup k (select fs) = None.
Proof.
  induction fs as [|[p [k' v]] t IH]; cbn; intro H; [reflexivity|].
  assert (IH' : lookup k (select t) = None) by (apply IH; intro Hin; apply H; now right).
  destruct p; [|exact IH']. cbn. destruct (beqb k k') eqn:E; [|exact IH'].
  apply beqb_eq in E. subst. exfalso. apply H. now left.
Qed.

Lemma lookup_select_nth k : forall fs i,
  NoDup (map fkey fs) -> nth_error (map fkey fs) i = Some k -> lookup k (select fs) = sel_at fs i.
Proof.
  induction fs as [|[p [k' v]] t IH]; intros i Hnd Hi; [destruct i; discriminate|].
  cbn in Hnd. inversion Hnd as [|x l Hnotin Hnd']; subst. destruct i as [|j]; cbn in Hi.
  - inversion Hi; subst. unfold sel_at. destruct p; cbn; [now rewrite beqb_refl | now apply lookup_select_notin].
  - assert (Hne : beqb k k' = false).
    { apply beqb_neq. intros ->. apply Hnotin. eapply nth_error_In; exact Hi. }
    change (sel_at ((p, (k', v)) :: t) (S j)) with (sel_at t j). rewrite <- (IH j Hnd' Hi).
    destruct p; cbn; [now rewrite Hne | reflexivity].
Qed.

Lemma nodupb_NoDup l : nodupb l = true <-> NoDup l.
Proof. exact (nodupb_by_NoDup beqb beqb_eq l). Qed.

Definition ALLKEYS : list bytes :=
  [K_auth_domain; K_authenticated; K_cancelled; K_claims; K_duration_ms; K_error_message; K_error_type;
   K_externalized_bytes; K_http_status; K_input_batches; K_input_bytes; K_input_rows; K_level; K_logger;
   K_message; K_method; K_method_type; K_original_request_bytes; K_output_batches; K_output_bytes;
   K_output_rows; K_principal; K_protocol; K_protocol_hash; K_remote_addr; K_request_bytes; K_request_data;
   K_request_id; K_response_bytes; K_server_id; K_server_version; K_span_id; K_status; K_stream_id;
   K_timestamp; K_trace_id; K_truncated].

Lemma fields_keys d : map fkey (fields d) = ALLKEYS.
Proof. reflexivity. Qed.

Lemma allkeys_nodup : NoDup ALLKEYS.
Proof. apply nodupb_NoDup. vm_compute. reflexivity. Qed.

Lemma lookup_at d k i : nth_error ALLKEYS i = Some k -> lookup k (assemble d) = sel_at (fields d) i.
Proof.
  intro H. apply lookup_select_nth; rewrite fields_keys; [apply allkeys_nodup | exact H].
Qed.

Lemma lookup_other d k : ~ In k ALLKEYS -> lookup k (assemble d) = None.
Proof.
  intro H. apply lookup_select_notin. now rewrite fields_keys.
Qed.

Lemma select_keys_incl fs k : In k (keys (select fs)) -> In k (map fkey fs).
Proof.
  induction fs as [|[[] [k' v]] t IH]; cbn; intro H; [contradiction| |].
  - destruct H as [H|H]; [now left | right; now apply IH].
  - right. now apply IH.
Qed.

Lemma select_keys_nodup fs : NoDup (map fkey fs) -> NoDup (keys (select fs)).
Proof.
  induction fs as [|[[] [k' v]] t IH]; cbn; intro H; [constructor| |]; inversion H; subst.
  - constructor; [|now apply IH]. intro Hin. apply select_keys_incl in Hin. contradiction.
  - now apply IH.
Qed.

Lemma assemble_nodup d : nodupb (keys (assemble d)) = true.
Proof.
  apply nodupb_NoDup. unfold assemble. apply select_keys_nodup. rewrite fields_keys. apply allkeys_nodup.
Qed.

Fixpoint find_idx (k : bytes) (l : list bytes) : option nat :=
  match l with
  | [] => None
  | x :: t => if beqb k x then Some O else match find_idx k t with Some n => Some (S n) | None => None end
  end.

(* [lk_one d K], K a literal key: rewrite [lookup K (assemble d)] into the presence flag and
   value of the field at K's position in ALLKEYS; [lk d] does so for every key in the goal *)
Ltac lk_one d K :=
  let i := eval vm_compute in (find_idx K ALLKEYS) in
  match i with
  | Some ?n => rewrite (lookup_at d K n eq_refl); cbv beta iota delta [sel_at nth_error fields]
  end.
Ltac lk d := repeat match goal with |- context [lookup ?K (assemble d)] => lk_one d K end.

Lemma str_is_refl x : str_is x (JStr x) = true.
Proof. unfold str_is, str_sat. apply beqb_refl. Qed.

Lemma fold_add_shift l : forall a, fold_left Z.add l a = (a + fold_left Z.add l 0)%Z.
Proof.
  induction l as [|x t IH]; intro a; cbn; [lia|]. rewrite IH. rewrite (IH x). lia.
Qed.

Lemma nonneg_fold l : forallb nonneg l = true -> forall a, (0 <= a)%Z -> (0 <= fold_left Z.add l a)%Z.
Proof.
  induction l as [|x t IH]; cbn; intros H a Ha; [exact Ha|].
  apply andb_true_iff in H as [Hx Ht]. apply IH; [exact Ht|]. unfold nonneg in Hx. lia.
Qed.

Lemma trace_ctx_some p t s : trace_ctx p = Some (t, s) ->
  p = PRet t s /\ lower_hex 32 t = true /\ lower_hex 16 s = true.
Proof.
  destruct p as [|t' s'|]; cbn [trace_ctx]; try discriminate.
  destruct (lower_hex 32 t' && lower_hex 16 s') eqn:E; [|discriminate].
  intros [= <- <-]. apply andb_true_iff in E. now split.
Qed.

Lemma trace_fields d :
  match tr_of d with
  | Some (t, s) => lookup K_trace_id (assemble d) = Some (JStr t) /\ lookup K_span_id (assemble d) = Some (JStr s)
  | None => lookup K_trace_id (assemble d) = None /\ lookup K_span_id (assemble d) = None
  end.
Proof.
  lk d. unfold has_tr. destruct (tr_of d) as [[t s]|]; split; reflexivity.
Qed.

Lemma trace_ok_assemble d : trace_ok (assemble d) = true.
Proof.
  unfold trace_ok. pose proof (trace_fields d) as H. destruct (tr_of d) as [[t s]|] eqn:E.
  - destruct H as [-> ->]. apply trace_ctx_some in E as [_ [H1 H2]]. cbn. now rewrite H1, H2.
  - destruct H as [-> ->]. reflexivity.
Qed.

Lemma trace_malformed_dropped d :
  match d_trace d with
  | PRet t s => lower_hex 32 t && lower_hex 16 s = false
  | _ => True
  end ->
  lookup K_trace_id (assemble d) = None /\ lookup K_span_id (assemble d) = None.
Proof.
  intro Hm. pose proof (trace_fields d) as H. unfold tr_of in H.
  destruct (d_trace d) as [|t s|]; cbn [trace_ctx] in H; try exact H. rewrite Hm in H. exact H.
Qed.

Lemma b64_nonempty s : nonempty s = true -> nonempty (b64 s) = true.
Proof. destruct s as [|a [|b [|c t]]]; cbn; intro H; try discriminate; reflexivity. Qed.

Lemma b64len_pos n : 0 < n -> (0 < b64len n)%Z.
Proof.
  intro H. unfold b64len. assert (1 <= (Z.of_N n + 2) / 3)%Z by (apply Z.div_le_lower_bound; lia). lia.
Qed.

Lemma b64len_nonneg n : (0 <= b64len n)%Z.
Proof. unfold b64len. assert (0 <= (Z.of_N n + 2) / 3)%Z by (apply Z.div_pos; lia). lia. Qed.

Lemma payload_data_nonempty p : has_payload_p p = true -> strlike_nonempty (payload_data p) = true.
Proof.
  destruct p as [b|n]; cbn [has_payload_p payload_data strlike_nonempty].
  - intro H. apply b64_nonempty. now destruct b.
  - intro H. pose proof (b64len_pos n ltac:(lia)). rewrite andb_true_r. lia.
Qed.

Lemma payload_len_nonneg p : (0 <= payload_len p)%Z.
Proof. destruct p; cbn [payload_len]; [lia | apply b64len_nonneg]. Qed.

Lemma payload_ok_assemble d : payload_ok (assemble d) = true.
Proof.
  unfold payload_ok, req, has. lk d.
  destruct (has_payload d) eqn:P; destruct (d_debug d); cbn [andb negb]; try reflexivity.
  - unfold has_payload in P. now rewrite payload_data_nonempty.
  - rewrite str_is_refl. unfold is_count. cbn [andb]. pose proof (payload_len_nonneg (d_payload d)). lia.
Qed.

Lemma payload_or_marker_assemble d :
  has_payload_or_marker (assemble d) = has_payload d.
Proof.
  unfold has_payload_or_marker, has. lk d. destruct (has_payload d); destruct (d_debug d); reflexivity.
Qed.

Lemma redact_with_keys f c : keys (redact_with f c) = keys c.
Proof.
  unfold keys, redact_with. rewrite map_map. apply map_ext. intros [k v]; cbn. now destruct (f k).
Qed.

Lemma redact_with_hit f c k v : In (k, v) (redact_with f c) -> f k = true -> v = JStr al_redacted.
Proof.
  unfold redact_with. intros Hin Hf. apply in_map_iff in Hin as [[k0 v0] [Heq _]]. cbn in Heq.
  destruct (f k0) eqn:E; inversion Heq; subst; [reflexivity | congruence].
Qed.

Lemma redact_with_miss f c k v : In (k, v) c -> f k = false -> In (k, v) (redact_with f c).
Proof.
  unfold redact_with. intros Hin Hf. apply in_map_iff. exists (k, v). cbn. rewrite Hf. auto.
Qed.

Lemma jv_eqb_refl : forall v, jv_eqb v v = true.
Proof.
  fix IH 1. intros [s|z| |b| |kvs|l|n a]; cbn; try reflexivity.
  - apply beqb_refl.
  - apply Z.eqb_refl.
  - apply Bool.eqb_reflx.
  - induction kvs as [|[k v] t IHt]; [reflexivity|]. rewrite beqb_refl, IH, IHt. reflexivity.
  - induction l as [|v t IHt]; [reflexivity|]. rewrite IH, IHt. reflexivity.
  - now rewrite Z.eqb_refl, Bool.eqb_reflx.
Qed.

Lemma payload_described_assemble d : payload_described (d_payload d) (assemble d) = true.
Proof.
  unfold payload_described, opt. lk d.
  destruct (has_payload d); destruct (d_debug d); cbn [andb negb]; rewrite ?jv_eqb_refl; reflexivity.
Qed.

Lemma redacted_by_redact_with f c : redacted_by f c (redact_with f c) = true.
Proof.
  induction c as [|[k v] t IH]; [reflexivity|].
  cbn [redact_with map redacted_by fst]. fold (redact_with f t).
  destruct (f k) eqn:E; rewrite ?E, beqb_refl, IH, ?jv_eqb_refl, ?beqb_refl; reflexivity.
Qed.

(* every policy that logs claims at all logs the redaction under its key predicate;
   the opt-out is the redaction under the empty predicate *)
Lemma claims_field_eq rd c :
  claims_field rd c = match redact_pred rd, c with Some f, _ :: _ => Some (JObj (redact_with f c)) | _, _ => None end.
Proof. destruct c as [|kv c], rd; try reflexivity. cbn. now rewrite map_id. Qed.

Lemma default_policy_on_canonical_keys :
  forallb sensitive canonical_sensitive = true /\ forallb (fun k => negb (sensitive k)) canonical_plain = true.
Proof. split; vm_compute; reflexivity. Qed.

Lemma canon_redacted_default c : canon_redacted (redact_with sensitive c) = true.
Proof.
  unfold canon_redacted. apply forallb_forall. intros [k v] Hin. cbn [fst snd].
  destruct (in_keys canonical_sensitive k) eqn:E; [|reflexivity]. cbn [negb orb].
  assert (Hs : sensitive k = true).
  { apply existsb_beqb_In in E. destruct default_policy_on_canonical_keys as [H _]. exact (proj1 (forallb_forall _ _) H k E). }
  rewrite (redact_with_hit _ _ _ _ Hin Hs). apply jv_eqb_refl.
Qed.

Lemma claims_lookup d :
  lookup K_claims (assemble d) =
  match d_auth d with Some a => claims_field (d_redactor d) (a_claims a) | None => None end.
Proof.
  lk d. unfold cl_of, opt_jv.
  destruct (match d_auth d with Some a => claims_field (d_redactor d) (a_claims a) | None => None end); reflexivity.
Qed.

Lemma claims_shape_assemble d : claims_shape_ok (assemble d) = true.
Proof.
  unfold claims_shape_ok, opt. rewrite claims_lookup. destruct (d_auth d) as [a|]; [|reflexivity].
  rewrite claims_field_eq. destruct (redact_pred (d_redactor d)); [|reflexivity]. now destruct (a_claims a).
Qed.

Lemma is_stream_rec_assemble d : is_stream_rec (assemble d) = d_stream d.
Proof.
  unfold is_stream_rec, req. lk d. destruct (d_stream d); vm_compute; reflexivity.
Qed.

Lemma stream_id_lookup d :
  lookup K_stream_id (assemble d) = if d_stream d then Some (JStr (stream_id_of d)) else None.
Proof. lk d. reflexivity. Qed.

Lemma stream_id_ok_assemble d : dinfo_wf d = true -> stream_id_ok (assemble d) = true.
Proof.
  unfold dinfo_wf, stream_id_ok, req, has. intro H. rewrite is_stream_rec_assemble, stream_id_lookup.
  destruct (d_stream d); [|reflexivity]. cbn. now destruct (lower_hex 32 (stream_id_of d)).
Qed.

Lemma required_ok_assemble d : required_ok (assemble d) = true.
Proof.
  unfold required_ok. repeat (apply andb_true_intro; split); unfold req; lk d;
    rewrite ?str_is_refl; try reflexivity.
  - (* method_type *) destruct (d_stream d); now rewrite str_is_refl, ?orb_true_r.
  - (* principal *) unfold a_str. now destruct (d_auth d).
  - (* auth_domain *) unfold a_str. now destruct (d_auth d).
  - (* status *) destruct (d_err d); cbn [status_of]; now rewrite str_is_refl, ?orb_true_r.
Qed.

Lemma egress_lookup d :
  lookup K_request_bytes (assemble d) = option_map (fun g => JInt (request_bytes g)) (d_egress d)
  /\ lookup K_response_bytes (assemble d) = option_map (fun g => JInt (response_bytes g)) (d_egress d).
Proof. lk d. unfold on_egress. now destruct (d_egress d). Qed.

Lemma optional_egress d : egress_wf (d_egress d) = true ->
  opt K_request_bytes is_count (assemble d) = true /\ opt K_response_bytes is_count (assemble d) = true
  /\ opt K_externalized_bytes is_count (assemble d) = true
  /\ Bool.eqb (has K_request_bytes (assemble d)) (has K_response_bytes (assemble d)) = true.
Proof.
  intro Heg. unfold opt, has. lk d. unfold on_egress. destruct (d_egress d) as [g|]; cbn [fst snd]; [|auto].
  unfold egress_wf in Heg. pose proof (nonneg_fold _ Heg 0%Z ltac:(lia)) as Hs.
  unfold is_count, request_bytes, response_bytes. repeat split; try reflexivity.
  - destruct (0 <? g_content_length g)%Z eqn:E; lia.
  - lia.
  - destruct (0 <? g_externalized g)%Z eqn:E; [lia | reflexivity].
Qed.

Lemma optional_stats d : stats_wf (d_stats d) = true ->
  forallb (fun k => opt k is_count (assemble d)) stat_keys = true
  /\ (forallb (fun k => has k (assemble d)) stat_keys || forallb (fun k => negb (has k (assemble d))) stat_keys) = true.
Proof.
  intro Hst. unfold stat_keys. cbn [forallb]. unfold opt, has. lk d.
  destruct (stats_on d); [|split; reflexivity]. split; [|reflexivity].
  unfold stat, is_count. unfold stats_wf, nonneg in Hst. destruct (d_stats d) as [s|]; [lia | reflexivity].
Qed.

Lemma optional_ok_assemble d : dinfo_wf d = true -> optional_ok (assemble d) = true.
Proof.
  unfold dinfo_wf. intro H. apply andb_true_iff in H as [H Heg]. apply andb_true_iff in H as [_ Hst].
  destruct (optional_egress d Heg) as [E1 [E2 [E3 E4]]]. destruct (optional_stats d Hst) as [S1 S2].
  unfold optional_ok. rewrite E1, E2, E3, E4, S1, S2, !andb_true_r.
  repeat (apply andb_true_intro; split); unfold opt; lk d.
  - now destruct (nonempty (err_msg (d_err d))) eqn:E.
  - now destruct (nonempty (d_server_version d)) eqn:E.
  - now destruct (nonempty (request_id_of d)) eqn:E.
  - destruct (0 <? d_http_status d)%Z eqn:E; [|reflexivity]. apply Z.ltb_lt in E. apply Z.leb_le.
    (* with the boolean facts about [assemble d] in the context lia (ZifyBool) takes seconds *)
    clear - E. lia.
  - now destruct (d_cancelled d).
Qed.

Lemma record_ok_assemble d : dinfo_wf d = true -> record_ok (assemble d) = true.
Proof.
  intro H. unfold record_ok.
  now rewrite assemble_nodup, required_ok_assemble, optional_ok_assemble, stream_id_ok_assemble,
    trace_ok_assemble, payload_ok_assemble, claims_shape_assemble.
Qed.

(* a trap: without this line [cbn] on a [step] unfolds every record to its 37 fields, and the file
   costs several hundred times as much to check *)
Local Arguments assemble : simpl never.
(* request c is an /init that opened a stream and minted [sid] — with or without
   a hook installed on the process that served it *)
Definition opened_by (all : list op) (c : nat) (sid : bytes) : Prop :=
  exists node q h, nth_error all c = Some (OInit node q sid true h).

Definition inv (all : list op) (st : state) : Prop :=
  (forall s, In s (st_streams st) -> opened_by all (t_call s) (t_sid s))
  /\ (forall n c sid, In ((n, c), sid) (st_cache st) -> opened_by all c sid).

Lemma find_stream_some c l s : find_stream c l = Some s -> In s l /\ t_call s = c.
Proof.
  induction l as [|x t IH]; cbn; [discriminate|]. destruct (Nat.eqb (t_call x) c) eqn:E.
  - intro H; inversion H; subst. apply Nat.eqb_eq in E. auto.
  - intro H. destruct (IH H). auto.
Qed.

Lemma cache_get_some node c l v : cache_get node c l = Some v -> In ((node, c), v) l.
Proof.
  induction l as [|[[n k] x] t IH]; cbn; [discriminate|]. destruct (Nat.eqb n node && Nat.eqb k c) eqn:E.
  - intro H; inversion H; subst. apply andb_true_iff in E as [E1 E2].
    apply Nat.eqb_eq in E1. apply Nat.eqb_eq in E2. subst. now left.
  - intro H. right. now apply IH.
Qed.

Lemma resolve_spec all node st s t sid st' :
  inv all st -> In s (st_streams st) -> resolve node st s t = Some (sid, st') ->
  opened_by all (t_call s) sid /\ inv all st'.
Proof.
  intros [I1 I2] Hs. unfold resolve.
  assert (Hopen : opened_by all (t_call s) (t_sid s)) by auto.
  destruct (caching node) eqn:En.
  - destruct (cache_get node (t_call s) (st_cache st)) as [v|] eqn:Ec.
    + apply cache_get_some in Ec. apply I2 in Ec.
      destruct t; try discriminate; intros [= <- <-]; (split; [exact Ec | split; assumption]).
    + destruct t; try discriminate. intros [= <- <-]. split; [exact Hopen|].
      split; cbn; [exact I1|]. intros n c sid' [[= <- <- <-]|Hc]; [exact Hopen | eauto].
  - destruct t; try discriminate. intros [= <- <-]. split; [exact Hopen | split; assumption].
Qed.

Lemma step_next st o : st_next (snd (step st o)) = S (st_next st).
Proof.
  destruct o as [d|q|q sid|node q sid opened h|node c t cancel q fresh h|q|]; cbn; try reflexivity.
  destruct (find_stream c (st_streams st)) as [s|]; [|reflexivity].
  destruct (resolve node st s t) as [[sid st']|]; reflexivity.
Qed.

Lemma step_inv all o st :
  nth_error all (st_next st) = Some o -> inv all st -> inv all (snd (step st o)).
Proof.
  intros Hpos Hinv. pose proof Hinv as [I1 I2].
  destruct o as [d|q|q sid|node q sid opened h|node c t cancel q fresh h|q|]; cbn; try (split; assumption).
  - destruct opened; [|split; assumption].
    assert (Ho : opened_by all (st_next st) sid) by (now exists node, q, h).
    split; cbn.
    + intros s [Hs|Hs]; [subst; exact Ho | auto].
    + destruct (caching node); [|exact I2]. intros n c' sid' [[= <- <- <-]|Hc]; [exact Ho | eauto].
  - destruct (find_stream c (st_streams st)) as [s|] eqn:Ef; [|split; assumption].
    destruct (resolve node st s t) as [[sid st']|] eqn:Er; [|split; assumption].
    apply find_stream_some in Ef as [Hs _].
    exact (proj2 (resolve_spec all _ _ _ _ _ _ Hinv Hs Er)).
Qed.

(* the one record request [o] can log: a continuation logs under the id minted by its /init *)
Definition logs (all : list op) (o : op) (r : jrec) : Prop :=
  match o with
  | ODirect d => r = assemble d
  | OUnary q => r = assemble (dinfo_of q false true [] [] false true)
  | OPipeStream q sid | OInit _ q sid _ _ => r = assemble (dinfo_of q true true sid sid false true)
  | OCont _ c _ cancel q fresh _ =>
      exists sid, opened_by all c sid /\ r = assemble (dinfo_of q true false sid fresh cancel false)
  | ORejected _ | ONoop => False
  end.

Lemma step_logs all st o r : inv all st -> In r (fst (step st o)) -> logs all o r.
Proof.
  intros Hinv. destruct o as [d|q|q sid|node q sid opened h|node c t cancel q fresh h|q|]; cbn [step fst].
  - now intros [<-|[]].
  - now intros [<-|[]].
  - now intros [<-|[]].
  - (* /init: one record if hooked *) destruct h; [|intros []]. now intros [<-|[]].
  - (* continuation: the id it resolves goes back to its /init *)
    destruct (find_stream c (st_streams st)) as [s|] eqn:Ef; [|intros []].
    destruct (resolve node st s t) as [[sid st']|] eqn:Er; [|intros []].
    apply find_stream_some in Ef as [Hs Hc].
    destruct (resolve_spec all _ _ _ _ _ _ Hinv Hs Er) as [Ho _]. rewrite Hc in Ho.
    cbn [fst]. destruct h; [|intros []]. intros [Hr|[]]. exists sid. auto.
  - intros [].
  - intros [].
Qed.

Lemma run_from_cons st o t : run_from st (o :: t) = fst (step st o) :: run_from (snd (step st o)) t.
Proof. cbn. destruct (step st o). reflexivity. Qed.

Lemma run_from_length : forall ops st, length (run_from st ops) = length ops.
Proof. induction ops as [|o t IH]; intro st; [reflexivity|]. rewrite run_from_cons. cbn. now rewrite IH. Qed.

Lemma inv_init all : inv all init_state.
Proof. split; cbn; intros; contradiction. Qed.

Lemma run_from_reach all : forall post st,
  (forall k, nth_error all (st_next st + k) = nth_error post k) -> inv all st ->
  forall j o, nth_error post j = Some o ->
  exists st', inv all st' /\ nth j (run_from st post) [] = fst (step st' o).
Proof.
  induction post as [|o' post IH]; intros st Hpos Hinv j o Hj; [destruct j; discriminate|].
  rewrite run_from_cons. destruct j as [|j]; cbn [nth_error] in Hj; cbn [nth].
  - inversion Hj; subst. now exists st.
  - apply (IH (snd (step st o'))); [| |exact Hj].
    + intro k. rewrite step_next, Nat.add_succ_comm. exact (Hpos (S k)).
    + apply step_inv; [|exact Hinv]. rewrite <- (Nat.add_0_r (st_next st)). exact (Hpos 0%nat).
Qed.

Lemma records_at ops j o : nth_error ops j = Some o ->
  exists st, inv ops st /\ nth j (run_from init_state ops) [] = fst (step st o).
Proof. exact (run_from_reach ops ops init_state (fun k => eq_refl) (inv_init ops) j o). Qed.

Lemma logged_at ops j o r :
  nth_error ops j = Some o -> In r (nth j (run_from init_state ops) []) -> logs ops o r.
Proof.
  intros Hj Hr. destruct (records_at ops j o Hj) as (st & Hinv & Est). rewrite Est in Hr.
  exact (step_logs ops st o r Hinv Hr).
Qed.

Lemma init_logged ops c node q sid opened :
  nth_error ops c = Some (OInit node q sid opened true) ->
  nth c (run_from init_state ops) [] = [assemble (dinfo_of q true true sid sid false true)].
Proof. intro Hc. destruct (records_at ops c _ Hc) as (st & _ & ->). reflexivity. Qed.

Lemma sid_of_dinfo q wp sid fresh cancel wb :
  sid <> [] -> sid_of (assemble (dinfo_of q true wp sid fresh cancel wb)) = Some sid.
Proof.
  intro Hne. unfold sid_of. rewrite stream_id_lookup. unfold stream_id_of. cbn [dinfo_of d_stream d_stream_id d_fresh_sid].
  destruct sid; [contradiction | reflexivity].
Qed.

Lemma hex32_nonempty s : lower_hex 32 s = true -> s <> [].
Proof. intros H E. subst. discriminate. Qed.

(* the id of the stream opened by request c, as the history determines it *)
Definition sid_at (ops : list op) (c : nat) : bytes :=
  match nth_error ops c with Some (OInit _ _ sid _ _) => sid | _ => [] end.

Lemma init_hex ops c node q sid opened h :
  input_wf ops = true -> nth_error ops c = Some (OInit node q sid opened h) -> lower_hex 32 sid = true.
Proof. intros Hwf Hc. pose proof (forallb_nth _ _ _ _ Hwf Hc) as Ho. now apply andb_true_iff in Ho as [_ Hhex]. Qed.

Lemma stream_record_sid ops : input_wf ops = true -> forall c j o r,
  nth_error ops j = Some o -> in_stream c j o = true -> In r (nth j (run_from init_state ops) []) ->
  lower_hex 32 (sid_at ops c) = true /\ sid_of r = Some (sid_at ops c).
Proof.
  intros Hwf c j o r Hj Hin Hr. pose proof (logged_at ops j o r Hj Hr) as L. unfold sid_at.
  destruct o as [| | |node q sid opened h|node c' t cancel q fresh h| |]; try discriminate;
    apply Nat.eqb_eq in Hin; subst; cbn [logs] in L.
  - subst r. rewrite Hj. pose proof (init_hex _ _ _ _ _ _ _ Hwf Hj) as Hhex.
    split; [exact Hhex|]. apply sid_of_dinfo. now apply hex32_nonempty.
  - destruct L as [sid [[node0 [q0 [h0 Hc]]] ->]]. rewrite Hc. pose proof (init_hex _ _ _ _ _ _ _ Hwf Hc) as Hhex.
    split; [exact Hhex|]. apply sid_of_dinfo. now apply hex32_nonempty.
Qed.

Lemma claims_part_assemble d : claims_part (d_redactor d) (d_auth d) (assemble d) = true.
Proof.
  unfold claims_part, claims_ok, has. destruct (d_auth d) as [a|] eqn:E; rewrite claims_lookup, E; [|reflexivity].
  rewrite claims_field_eq. destruct (redact_pred (d_redactor d)) as [f|] eqn:P; [|reflexivity].
  destruct (a_claims a) as [|kv c]; [reflexivity|].
  rewrite redacted_by_redact_with. revert P. destruct (d_redactor d); try (intros _; reflexivity).
  intro P. inversion P. apply canon_redacted_default.
Qed.

Lemma q_wf_parts needs q : q_wf needs q = true ->
  (needs = true -> has_payload_p (q_payload q) = true) /\ stats_wf (q_stats q) = true /\ egress_wf (q_egress q) = true
  /\ match q_egress q with
     | Some g => g_content_length g = q_wire_request q /\ (0 <= q_wire_request q)%Z
     | None => True
     end.
Proof.
  unfold q_wf. intro H. apply andb_true_iff in H as [H H4]. apply andb_true_iff in H as [H H3].
  apply andb_true_iff in H as [H1 H2]. repeat split; auto.
  - intro Hn. now rewrite Hn in H1.
  - destruct (q_egress q); [|exact I]. apply andb_true_iff in H4 as [A B].
    apply Z.eqb_eq in A. apply Z.leb_le in B. now split.
Qed.

Lemma describes_q_assemble q needs x d :
  d_auth d = q_auth q -> d_redactor d = q_redactor q -> d_egress d = q_egress q -> has_payload d = needs ->
  (needs = true -> d_payload d = q_payload q) ->
  q_wf needs q = true ->
  ob_wire_response x = match q_egress q with Some g => response_bytes g | None => 0%Z end ->
  describes_q q needs x (assemble d) = true.
Proof.
  intros Ha Hr He Hp Hpl Hwf Hx. unfold describes_q. rewrite <- Ha, <- Hr, claims_part_assemble.
  rewrite payload_or_marker_assemble, Hp.
  replace (if needs then needs && payload_described (q_payload q) (assemble d) else negb needs) with true
    by (destruct needs; [rewrite <- (Hpl eq_refl), payload_described_assemble|]; reflexivity).
  destruct (q_wf_parts _ _ Hwf) as [_ [_ [_ Hg]]]. cbn [andb].
  unfold req, has. destruct (egress_lookup d) as [-> ->]. rewrite He.
  destruct (q_egress q) as [g|] eqn:Eg; [|reflexivity].
  - destruct Hg as [Hcl Hw]. rewrite Hx. cbn [option_map jv_eqb].
    (* a declared length is logged as it is: it is the wire length, which is not negative *)
    assert (Hrb : request_bytes g = q_wire_request q).
    { unfold request_bytes. rewrite Hcl. destruct (0 <? q_wire_request q)%Z eqn:E; [reflexivity|].
      apply Z.ltb_ge in E. clear - E Hw. (* the context is costly for lia *) lia. }
    now rewrite Hrb, !Z.eqb_refl.
Qed.

Lemma dinfo_of_wf q stream wp sid fresh cancel wb :
  stats_wf (q_stats q) = true -> egress_wf (q_egress q) = true ->
  (stream = true -> lower_hex 32 (match sid with [] => fresh | _ => sid end) = true) ->
  dinfo_wf (dinfo_of q stream wp sid fresh cancel wb) = true.
Proof.
  intros H1 H2 H3. unfold dinfo_wf, stream_id_of. cbn [dinfo_of d_stream d_stream_id d_fresh_sid d_stats d_egress].
  rewrite H1, H2. destruct stream; [|reflexivity]. specialize (H3 eq_refl). destruct sid; now rewrite H3.
Qed.

Lemma model_nth ops j o :
  nth_error ops j = Some o ->
  nth_error (model ops) j =
    Some {| ob_records := nth j (run_from init_state ops) []; ob_wire_response := wire_of o |}.
Proof.
  unfold model. generalize (run_from_length ops init_state). generalize (run_from init_state ops).
  revert j. induction ops as [|o' t IH]; intros j l Hl Hj; [destruct j; discriminate|].
  destruct l as [|rs l]; [discriminate|]. destruct j as [|j]; cbn in *.
  - now inversion Hj.
  - apply IH; [lia | exact Hj].
Qed.

Lemma first_sid_all c sid : forall ops os j,
  (forall k o x r, nth_error ops k = Some o -> nth_error os k = Some x ->
                   in_stream c (j + k) o = true -> In r (ob_records x) -> sid_of r = Some sid) ->
  forall k o x r, nth_error ops k = Some o -> nth_error os k = Some x ->
                  in_stream c (j + k) o = true -> In r (ob_records x) ->
  first_sid c j ops os = Some sid.
Proof.
  induction ops as [|o0 ops IH]; intros os j Hall k o x r Hk Hx Hin Hr; [destruct k; discriminate|].
  destruct os as [|x0 os]; [destruct k; discriminate|].
  cbn [first_sid]. destruct (if in_stream c j o0 then ob_records x0 else []) as [|r0 rs] eqn:Er.
  - destruct k as [|k].
    + cbn in Hk, Hx. inversion Hk; inversion Hx; subst. rewrite Nat.add_0_r in Hin.
      rewrite Hin in Er. rewrite Er in Hr. destruct Hr.
    + apply (IH os (S j)) with (k := k) (o := o) (x := x) (r := r); auto.
      * intros k1 o1 x1 r1 H1 H2 H3. apply (Hall (S k1) o1 x1 r1 H1 H2). now rewrite Nat.add_succ_r.
      * now rewrite Nat.add_succ_l, <- Nat.add_succ_r.
  - destruct (in_stream c j o0) eqn:Ein; [|discriminate].
    apply (Hall 0%nat o0 x0 r0 eq_refl eq_refl); [now rewrite Nat.add_0_r | rewrite Er; now left].
Qed.

Lemma same_sid_model ops : input_wf ops = true -> forall c j o r,
  nth_error ops j = Some o -> in_stream c j o = true -> In r (nth j (run_from init_state ops) []) ->
  same_sid c ops (model ops) r = true.
Proof.
  intros Hwf c j o r Hj Hin Hr. unfold same_sid.
  rewrite (proj2 (stream_record_sid ops Hwf c j o r Hj Hin Hr)).
  erewrite first_sid_all; [apply beqb_refl | | exact Hj | exact (model_nth ops j o Hj) | exact Hin | exact Hr].
  intros k o1 x1 r1 H1 H2 H3 H4. rewrite (model_nth ops k o1 H1) in H2. inversion H2; subst x1.
  exact (proj2 (stream_record_sid ops Hwf c k o1 r1 H1 H3 H4)).
Qed.

Lemma spec_from_intro ops0 all : forall ops recs j0,
  length recs = length ops ->
  (forall j o r, nth_error ops j = Some o -> In r (nth j recs []) ->
     record_ok r && describes ops0 all (j0 + j) o {| ob_records := nth j recs []; ob_wire_response := wire_of o |} r = true) ->
  spec_from ops0 all j0 ops
    (map (fun p => {| ob_records := fst p; ob_wire_response := wire_of (snd p) |}) (combine recs ops)) = true.
Proof.
  induction ops as [|o t IH]; intros [|rs recs] j0 Hl H; try discriminate; [reflexivity|].
  cbn [combine map spec_from fst snd ob_records]. apply andb_true_iff. split.
  - apply forallb_forall. intros r Hr. specialize (H 0%nat o r eq_refl Hr). now rewrite Nat.add_0_r in H.
  - apply IH; [cbn in Hl; lia|]. intros j o' r Hj Hr. specialize (H (S j) o' r Hj Hr).
    now rewrite Nat.add_succ_r in H.
Qed.

Lemma logged_ok q stream wp sid fresh cancel wb x :
  q_wf wp q = true ->
  (stream = true -> lower_hex 32 (match sid with [] => fresh | _ => sid end) = true) ->
  ob_wire_response x = match q_egress q with Some g => response_bytes g | None => 0%Z end ->
  record_ok (assemble (dinfo_of q stream wp sid fresh cancel wb))
  && describes_q q wp x (assemble (dinfo_of q stream wp sid fresh cancel wb)) = true.
Proof.
  intros Hwf Hsid Hx. destruct (q_wf_parts _ _ Hwf) as [Hp [Hs [He _]]].
  rewrite record_ok_assemble by now apply dinfo_of_wf.
  apply describes_q_assemble; auto.
  - destruct wp; [now apply Hp | reflexivity].
  - now intros ->.
Qed.

Definition example_auth : auth :=
  {| a_principal := str "alice"; a_domain := str "jwt"; a_authenticated := true;
     a_claims := [(str "email", JStr (str "a@b.c")); (str "sub", JStr (str "u1"))] |}.

Definition example_q (cl wire : Z) (p : provider) (rd : redactor) : req_env :=
  {| q_method := str "exch"; q_protocol := str "Svc"; q_server_id := str "node0"; q_hash := str "h";
     q_batch_request_id := []; q_remote := str "127.0.0.1:9"; q_payload := PBytes [1; 2; 3; 4];
     q_auth := Some example_auth; q_err := ENone; q_stats := None;
     q_egress := Some {| g_request_id := str "rid"; g_content_length := cl; g_externalized := 0%Z;
                         g_writes := [100; 28]%Z |};
     q_debug := false; q_server_version := []; q_trace := p; q_redactor := rd; q_wire_request := wire |}.

Definition example_history : list op :=
  [ OInit 0 (example_q 408 408 PNone RDefault) (str "0123456789abcdef0123456789abcdef") true true;
    OCont 1 0 TNone false (example_q 900 900 PPanic RPanic) [] true ].

(* the late-hook shape: /init on a process that logs nothing (node 2), then a
   hook appears and two continuations are logged on two different nodes *)
Definition example_late_hook : list op :=
  [ OInit 2 (example_q 408 408 PNone RDefault) (str "0123456789abcdef0123456789abcdef") true false;
    ONoop;
    OCont 2 0 TNone false (example_q 900 900 PNone RDefault) [] true;
    OCont 1 0 TNone false (example_q 900 900 PNone RDefault) [] true ].

Definition example_dinfo : dinfo :=
  dinfo_of (example_q 408 408 (PRet (str "0123456789abcdef0123456789abcdef") (str "0123456789abcdef")) RDefault)
           false true [] [] false true.
