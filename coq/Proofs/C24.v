(* Proofs/C24.v — the credential extractors.  What the quote-aware splitter does to a
   text is read off one scan of it ([scan], [split_app]); a splitter that keeps each part
   whole recovers the parts of a join ([keeps], [unjoin] of Lib/Strs.v), which serves XFCC elements,
   their pairs and the components of a DN alike; parsing the rendering of a well-formed
   header then gives its denotation. *)
From VR Require Import Model.C24 Lib.Lists.
From Coq Require Import ZifyBool.
Open Scope N_scope.

(* The scanners of this file look one byte ahead after a backslash, so their
   step needs the hypothesis for the tail and for the tail's tail. *)
Lemma list_ind2 (P : bytes -> Prop) :
  P [] -> (forall c t, P t -> P (tl t) -> P (c :: t)) -> forall s, P s.
Proof.
  intros H0 H1 s. enough (G : P s /\ P (tl s)) by apply G.
  induction s as [|x s [IHa IHb]]; split; cbn [tl]; auto.
Qed.

Lemma Forall_map_wf {A B} (wf : A -> bool) (f : A -> B) (P : B -> Prop) l :
  (forall x, wf x = true -> P (f x)) -> forallb wf l = true -> Forall P (map f l).
Proof.
  intros H Hl. apply Forall_forall. intros y Hy. apply in_map_iff in Hy as (x & <- & Hx).
  rewrite forallb_forall in Hl. auto.
Qed.

Lemma beqb_iff a b a' b' : (a = b <-> a' = b') -> beqb a b = beqb a' b'.
Proof. intro H. apply eq_true_iff_eq. now rewrite !beqb_eq. Qed.

(* a byte of a class differs from every byte outside the class *)
Lemma eqb_out (P : N -> bool) c k : P c = true -> P k = false -> (c =? k) = false.
Proof. intros Hc Hk. destruct (N.eqb_spec c k); [congruence | reflexivity]. Qed.

Lemma trim_left_ns s : starts_space s = false -> trim_left s = s.
Proof. destruct s as [|c s]; cbn; [reflexivity|]. now intros ->. Qed.

Lemma trim_left_starts s : starts_space (trim_left s) = false.
Proof.
  induction s as [|c s IH]; cbn; [reflexivity|]. destruct (is_space c) eqn:E; [exact IH|]. cbn. exact E.
Qed.

(* a non-blank first byte stops trim_left even when text follows *)
Lemma trim_left_app_ns a s : starts_space (trim_left a) = false -> trim_left a <> [] ->
  trim_left (a ++ s) = trim_left a ++ s.
Proof.
  intros _ H. rewrite trim_left_app. destruct (forallb is_space a) eqn:E; [|reflexivity].
  now rewrite trim_left_blank in H.
Qed.

Lemma trim_right_ns s : ends_space s = false -> trim_right s = s.
Proof. intro H. unfold trim_right. rewrite trim_left_ns by exact H. apply rev_involutive. Qed.

Lemma trim_right_allsp w : allsp w = true -> trim_right w = [].
Proof. intro H. unfold trim_right. rewrite trim_left_blank; [reflexivity|]. now rewrite forallb_rev. Qed.

Lemma nonspace_ends (P : N -> bool) s : (forall c, P c = true -> is_space c = false) ->
  forallb P s = true -> starts_space s = false /\ ends_space s = false.
Proof.
  intros HP H. assert (G : forall l, forallb P l = true -> starts_space l = false).
  { intros [|c l]; cbn; [reflexivity|]. intro G. apply andb_true_iff in G as [G _]. now apply HP. }
  split; [now apply G|]. unfold ends_space. apply G. now rewrite forallb_rev.
Qed.

Lemma nodup_keys_inj toks k p q :
  nodup_keys toks = true -> In (k, p) toks -> In (k, q) toks -> p = q.
Proof.
  assert (K : forall r v, In (k, v) r -> existsb (fun tq : bytes * bytes => beqb k (fst tq)) r = true).
  { intros r v Hin. apply existsb_exists. exists (k, v). split; [exact Hin | apply beqb_refl]. }
  induction toks as [|[k0 p0] r IH]; cbn; [contradiction|]. intros Hn Hp Hq.
  apply andb_true_iff in Hn as [Hfresh Hn]. apply negb_true_iff in Hfresh.
  destruct Hp as [Ep | Hp], Hq as [Eq | Hq]; [congruence | | | now apply IH].
  - injection Ep as -> _. now rewrite (K r q Hq) in Hfresh.
  - injection Eq as -> _. now rewrite (K r p Hp) in Hfresh.
Qed.

Lemma prefix_nonempty tok : bearer_prefix ++ tok <> [].
Proof. discriminate. Qed.

(* One pass through the authenticator: what an acceptance and what a refusal
   says about the header, with no assumption on the token table. *)
Lemma bearer_auth_cases toks hdrs :
  match bearer_auth toks hdrs with
  | BAccept p => exists tok, In (tok, p) toks /\ hd [] hdrs = bearer_prefix ++ tok
  | BReject t => t = value_error /\ forall tok p, In (tok, p) toks -> hd [] hdrs <> bearer_prefix ++ tok
  end.
Proof.
  unfold bearer_auth. destruct (hd [] hdrs) as [|c h'].
  { split; [reflexivity|]. intros tok p _ E. now apply (prefix_nonempty tok). }
  destruct (has_prefix bearer_prefix (c :: h')) eqn:Ep.
  - apply has_prefix_spec in Ep as [r Er]. rewrite Er, drop_app_len.
    destruct (find _ toks) as [[k q]|] eqn:Ef.
    + apply find_some in Ef as [Hin Hk]. apply beqb_eq in Hk. cbn in Hk. subst k. now exists r.
    + split; [reflexivity|]. intros tok p Hin E. apply app_inv_head in E. subst tok.
      apply (find_none _ _ Ef) in Hin. cbn in Hin. now rewrite beqb_refl in Hin.
  - split; [reflexivity|]. intros tok p _ E. now rewrite E, has_prefix_app in Ep.
Qed.

Lemma bearer_spec_holds toks hdrs : bearer_spec toks hdrs (bearer_auth toks hdrs) = true.
Proof.
  unfold bearer_spec. pose proof (bearer_auth_cases toks hdrs) as C.
  destruct (bearer_auth toks hdrs) as [p|t].
  - destruct C as (tok & Hin & Eh). apply existsb_exists. exists (tok, p). split; [exact Hin|].
    cbn. now rewrite Eh, !beqb_refl.
  - destruct C as [-> C]. rewrite beqb_refl, andb_true_r. apply negb_true_iff, not_true_iff_false.
    intro Ex. apply existsb_exists in Ex as ([tok p] & Hin & Hb). apply beqb_eq in Hb. exact (C tok p Hin Hb).
Qed.

(* The model's [cons_hd] is convertible with the library's [hcons], so the splitters' steps
   are [prepend]s and the library's lemmas on [hcons] apply to them as they stand. *)
Lemma cons_hd_ne c l : cons_hd c l <> [].
Proof. destruct l; discriminate. Qed.

Lemma split_ne d inq s : split_rq d inq s <> [].
Proof.
  destruct s as [|c t]; [discriminate|]. cbn [split_rq].
  destruct (c =? QUOTE); [apply cons_hd_ne|].
  destruct ((c =? BSL) && inq); [destruct t; [discriminate | apply cons_hd_ne]|].
  destruct ((c =? d) && negb inq); [discriminate | apply cons_hd_ne].
Qed.

Lemma join_split_rq d s : forall inq, join [d] (split_rq d inq s) = s.
Proof.
  induction s as [|c t IH IHtl] using list_ind2; intro inq; [reflexivity|]. cbn [split_rq].
  destruct (c =? QUOTE). { rewrite join_hcons. now rewrite IH. }
  destruct ((c =? BSL) && inq).
  { destruct t as [|c2 t2]; [reflexivity|]. rewrite !join_hcons. cbn [tl] in IHtl. now rewrite IHtl. }
  destruct ((c =? d) && negb inq) eqn:E.
  { rewrite join_cons by apply split_ne. cbn [app]. rewrite IH.
    apply andb_true_iff in E as [E _]. apply N.eqb_eq in E. now subst. }
  rewrite join_hcons. now rewrite IH.
Qed.

(* [scan d inq s = Some q]: reading s from quote state inq meets no delimiter
   outside quotes, leaves no backslash dangling, and ends in quote state q *)
Fixpoint scan (d : N) (inq : bool) (s : bytes) : option bool :=
  match s with
  | [] => Some inq
  | c :: t =>
    if c =? QUOTE then scan d (negb inq) t
    else if (c =? BSL) && inq then match t with _ :: t2 => scan d inq t2 | [] => None end
    else if (c =? d) && negb inq then None
    else scan d inq t
  end.

(* a scanned prefix stays in the first part, and the splitter goes on behind it
   in the state the scan ended in *)
Lemma split_app d p : forall inq q r,
  scan d inq p = Some q -> split_rq d inq (p ++ r) = prepend p (split_rq d q r).
Proof.
  induction p as [|c t IH IHtl] using list_ind2; intros inq q r H.
  - now injection H as <-.
  - cbn [scan] in H. cbn [app split_rq]. change (prepend (c :: t) ?l) with (cons_hd c (prepend t l)).
    destruct (c =? QUOTE); [now rewrite (IH _ _ _ H)|].
    destruct ((c =? BSL) && inq).
    { destruct t as [|c2 t2]; [discriminate|]. cbn [app]. now rewrite (IHtl _ _ _ H). }
    destruct ((c =? d) && negb inq); [discriminate|]. now rewrite (IH _ _ _ H).
Qed.

Lemma scan_app d a : forall inq q b, scan d inq a = Some q -> scan d inq (a ++ b) = scan d q b.
Proof.
  induction a as [|c t IH IHtl] using list_ind2; intros inq q b H.
  - now injection H as <-.
  - cbn [scan app] in *.
    destruct (c =? QUOTE); [now apply IH|].
    destruct ((c =? BSL) && inq); [destruct t as [|c2 t2]; [discriminate | now apply IHtl]|].
    destruct ((c =? d) && negb inq); [discriminate | now apply IH].
Qed.

Lemma split_whole d inq q p : scan d inq p = Some q -> split_rq d inq p = [p].
Proof.
  intro H. rewrite <- (app_nil_r p) at 1. rewrite (split_app d p inq q [] H).
  cbn [split_rq]. now rewrite prepend_cons, !app_nil_r.
Qed.

Definition closed (d : N) (p : bytes) : Prop := scan d false p = Some false.

Lemma closed_app d a b : closed d a -> closed d b -> closed d (a ++ b).
Proof. unfold closed. intros Ha Hb. now rewrite (scan_app d a false false b Ha). Qed.

Lemma closed_join d sep parts : closed d [sep] -> Forall (closed d) parts -> closed d (join [sep] parts).
Proof.
  intros Hs H. induction H as [|p rest Hp _ IH]; [reflexivity|]. destruct rest as [|p2 rest']; [exact Hp|].
  rewrite join_cons by discriminate. now repeat apply closed_app.
Qed.

Lemma split_rq_join d parts :
  d <> QUOTE -> parts <> [] -> Forall (closed d) parts ->
  split_rq d false (join [d] parts) = parts.
Proof.
  intros Hd Hne Hall. apply unjoin; [reflexivity | | | exact Hne].
  { intro s. apply N.eqb_neq in Hd. cbn [split_rq]. now rewrite Hd, N.eqb_refl, andb_false_r. }
  revert Hall. apply Forall_impl. intros p Hp rest. exact (split_app d p false false rest Hp).
Qed.

Lemma escape_q_cons c v : escape_q (c :: v) =
  (if (c =? QUOTE) || (c =? BSL) then [BSL; c] else [c]) ++ escape_q v.
Proof. reflexivity. Qed.

(* unescapeQuoted undoes the renderer's escaping, whatever the bytes *)
Lemma unescape_escape v : unescape_q (escape_q v) = v.
Proof.
  induction v as [|c v IH]; [reflexivity|]. rewrite escape_q_cons.
  destruct ((c =? QUOTE) || (c =? BSL)) eqn:E; cbn [app unescape_q].
  - change (BSL =? BSL) with true.
    replace (c =? NL) with false by (unfold QUOTE, BSL, NL in *; lia). now rewrite IH.
  - apply orb_false_iff in E as [_ ->]. now rewrite IH.
Qed.

(* inside quotes the escaped text never closes the quote nor splits *)
Lemma scan_escape d v : forall r, scan d true (escape_q v ++ r) = scan d true r.
Proof.
  induction v as [|c v IH]; intro r; [reflexivity|]. rewrite escape_q_cons, <- app_assoc.
  destruct ((c =? QUOTE) || (c =? BSL)) eqn:E; cbn [app scan].
  - exact (IH r).
  - apply orb_false_iff in E as [-> ->]. cbn [negb]. rewrite andb_false_r. exact (IH r).
Qed.

Definition quoted_text (v : bytes) : bytes := QUOTE :: escape_q v ++ [QUOTE].

(* the opening quote enters the quoted state and the closing one leaves it *)
Lemma quoted_closed d v : closed d (quoted_text v).
Proof. exact (scan_escape d v [QUOTE]). Qed.

Lemma closed_bare d s : none_of [QUOTE; d] s = true -> closed d s.
Proof.
  unfold closed. induction s as [|c s IH]; [reflexivity|]. intro H. apply none_of_cons in H as [Hc Hs].
  cbn [mem existsb] in Hc. apply orb_false_iff in Hc as [Eq Hc]. apply orb_false_iff in Hc as [Ed _].
  cbn [scan]. rewrite Eq, andb_false_r, Ed. exact (IH Hs).
Qed.

(* without quote, backslash and delimiter a text means nothing to the splitter in either quote state *)
Lemma scan_plain d w : forall inq, none_of [QUOTE; BSL; d] w = true -> scan d inq w = Some inq.
Proof.
  induction w as [|c w IH]; intros inq H; [reflexivity|]. apply none_of_cons in H as [Hc Hw].
  cbn [mem existsb] in Hc. apply orb_false_iff in Hc as [Eq Hc]. apply orb_false_iff in Hc as [Eb Hc].
  apply orb_false_iff in Hc as [Ed _]. cbn [scan]. rewrite Eq, Eb, Ed. exact (IH inq Hw).
Qed.

Lemma split_plain d w inq : none_of [QUOTE; BSL; d] w = true -> split_rq d inq w = [w].
Proof. intro H. exact (split_whole d inq inq w (scan_plain d w inq H)). Qed.

(* Bytes w that are none of quote, backslash and delimiter, put behind a text, join its
   last part, so whoever reads the parts and is blind to w at the end of a part does not
   see them; p is what the first part holds already. A backslash left dangling inside
   quotes takes the first of them, which changes nothing. *)
Lemma fold_pad_r {X} (f : X -> bytes -> X) d w :
  none_of [QUOTE; BSL; d] w = true -> (forall e p, f e (p ++ w) = f e p) ->
  forall (s : bytes) inq p e, fold_left f (prepend p (split_rq d inq (s ++ w))) e = fold_left f (prepend p (split_rq d inq s)) e.
Proof.
  intros Hw Hf s. induction s as [|c t IH IHtl] using list_ind2; intros inq p e.
  - cbn [app]. rewrite split_plain by exact Hw. cbn [split_rq]. rewrite !prepend_cons, app_nil_r. apply Hf.
  - cbn [app split_rq]. destruct (c =? QUOTE).
    { change (cons_hd c ?l) with (prepend [c] l). rewrite !prepend_app. apply IH. }
    destruct ((c =? BSL) && inq).
    { destruct t as [|c2 t2]; cbn [app].
      - destruct w as [|x w']; [reflexivity|]. apply none_of_cons in Hw as [_ Hw]. rewrite split_plain by exact Hw.
        change (cons_hd c (cons_hd x [w'])) with [[c] ++ x :: w']. rewrite !prepend_cons, app_assoc. apply Hf.
      - change (cons_hd c (cons_hd c2 ?l)) with (prepend [c; c2] l). rewrite !prepend_app. apply IHtl. }
    destruct ((c =? d) && negb inq); [rewrite !prepend_cons; apply (IH inq [])|].
    change (cons_hd c ?l) with (prepend [c] l). rewrite !prepend_app. apply IH.
Qed.

Lemma fold_prepend w l e : allsp w = true -> l <> [] ->
  fold_left apply_pair (prepend w l) e = fold_left apply_pair l e.
Proof.
  intros H Hne. destruct l; [congruence|]. rewrite prepend_cons. cbn [fold_left]. unfold apply_pair.
  now rewrite trim_space_pad_l.
Qed.

(* trimming an element before splitting it on ';' changes nothing for the pairs *)
Lemma fold_trim_invariant s e :
  fold_left apply_pair (split_rq SEMI false (trim_space s)) e = fold_left apply_pair (split_rq SEMI false s) e.
Proof.
  destruct (trim_space_decomp s) as (w1 & w2 & H1 & H2 & E). set (m := trim_space s) in *. rewrite E.
  rewrite (split_app SEMI w1 false false) by (apply scan_plain; now apply (none_of_class is_space)).
  rewrite (fold_pad_r apply_pair SEMI w2);
    [| now apply (none_of_class is_space) | intros; unfold apply_pair; now rewrite trim_space_pad_r].
  symmetry. apply fold_prepend; [exact H1 | apply split_ne].
Qed.

Lemma drop_S_app {A} (a : list A) x b : drop (S (length a)) (a ++ x :: b) = b.
Proof. induction a; cbn; auto. Qed.

Lemma apply_pair_decomp e a b : none_of [EQ] a = true ->
  apply_pair e (a ++ EQ :: b) = set_field (to_lower (trim_space a)) (strip_quotes (trim_space b)) e.
Proof.
  intro Ha. unfold apply_pair.
  assert (Ep : trim_space (a ++ EQ :: b) = trim_left a ++ EQ :: trim_right b).
  { unfold trim_space. now rewrite trim_left_stop, trim_right_stop. }
  rewrite Ep. rewrite index_byte_app by (apply none_of_trim_left, Ha).
  rewrite take_app_len, drop_S_app.
  destruct (trim_left_decomp a) as (w & Hw & Ea). destruct (trim_right_decomp b) as (w' & Hw' & Eb).
  rewrite <- (trim_space_pad_l w (trim_left a) Hw), <- Ea.
  now rewrite <- (trim_space_pad_r (trim_right b) w' Hw'), <- Eb.
Qed.

Lemma qunesc_pct h1 h2 t : qunesc (PCT :: h1 :: h2 :: t) =
  if ishex h1 && ishex h2 then option_map (cons (16 * unhex h1 + unhex h2)) (qunesc t) else None.
Proof. reflexivity. Qed.
Lemma qunesc_plus t : qunesc (PLUS :: t) = option_map (cons SP) (qunesc t).
Proof. reflexivity. Qed.
Lemma qunesc_plain c t : (c =? PCT) = false -> (c =? PLUS) = false ->
  qunesc (c :: t) = option_map (cons c) (qunesc t).
Proof. intros H1 H2. cbn [qunesc]. now rewrite H1, H2. Qed.

(* a boolean fact about the numbers below a bound, read off its table *)
Lemma forall_below (P : N -> bool) k :
  forallb P (map N.of_nat (seq 0 k)) = true -> forall n, n < N.of_nat k -> P n = true.
Proof.
  intros H n Hn. rewrite forallb_forall in H. apply H. rewrite <- (N2Nat.id n). apply in_map, in_seq. lia.
Qed.

Lemma hexdig_ok n : n < 16 -> ishex (hexdig n) = true /\ unhex (hexdig n) = n.
Proof.
  intro H. pose proof (forall_below (fun n => ishex (hexdig n) && (unhex (hexdig n) =? n)) 16 eq_refl n H) as T.
  apply andb_true_iff in T as [T1 T2]. now apply N.eqb_eq in T2.
Qed.

Lemma qunesc_qesc1 c rest : c < 256 -> qunesc (qesc1 c ++ rest) = option_map (cons c) (qunesc rest).
Proof.
  intro Hc. unfold qesc1. destruct (c =? SP) eqn:Es.
  - apply N.eqb_eq in Es. subst c. apply qunesc_plus.
  - destruct (unreserved c) eqn:Eu.
    + cbn [app]. apply qunesc_plain; now apply (eqb_out unreserved).
    + cbn [app]. rewrite qunesc_pct.
      assert (Hn : c / 16 < 16) by (apply N.div_lt_upper_bound; [discriminate | exact Hc]).
      assert (Hm : c mod 16 < 16) by (apply N.mod_lt; discriminate).
      destruct (hexdig_ok _ Hn) as [I1 U1]. destruct (hexdig_ok _ Hm) as [I2 U2].
      rewrite I1, I2, U1, U2. cbn [andb]. rewrite <- (N.div_mod' c 16). reflexivity.
Qed.

(* QueryUnescape undoes QueryEscape on every byte string *)
Lemma qunesc_qescape v : all_bytes v = true -> qunesc (qescape v) = Some v.
Proof.
  induction v as [|c v IH]; [reflexivity|]. cbn [all_bytes forallb]. intro H.
  apply andb_true_iff in H as [Hc Hv]. unfold is_byte in Hc. apply N.ltb_lt in Hc.
  change (qescape (c :: v)) with (qesc1 c ++ qescape v). rewrite qunesc_qesc1 by exact Hc.
  unfold all_bytes in IH. now rewrite (IH Hv).
Qed.

(* what QueryEscape emits can stand bare in a header *)
Definition qsafe (c : N) : bool := barechar c && negb (is_space c).

Lemma hexdig_safe n : qsafe (hexdig n) = true.
Proof.
  (* a hex digit is a decimal digit or lies from 'A' upwards; no byte that [qsafe] excludes does *)
  set (P := fun x => (48 <=? x) && (x <=? 57) || (65 <=? x)).
  assert (H : P (hexdig n) = true) by (unfold P, hexdig; destruct (n <? 10) eqn:E; lia).
  unfold qsafe, barechar, is_space. now rewrite !(eqb_out P _ _ H).
Qed.

Lemma qescape_safe v : forallb qsafe (qescape v) = true.
Proof.
  induction v as [|c v IH]; [reflexivity|]. change (qescape (c :: v)) with (qesc1 c ++ qescape v).
  rewrite forallb_app, IH, andb_true_r. clear IH. unfold qesc1.
  destruct (c =? SP); [reflexivity|]. destruct (unreserved c) eqn:Eu.
  - cbn [forallb]. unfold qsafe, barechar, is_space. now rewrite !(eqb_out unreserved c _ Eu).
  - cbn [forallb]. rewrite !hexdig_safe. reflexivity.
Qed.

Lemma qescape_bare_ok v : bare_ok (qescape v) = true.
Proof.
  pose proof (qescape_safe v) as Q. unfold bare_ok.
  rewrite (forallb_imp qsafe barechar); [| intros c H; now apply andb_true_iff in H | exact Q].
  destruct (nonspace_ends qsafe (qescape v)) as [-> ->]; [|exact Q|reflexivity].
  intros c H. apply andb_true_iff in H as [_ H]. now apply negb_true_iff.
Qed.

Lemma key_facts k : key_ok k = true ->
  forallb keychar k = true /\ starts_space k = false /\ ends_space k = false /\ k <> [].
Proof.
  unfold key_ok. intro H. apply andb_true_iff in H as [Hne H]. destruct (nonspace_ends keychar k) as [S1 S2].
  { intros c Hc. unfold keychar in Hc. now destruct (is_space c). }
  { exact H. }
  repeat split; auto. now destruct k.
Qed.

Lemma wf_field_parts f : wf_field f = true ->
  allsp (f_ws1 f) = true /\ allsp (f_ws2 f) = true /\ allsp (f_ws3 f) = true /\ allsp (f_ws4 f) = true
  /\ key_ok (f_key f) = true /\ all_bytes (fval_val (f_val f)) = true
  /\ match f_val f with Bare v => is_urlkey (to_lower (f_key f)) || bare_ok v | Quoted _ => true end = true.
Proof. unfold wf_field. intro H. repeat (apply andb_true_iff in H as [H ?]). repeat split; assumption. Qed.

Definition wire_of (f : field) : bytes := wire_val (f_key f) (fval_val (f_val f)).
Definition valtext (f : field) : bytes := render_val (f_key f) (f_val f).

(* the value of a well-formed field is on the wire either quoted or as it is,
   and then has no blank at its ends and no delimiter or quote inside *)
Lemma valtext_cases f : wf_field f = true ->
  valtext f = quoted_text (wire_of f) \/ valtext f = wire_of f /\ bare_ok (wire_of f) = true.
Proof.
  intro H. apply wf_field_parts in H as (_ & _ & _ & _ & _ & _ & H). unfold valtext, wire_of.
  destruct (f_val f) as [v|v]; [right | now left]. split; [reflexivity|]. cbn [fval_val]. unfold wire_val.
  destruct (is_urlkey (to_lower (f_key f))); [apply qescape_bare_ok | exact H].
Qed.

Lemma bare_ok_parts w : bare_ok w = true ->
  forallb barechar w = true /\ starts_space w = false /\ ends_space w = false.
Proof.
  unfold bare_ok. intro H. apply andb_true_iff in H as [H He]. apply andb_true_iff in H as [H Hs].
  apply negb_true_iff in Hs, He. now repeat split.
Qed.

Lemma strip_quotes_bare w : forallb barechar w = true -> strip_quotes w = w.
Proof.
  destruct w as [|q r]; [reflexivity|]. cbn [forallb strip_quotes]. intro H.
  apply andb_true_iff in H as [H _]. apply andb_true_iff in H as [_ H]. apply negb_true_iff in H. now rewrite H.
Qed.

Lemma strip_quotes_quoted v : strip_quotes (quoted_text v) = v.
Proof.
  unfold quoted_text. cbn [strip_quotes]. change (QUOTE =? QUOTE) with true. cbv beta match.
  rewrite rev_app_distr. cbn [rev app]. change (QUOTE =? QUOTE) with true. cbv beta match.
  now rewrite rev_involutive, unescape_escape.
Qed.

Lemma valtext_trim f : wf_field f = true ->
  starts_space (valtext f) = false /\ ends_space (valtext f) = false /\ strip_quotes (valtext f) = wire_of f.
Proof.
  intro H. destruct (valtext_cases f H) as [E | [E B]]; rewrite E.
  - repeat split; [|apply strip_quotes_quoted].
    unfold ends_space, quoted_text. cbn [rev]. rewrite rev_app_distr. reflexivity.
  - apply bare_ok_parts in B as (B & Hs & He). repeat split; auto using strip_quotes_bare.
Qed.

Lemma valtext_closed d f : (d = COMMA \/ d = SEMI) -> wf_field f = true -> closed d (valtext f).
Proof.
  intros Hd H. destruct (valtext_cases f H) as [-> | [-> B]]; [apply quoted_closed|].
  apply bare_ok_parts in B as (B & _). apply closed_bare. destruct Hd as [-> | ->]; now apply (none_of_class barechar).
Qed.

Lemma set_field_denote e f : wf_field f = true ->
  set_field (to_lower (f_key f)) (wire_of f) e = denote_field e f.
Proof.
  intro H. apply wf_field_parts in H as (_ & _ & _ & _ & _ & Hb & _).
  unfold set_field, denote_field, wire_of, wire_val.
  destruct (is_urlkey (to_lower (f_key f))); [|reflexivity].
  unfold url_decode. now rewrite qunesc_qescape.
Qed.

Lemma render_field_shape f :
  render_field f = (f_ws1 f ++ f_key f ++ f_ws2 f) ++ EQ :: (f_ws3 f ++ valtext f ++ f_ws4 f).
Proof. unfold render_field, valtext. rewrite <- !app_assoc. reflexivity. Qed.

Lemma apply_pair_field e f : wf_field f = true -> apply_pair e (render_field f) = denote_field e f.
Proof.
  intro H. destruct (wf_field_parts f H) as (W1 & W2 & W3 & W4 & K & _).
  destruct (key_facts _ K) as (Kc & Ks & Ke & _).
  destruct (valtext_trim f H) as (Vs & Ve & Vq).
  rewrite render_field_shape, apply_pair_decomp.
  - rewrite (trim_space_core _ _ _ W1 W2 (trim_left_ns _ Ks) (trim_right_ns _ Ke)),
      (trim_space_core _ _ _ W3 W4 (trim_left_ns _ Vs) (trim_right_ns _ Ve)), Vq.
    now apply set_field_denote.
  - rewrite !none_of_app, (none_of_class is_space [EQ] _ W1), (none_of_class keychar [EQ] _ Kc),
      (none_of_class is_space [EQ] _ W2); reflexivity.
Qed.

Lemma field_closed d f : (d = COMMA \/ d = SEMI) -> wf_field f = true -> closed d (render_field f).
Proof.
  intros Hd H. destruct (wf_field_parts f H) as (W1 & W2 & W3 & W4 & K & _).
  destruct (key_facts _ K) as (Kc & _). unfold render_field. fold (valtext f).
  assert (Hsp : forall w, allsp w = true -> closed d w).
  { intros w Hw. apply closed_bare. destruct Hd as [-> | ->]; now apply (none_of_class is_space). }
  assert (Hkey : closed d (f_key f)).
  { apply closed_bare. destruct Hd as [-> | ->]; now apply (none_of_class keychar). }
  assert (Heq : closed d [EQ]) by (destruct Hd as [-> | ->]; reflexivity).
  repeat apply closed_app;
    [apply Hsp, W1 | exact Hkey | apply Hsp, W2 | exact Heq | apply Hsp, W3 | now apply valtext_closed | apply Hsp, W4].
Qed.

Lemma field_not_blank f : wf_field f = true -> allsp (render_field f) = false.
Proof.
  intro H. destruct (wf_field_parts f H) as (_ & _ & _ & _ & K & _).
  destruct (key_facts _ K) as (_ & Ks & _ & Kne). unfold render_field, allsp.
  rewrite !forallb_app. destruct (f_key f) as [|c k]; [congruence|]. cbn in Ks. cbn [forallb]. rewrite Ks.
  cbn [andb]. now rewrite andb_false_r.
Qed.

Lemma fold_fields fs : forallb wf_field fs = true -> forall e,
  fold_left apply_pair (map render_field fs) e = fold_left denote_field fs e.
Proof.
  induction fs as [|f fs IH]; intros H e; [reflexivity|]. cbn [forallb] in H.
  apply andb_true_iff in H as [Hf Hfs]. cbn [map fold_left]. rewrite apply_pair_field by exact Hf. now apply IH.
Qed.

Lemma join_not_blank d x l : allsp x = false -> allsp (join [d] (x :: l)) = false.
Proof.
  intro H. destruct l; cbn [join]; [exact H|]. unfold allsp in *. now rewrite forallb_app, H.
Qed.

Lemma parse_elem_render fs : wf_element fs = true -> parse_elem (render_element fs) = denote_element fs.
Proof.
  intro H. unfold wf_element in H. destruct fs as [|f fs']; [reflexivity|].
  unfold parse_elem, denote_element, render_element.
  set (E := join [SEMI] (map render_field (f :: fs'))).
  assert (Hnb : allsp E = false).
  { unfold E. cbn [map]. apply join_not_blank, field_not_blank. cbn [forallb] in H. now apply andb_true_iff in H as [H _]. }
  destruct (trim_space E) as [|x y] eqn:Et.
  - exfalso. destruct (trim_space_decomp E) as (w1 & w2 & H1 & H2 & Ed). rewrite Et in Ed. cbn [app] in Ed.
    rewrite Ed in Hnb. unfold allsp in *. rewrite forallb_app, H1, H2 in Hnb. discriminate.
  - rewrite <- Et, fold_trim_invariant. unfold E. rewrite split_rq_join.
    + f_equal. now apply fold_fields.
    + discriminate.
    + discriminate.
    + revert H. apply Forall_map_wf. intros g Hg. apply field_closed; [now right | exact Hg].
Qed.

Lemma element_closed fs : wf_element fs = true -> closed COMMA (render_element fs).
Proof.
  intro H. apply closed_join; [reflexivity|]. revert H. apply Forall_map_wf.
  intros f Hf. apply field_closed; [now left | exact Hf].
Qed.

Lemma dn_keeps_nil : keeps dn_split [].
Proof. intro rest. reflexivity. Qed.

Lemma dn_keeps_item i : item_ok i = true -> keeps dn_split (render_item i).
Proof.
  intros H rest.
  destruct i as [c|c]; cbn [render_item app item_ok] in *; cbn [dn_split].
  - apply andb_true_iff in H as [Ec Eb]. apply negb_true_iff in Ec, Eb. rewrite Eb, Ec.
    reflexivity.
  - change (BSL =? BSL) with true. cbv beta match. apply negb_true_iff in H. now rewrite H.
Qed.

Lemma dn_keeps_items v : forallb item_ok v = true -> keeps dn_split (render_dval v).
Proof.
  induction v as [|i v IH]; [intros _; exact dn_keeps_nil|]. cbn [forallb]. intro H.
  apply andb_true_iff in H as [Hi Hv]. change (render_dval (i :: v)) with (render_item i ++ render_dval v).
  apply keeps_app; [now apply dn_keeps_item | now apply IH].
Qed.

Lemma dn_keeps_plain a : none_of [COMMA; BSL] a = true -> keeps dn_split a.
Proof.
  induction a as [|c a IH]; [intros _; exact dn_keeps_nil|]. intro H. apply none_of_cons in H as [Hc Ha].
  change (c :: a) with ([c] ++ a). apply keeps_app; [|now apply IH]. apply (dn_keeps_item (DPlain c)).
  cbn [mem existsb item_ok] in *. apply orb_false_iff in Hc as [-> Hc]. now apply orb_false_iff in Hc as [-> _].
Qed.

Lemma wf_rdn_parts r : wf_rdn r = true ->
  allsp (r_pad r) = true /\ r_attr r <> [] /\ forallb attrchar (r_attr r) = true
  /\ forallb item_ok (r_val r) = true /\ r_val r <> []
  /\ is_space (item_last (last (r_val r) (DPlain 0))) = false.
Proof.
  unfold wf_rdn. intro H. repeat (apply andb_true_iff in H as [H ?]).
  destruct (r_val r) as [|i v] eqn:Ev; [discriminate|].
  repeat split; auto; try discriminate; [now destruct (r_attr r) | now apply negb_true_iff].
Qed.

Lemma dn_keeps_rdn r : wf_rdn r = true -> keeps dn_split (render_rdn r).
Proof.
  intro H. destruct (wf_rdn_parts r H) as (Hp & _ & Ha & Hv & _). unfold render_rdn.
  repeat apply keeps_app; [| | | now apply dn_keeps_items]; apply dn_keeps_plain;
    [now apply (none_of_class is_space) | now apply (none_of_class attrchar) | reflexivity].
Qed.

Lemma dn_split_render d : d <> [] -> wf_dn d = true -> dn_split (render_dn d) = map render_rdn d.
Proof.
  intros Hne H. apply unjoin; [reflexivity | reflexivity | | now destruct d].
  revert H. apply Forall_map_wf. exact dn_keeps_rdn.
Qed.

Lemma render_dval_last v : v <> [] -> exists x, render_dval v = x ++ [item_last (last v (DPlain 0))].
Proof.
  induction v as [|i v IH]; [congruence|]. intros _. destruct v as [|j v'].
  - destruct i as [c|c]; [now exists [] | now exists [BSL]].
  - destruct IH as [x Hx]; [discriminate|]. exists (render_item i ++ x).
    change (render_dval (i :: j :: v')) with (render_item i ++ render_dval (j :: v')).
    rewrite Hx, <- app_assoc. reflexivity.
Qed.

Lemma render_dval_ne v : v <> [] -> render_dval v <> [].
Proof. intro H. destruct (render_dval_last v H) as [x ->]. destruct x; discriminate. Qed.

Lemma trim_render_rdn r : wf_rdn r = true ->
  trim_space (render_rdn r) = r_attr r ++ EQ :: render_dval (r_val r).
Proof.
  intro H. destruct (wf_rdn_parts r H) as (Hp & Hane & Ha & _ & Hvne & Hvl).
  replace (render_rdn r) with (r_pad r ++ (r_attr r ++ EQ :: render_dval (r_val r)) ++ [])
    by (rewrite app_nil_r; reflexivity).
  apply trim_space_core; auto; [apply trim_left_ns | apply trim_right_ns].
  - destruct (nonspace_ends attrchar (r_attr r)) as [Hs _]; [|exact Ha|].
    { intros c Hc. unfold attrchar in Hc. now destruct (is_space c). }
    destruct (r_attr r); [congruence | exact Hs].
  - destruct (render_dval_last _ Hvne) as [x Hx]. rewrite Hx. unfold ends_space.
    rewrite rev_app_distr. cbn [rev]. rewrite rev_app_distr. cbn. exact Hvl.
Qed.

Lemma take_sep {X} (K : list X) : forall A c V, ~ In c A -> ~ In c K ->
  take (S (length K)) (A ++ c :: V) = K ++ [c] <-> A = K.
Proof.
  induction K as [|k K IH]; intros [|a A] c V HA HK; cbn [length take firstn app].
  - now split.
  - split; [intros [= ->]; destruct HA; now left | discriminate].
  - split; [intros [= ->]; destruct HK; now left | discriminate].
  - assert (HA' : ~ In c A) by (intro; apply HA; now right).
    assert (HK' : ~ In c K) by (intro; apply HK; now right).
    split; intros [= -> H]; f_equal; apply (IH A c V HA' HK'), H.
Qed.

(* what the CN test of extractCN says about a rendered RDN: comparing the first
   three bytes with "CN=" compares the type with "CN", as no type holds a '=' *)
Lemma cn_of_part_rdn r : wf_rdn r = true ->
  cn_of_part (render_rdn r) = if is_cn r then Some (render_dval (r_val r)) else None.
Proof.
  intro H. unfold cn_of_part. rewrite (trim_render_rdn r H).
  destruct (wf_rdn_parts r H) as (_ & _ & Ha & _ & Hvne & _). apply render_dval_ne in Hvne.
  set (val := render_dval (r_val r)) in *.
  assert (E : equal_fold (take 3 (r_attr r ++ EQ :: val)) cn_eq = is_cn r).
  { unfold is_cn, equal_fold. apply beqb_iff. unfold to_lower, take.
    rewrite <- firstn_map, map_app. apply (take_sep (map to_lower1 cn_name)); [|now intros [|[|[]]]].
    intro Hin. apply in_map_iff in Hin as (c & Hc & Hin). rewrite forallb_forall in Ha. apply Ha in Hin.
    unfold attrchar in Hin. apply andb_true_iff in Hin as [Hin _]. apply andb_true_iff in Hin as [Hin _].
    apply andb_true_iff in Hin as [_ Hin]. change (to_lower1 EQ) with 61 in Hc.
    clear -Hc Hin. unfold to_lower1, EQ in *. destruct ((65 <=? c) && (c <=? 90)) eqn:E; lia. }
  rewrite E. destruct (is_cn r) eqn:Ec; [|now rewrite andb_false_r].
  unfold is_cn, equal_fold in Ec. apply beqb_eq, (f_equal (@length N)) in Ec. unfold to_lower in Ec.
  rewrite !map_length in Ec. destruct (r_attr r) as [|a [|b [|]]]; try discriminate.
  now destruct val.
Qed.

Lemma first_cn_render d : wf_dn d = true -> first_cn (map render_rdn d) = cn_of d.
Proof.
  unfold wf_dn, cn_of. induction d as [|r d IH]; intro H; [reflexivity|].
  cbn [forallb] in H. apply andb_true_iff in H as [Hr Hd]. cbn [map first_cn find].
  rewrite cn_of_part_rdn by exact Hr. destruct (is_cn r); [reflexivity | now apply IH].
Qed.

Lemma filter_rdns d : wf_dn d = true -> filter nonempty (map render_rdn d) = map render_rdn d.
Proof.
  unfold wf_dn. induction d as [|r d IH]; intro H; [reflexivity|].
  cbn [forallb] in H. apply andb_true_iff in H as [Hr Hd]. cbn [map filter].
  destruct (wf_rdn_parts r Hr) as (_ & Hane & _).
  assert (X : nonempty (render_rdn r) = true).
  { unfold render_rdn. destruct (r_pad r); [|reflexivity]. destruct (r_attr r); [congruence | reflexivity]. }
  rewrite X. f_equal. now apply IH.
Qed.

Definition sel_ok (sel : bytes) : bool := beqb sel [] || beqb sel sel_first || beqb sel sel_last.

Lemma pick_map {A B} (f : A -> B) sel l : pick sel (map f l) = option_map f (pick sel l).
Proof.
  unfold pick. destruct (beqb sel sel_last).
  - rewrite <- map_rev. destruct (rev l); reflexivity.
  - destruct l; reflexivity.
Qed.

Lemma elem_eqb_refl e : elem_eqb e e = true.
Proof. unfold elem_eqb. now rewrite !beqb_refl, (list_eqb_refl beqb beqb_refl). Qed.

Lemma xfcc_auth_char sel hdrs : sel_ok sel = true ->
  xfcc_auth sel hdrs =
  match select sel (parse_xfcc (hd [] hdrs)) with
  | Some e => XOk dom_mtls (extract_cn (e_subject e)) (e_hash e) (e_subject e) (e_uri e) (e_dns e) (e_by e)
  | None => XErr value_error
  end.
Proof.
  intro Hs. unfold xfcc_auth. fold (sel_ok sel). rewrite Hs. cbn [negb].
  destruct (hd [] hdrs) as [|c h]; [|reflexivity].
  change (parse_xfcc []) with (@nil elem). unfold select. destruct (beqb sel sel_last); reflexivity.
Qed.

Lemma xfcc_auth_badsel sel hdrs : sel_ok sel = false -> xfcc_auth sel hdrs = XCfgErr.
Proof. intro Hs. unfold xfcc_auth. fold (sel_ok sel). now rewrite Hs. Qed.

Lemma auth_spec_holds sel hdrs :
  auth_spec sel (nonempty (hd [] hdrs)) (parse_xfcc (hd [] hdrs))
            (map (fun e => extract_cn (e_subject e)) (parse_xfcc (hd [] hdrs))) (xfcc_auth sel hdrs) = true.
Proof.
  unfold auth_spec. fold (sel_ok sel). destruct (sel_ok sel) eqn:Hs; cbn [negb].
  - rewrite (xfcc_auth_char sel hdrs Hs), pick_map. change (select sel) with (@pick elem sel).
    destruct (hd [] hdrs) as [|c h].
    + change (parse_xfcc []) with (@nil elem). unfold pick. destruct (beqb sel sel_last); reflexivity.
    + cbn [nonempty]. destruct (pick sel (parse_xfcc (c :: h))) as [e|]; cbn [option_map].
      * now rewrite !beqb_refl, (list_eqb_refl beqb beqb_refl).
      * apply beqb_refl.
  - now rewrite (xfcc_auth_badsel sel hdrs Hs).
Qed.

Lemma xfcc_obs_spec sel hdrs :
  match xfcc_obs sel (hd [] hdrs) hdrs with
  | OXfcc h c s p n a =>
      split_spec COMMA h c && split_spec SEMI h s && Nat.eqb (length n) (length p)
      && auth_spec sel (nonempty h) p n a = true
  | _ => False
  end.
Proof.
  cbn. unfold split_spec. rewrite !join_split_rq, !beqb_refl, map_length, Nat.eqb_refl. apply auth_spec_holds.
Qed.
