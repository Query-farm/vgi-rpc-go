(* The code's tokenizer (Split at commas, trim, cut at the semicolon, lower case, first
   occurrence wins) computes the items of the specification ([pieces_join], [norm_tok_eq]);
   the chooser computes the walk that [Chosen] axiomatises ([choose_spec]); [serve_spec] is
   the server's gate and stamping in one equation. *)
From VR Require Import Model.C17 Lib.Lists.
Open Scope N_scope.

Lemma memb_In x l : memb x l = true <-> In x l.
Proof. apply existsb_beqb_In. Qed.

Lemma memb_notIn x l : memb x l = false <-> ~ In x l.
Proof. exact (existsb_eqb_not_In beqb beqb_eq x l). Qed.

Lemma split_pieces h : split_on COMMA h = s_pieces h.
Proof.
  induction h as [|x t IH]; [reflexivity|]. rewrite split_on_cons, IH. cbn [s_pieces].
  destruct (x =? COMMA); reflexivity.
Qed.

(* so the pieces are THE comma-free decomposition of the header: Split and Join are
   mutually inverse *)
Lemma pieces_join h : join [COMMA] (s_pieces h) = h.
Proof. rewrite <- split_pieces. apply join_split. Qed.

Lemma pieces_nocomma h : Forall (fun p => ~ In COMMA p) (s_pieces h).
Proof.
  rewrite <- split_pieces. generalize (split_pieces_nosep COMMA h).
  apply Forall_impl. intro p. apply mem_false_iff.
Qed.

Lemma pieces_unique ps : ps <> [] -> Forall (fun p => ~ In COMMA p) ps ->
  s_pieces (join [COMMA] ps) = ps.
Proof.
  intros Hn Hf. rewrite <- split_pieces. apply split_join; [exact Hn|].
  revert Hf. apply Forall_impl. intro p. apply mem_false_iff.
Qed.

(* the code's cut (IndexByte, then the slice) is [before] *)
Lemma cut_before c t :
  match index_byte c t with Some i => take i t | None => t end = before c t.
Proof.
  induction t as [|x t IH]; cbn [index_byte before]; [reflexivity|].
  destruct (x =? c); [reflexivity|]. rewrite <- IH. now destruct (index_byte c t).
Qed.

Lemma before_app c a b : before c (a ++ b) = if mem c a then before c a else a ++ before c b.
Proof.
  induction a as [|x a IH]; cbn [app before mem existsb]; [reflexivity|]. rewrite (N.eqb_sym c x).
  destruct (x =? c); cbn [orb]; [reflexivity|]. fold (mem c a). rewrite IH. now destruct (mem c a).
Qed.

Lemma trim_space_idem s : trim_space (trim_space s) = trim_space s.
Proof.
  destruct (trim_space_decomp s) as (w1 & w2 & H1 & H2 & E). rewrite E at 2.
  now rewrite trim_space_pad_l, trim_space_pad_r.
Qed.

Lemma blank_mem c w : is_space c = false -> forallb is_space w = true -> mem c w = false.
Proof.
  intros Hc Hw. apply mem_false_iff. intro Hin. rewrite forallb_forall in Hw. apply Hw in Hin. congruence.
Qed.

Lemma before_none c s : mem c s = false -> before c s = s.
Proof. intro H. rewrite <- (app_nil_r s), before_app, H. reflexivity. Qed.

(* blanks around a text do not move the first non-blank c, so trimming first changes nothing *)
Lemma trim_before_trim c s : is_space c = false ->
  trim_space (before c (trim_space s)) = trim_space (before c s).
Proof.
  intro Hc. destruct (trim_space_decomp s) as (w1 & w2 & H1 & H2 & E). set (m := trim_space s) in *.
  rewrite E, !before_app, (blank_mem c w1 Hc H1), trim_space_pad_l by exact H1.
  destruct (mem c m) eqn:Em; [reflexivity|].
  now rewrite (before_none c m Em), (before_none c w2 (blank_mem c w2 Hc H2)), trim_space_pad_r.
Qed.

Lemma norm_tok_eq raw : norm_tok raw = s_norm raw.
Proof.
  unfold norm_tok, s_norm. f_equal. rewrite <- (trim_before_trim SEMI raw eq_refl), <- cut_before.
  destruct (index_byte SEMI (trim_space raw)); [reflexivity | symmetry; apply trim_space_idem].
Qed.

Fixpoint dedup (seen l : list bytes) : list bytes :=
  match l with
  | [] => []
  | x :: t => if memb x seen then dedup seen t else x :: dedup (x :: seen) t
  end.

Lemma parse_loop_dedup raws : forall seen,
  parse_loop seen raws = dedup seen (filter nonempty (map norm_tok raws)).
Proof.
  induction raws as [|r t IH]; intro seen; cbn [parse_loop map filter]; [reflexivity|].
  destruct (nonempty (norm_tok r)); cbn [negb dedup].
  - destruct (memb (norm_tok r) seen); now rewrite IH.
  - apply IH.
Qed.

Lemma parse_accept_dedup h : parse_accept h = dedup [] (s_items h).
Proof.
  destruct h as [|x t]; [reflexivity|]. unfold parse_accept, s_items.
  rewrite parse_loop_dedup, split_pieces. do 2 f_equal. apply map_ext. exact norm_tok_eq.
Qed.

Lemma dedup_ext l : forall s1 s2, (forall y, memb y s1 = memb y s2) -> dedup s1 l = dedup s2 l.
Proof.
  induction l as [|x t IH]; intros s1 s2 H; cbn [dedup]; [reflexivity|].
  rewrite (H x). destruct (memb x s2); [now apply IH|]. f_equal. apply IH.
  intro y. unfold memb. cbn [existsb]. f_equal. apply H.
Qed.

Lemma uniq_dedup l : forall acc,
  fold_left (fun acc x => if memb x acc then acc else acc ++ [x]) l acc = acc ++ dedup acc l.
Proof.
  induction l as [|x t IH]; intro acc; cbn [fold_left dedup]; [now rewrite app_nil_r|].
  destruct (memb x acc) eqn:E; [apply IH|]. rewrite IH, <- app_assoc. cbn [app]. do 2 f_equal.
  apply dedup_ext. intro y. unfold memb. rewrite existsb_app. cbn [existsb]. now rewrite orb_false_r, orb_comm.
Qed.

Lemma s_uniq_dedup l : s_uniq l = dedup [] l.
Proof. unfold s_uniq. now rewrite uniq_dedup. Qed.

Lemma In_dedup x l : forall seen, In x (dedup seen l) <-> In x l /\ ~ In x seen.
Proof.
  induction l as [|y t IH]; intro seen; cbn [dedup]; [cbn; tauto|].
  destruct (memb y seen) eqn:E.
  - apply memb_In in E. rewrite IH. cbn [In]. split; [tauto|]. intros [[->|H] Hn]; tauto.
  - apply memb_notIn in E. cbn [In]. rewrite IH. cbn [In]. split.
    + intros [->|[H Hn]]; tauto.
    + intros [[->|H] Hn]; [now left|]. destruct (list_eq_dec N.eq_dec y x) as [->|Hne]; [now left|].
      right. split; [assumption|]. intros [H'|H']; contradiction.
Qed.

Lemma NoDup_dedup l : forall seen, NoDup (dedup seen l).
Proof.
  induction l as [|y t IH]; intro seen; cbn [dedup]; [constructor|].
  destruct (memb y seen); [apply IH|]. constructor; [|apply IH].
  rewrite In_dedup. intros [_ H]. apply H. now left.
Qed.

Lemma memb_dedup x l : memb x (dedup [] l) = memb x l.
Proof. apply eq_true_iff_eq. rewrite !memb_In, In_dedup. cbn [In]. tauto. Qed.

Lemma find_dedup (p : bytes -> bool) l : forall seen,
  (forall y, In y seen -> p y = false) -> find p (dedup seen l) = find p l.
Proof.
  induction l as [|x t IH]; intros seen H; cbn [dedup find]; [reflexivity|].
  destruct (memb x seen) eqn:E.
  - apply memb_In in E. rewrite (H x E). now apply IH.
  - cbn [find]. destruct (p x) eqn:Ep; [reflexivity|]. apply IH.
    intros y [<-|Hy]; [assumption | now apply H].
Qed.

Lemma find_app {A} (p : A -> bool) a b :
  find p (a ++ b) = match find p a with Some x => Some x | None => find p b end.
Proof. induction a as [|x a IH]; cbn [app find]; [reflexivity|]. now destruct (p x). Qed.

Lemma find_filter {A} (p q : A -> bool) l :
  (forall x, q x = false -> p x = false) -> find p (filter q l) = find p l.
Proof.
  intro H. induction l as [|x t IH]; cbn [filter find]; [reflexivity|].
  destruct (q x) eqn:Eq.
  - cbn [find]. now rewrite IH.
  - now rewrite (H x Eq).
Qed.

Definition decisive (prod : list bytes) (c : bytes) : bool := beqb c identity || memb c prod.
Definition outcome (o : option bytes) : option bytes :=
  match o with Some c => if beqb c identity then None else Some c | None => None end.

Lemma s_first_find prod l : s_first prod l = outcome (find (decisive prod) l).
Proof.
  induction l as [|c t IH]; cbn [s_first find]; [reflexivity|]. unfold decisive at 1.
  destruct (beqb c identity) eqn:E; cbn [orb outcome]; [now rewrite E|].
  destruct (memb c prod); cbn [outcome]; [now rewrite E | exact IH].
Qed.

Lemma walk_find prod ct st m :
  walk prod ct st m =
  match find (decisive prod) m with
  | Some e => if beqb e identity then ([], false) else (e, memb e ct && negb (memb e st))
  | None => ([], false)
  end.
Proof.
  induction m as [|c t IH]; cbn [walk find]; [reflexivity|]. unfold decisive at 1.
  destruct (beqb c identity) eqn:E; cbn [orb]; [now rewrite E|].
  destruct (memb c prod); cbn [negb]; [now rewrite E | exact IH].
Qed.

Lemma find_merged p A B :
  find p (merged (dedup [] A) (dedup [] B)) = find p (A ++ B).
Proof.
  unfold merged. rewrite !find_app, find_dedup by (intros y []).
  destruct (find p A) eqn:EA; [reflexivity|].
  rewrite find_filter; [apply find_dedup; intros y []|].
  intros x Hq. apply negb_false_iff, memb_In, In_dedup in Hq. destruct Hq as [Hq _].
  exact (find_none _ _ EA x Hq).
Qed.

Lemma choose_walk cu st prod :
  choose cu st prod = walk prod (parse_accept cu) (parse_accept st) (merged (parse_accept cu) (parse_accept st)).
Proof. unfold choose. destruct (parse_accept cu), (parse_accept st); reflexivity. Qed.

Lemma choose_spec cu st prod :
  choose cu st prod =
  match s_first prod (s_pref cu st) with
  | None => ([], false)
  | Some c => (c, s_only_custom cu st c)
  end.
Proof.
  rewrite choose_walk, walk_find, !parse_accept_dedup, find_merged, s_first_find.
  unfold s_pref, s_only_custom. destruct (find (decisive prod) (s_items cu ++ s_items st)) as [e|]; cbn [outcome]; [|reflexivity].
  destruct (beqb e identity); [reflexivity|]. now rewrite !memb_dedup.
Qed.

Inductive Chosen (prod : list bytes) : list bytes -> option bytes -> Prop :=
| ch_nil : Chosen prod [] None
| ch_identity : forall l, Chosen prod (identity :: l) None
| ch_codec : forall c l, c <> identity -> In c prod -> Chosen prod (c :: l) (Some c)
| ch_skip : forall c l r, c <> identity -> ~ In c prod -> Chosen prod l r -> Chosen prod (c :: l) r.

Lemma chosen_iff prod l r : Chosen prod l r <-> s_first prod l = r.
Proof.
  split.
  - induction 1 as [|l|c l Hc Hi|c l r Hc Hi _ IH]; cbn [s_first].
    + reflexivity.
    + now rewrite beqb_refl.
    + apply beqb_neq in Hc. apply memb_In in Hi. now rewrite Hc, Hi.
    + apply beqb_neq in Hc. apply memb_notIn in Hi. now rewrite Hc, Hi.
  - revert r. induction l as [|c t IH]; intros r <-; cbn [s_first]; [constructor|].
    destruct (beqb c identity) eqn:E; [apply beqb_eq in E; subst; constructor|].
    apply beqb_neq in E. destruct (memb c prod) eqn:Em.
    + apply memb_In in Em. now constructor.
    + apply memb_notIn in Em. constructor; auto.
Qed.

Definition Decisive (prod : list bytes) (c : bytes) : Prop := c = identity \/ In c prod.

Lemma chosen_prefix prod l1 l r :
  (forall x, In x l1 -> ~ Decisive prod x) -> Chosen prod l r -> Chosen prod (l1 ++ l) r.
Proof.
  induction l1 as [|x l1 IH]; intros H Hc; cbn [app]; [assumption|].
  apply ch_skip.
  - intro E. apply (H x); [now left | now left].
  - intro E. apply (H x); [now left | now right].
  - apply IH; [|assumption]. intros y Hy. apply H. now right.
Qed.

(* the outcome as an option: [] is identity *)
Definition enc_opt (e : bytes) : option bytes := match e with [] => None | _ => Some e end.

Lemma items_nonempty h c : In c (s_items h) -> nonempty c = true.
Proof. unfold s_items. intro H. now apply filter_In in H. Qed.

Lemma pref_nonempty cu st c : In c (s_pref cu st) -> nonempty c = true.
Proof. unfold s_pref. intro H. apply in_app_or in H. destruct H; eapply items_nonempty; eassumption. Qed.

Lemma s_first_some prod l c : s_first prod l = Some c -> In c prod /\ In c l /\ c <> identity.
Proof.
  induction l as [|x t IH]; cbn [s_first]; [discriminate|].
  destruct (beqb x identity) eqn:E; [discriminate|]. destruct (memb x prod) eqn:Em.
  - intros [= <-]. apply memb_In in Em. apply beqb_neq in E. repeat split; [assumption | now left | assumption].
  - intro H. destruct (IH H) as [H1 [H2 H3]]. repeat split; [assumption | now right | assumption].
Qed.

Lemma s_first_nil l : s_first [] l = None.
Proof. induction l as [|x t IH]; cbn [s_first memb existsb]; [reflexivity|]. now destruct (beqb x identity). Qed.

Lemma nonempty_enc_opt c : nonempty c = true -> enc_opt c = Some c.
Proof. destruct c; [discriminate | reflexivity]. Qed.

Lemma used_custom_iff cu st prod :
  snd (choose cu st prod) = true <->
  exists c, s_first prod (s_pref cu st) = Some c /\ In c (s_items cu) /\ ~ In c (s_items st).
Proof.
  rewrite choose_spec. destruct (s_first prod (s_pref cu st)) as [c|]; cbn [snd].
  - unfold s_only_custom. rewrite andb_true_iff, negb_true_iff, memb_In, memb_notIn. split.
    + intros [H1 H2]. now exists c.
    + intros [c' [[= <-] H]]. exact H.
  - split; [discriminate | intros [c [H _]]; discriminate].
Qed.

Lemma choose_in_prod cu st prod c : fst (choose cu st prod) = c -> c <> [] -> In c prod.
Proof.
  rewrite choose_spec. destruct (s_first prod (s_pref cu st)) as [c'|] eqn:E; cbn [fst].
  - intros <- _. now apply s_first_some in E.
  - intros <- H. contradiction.
Qed.

Lemma serve_spec lvl cu st ctype ne :
  serve lvl cu st ctype ne =
  match (if beqb ctype c17_arrow_content_type && ne then s_first (producible lvl) (s_pref cu st) else None) with
  | Some c => let '(a, b) := s_stamp cu st c in (a, b, true)
  | None => ([], [], false)
  end.
Proof.
  unfold serve. destruct (producible lvl) as [|p ps] eqn:Ep.
  { rewrite s_first_nil. now destruct (beqb ctype c17_arrow_content_type && ne). }
  rewrite choose_spec. destruct (s_first (p :: ps) (s_pref cu st)) as [c|] eqn:E.
  - apply s_first_some in E. destruct E as [_ [E _]]. apply pref_nonempty in E. rewrite E.
    unfold finish, s_stamp. rewrite E. cbn [andb].
    destruct (beqb ctype c17_arrow_content_type && ne); [|reflexivity].
    now destruct (s_only_custom cu st c).
  - now destruct (beqb ctype c17_arrow_content_type && ne).
Qed.

Lemma producible_sub lvl c : In c (producible lvl) -> In c c17_supported_encodings.
Proof. unfold producible. destruct (lvl <=? 0)%Z; [intros [] | tauto]. Qed.

Lemma default_enabled : (0 <? c17_default_level)%Z = true.
Proof. vm_compute. reflexivity. Qed.

Lemma items_advertise lvl : s_items (advertise lvl) = producible lvl.
Proof. unfold advertise, producible. destruct (lvl <=? 0)%Z; vm_compute; reflexivity. Qed.

Lemma supported_selfchoose :
  forallb (fun c => beqb (fst (choose c [] c17_supported_encodings)) c && nonempty c
                    && beqb (fst (choose [] c c17_supported_encodings)) c)
          c17_supported_encodings = true.
Proof. vm_compute. reflexivity. Qed.

Section Codec.
  (* comp c b / decomp c b: the encoder / decoder of the codec named c *)
  Variable comp decomp : bytes -> bytes -> bytes.

  (* bytes put on the wire for a response whose handler wrote [body] *)
  Definition wire (r : bytes * bytes * bool) (body : bytes) : bytes :=
    let '(ce, xce, z) := r in
    if z then comp (if nonempty ce then ce else xce) body else body.
  (* what a client does with the stamped headers *)
  Definition decode (ce xce w : bytes) : bytes :=
    if nonempty ce then decomp ce w else if nonempty xce then decomp xce w else w.
End Codec.

(* two negotiations that do not meet the specification *)
(* walking the SERVER's order (first supported codec the client lists anywhere) *)
Definition choose_server_order (cu st : bytes) (prod : list bytes) : bytes :=
  match find (fun c => memb c (s_pref cu st)) prod with Some c => c | None => [] end.
(* reading the standard header only *)
Definition choose_standard_only (cu st : bytes) (prod : list bytes) : bytes :=
  match s_first prod (s_items st) with Some c => c | None => [] end.
