(* Proofs/C04.v — the unary response shape: what a run of log batches looks like;
   [level_table_ok] ties the literal 6 of [prio_in] to the compiled level table. *)
From VR Require Import Model.C04.
Open Scope N_scope.

Section Shape.
  Variable rid : bytes.

  Lemma logs_all_log ms : forallb is_log (map (log_frame rid) ms) = true.
  Proof. induction ms as [|m ms IH]; [reflexivity | exact IH]. Qed.

  Lemma logs_keys ms : map log_key (map (log_frame rid) ms) = map (fun m => (lg_level m, lg_msg m)) ms.
  Proof. apply map_map. Qed.

  Lemma logs_extras ms : map log_extras (map (log_frame rid) ms) = map (fun m => kv_sort (lg_extras m)) ms.
  Proof. apply map_map. Qed.

  Lemma logs_reqid ms :
    forallb (fun f => negb (is_log f || is_exc f) || beqb (frame_reqid f) rid) (map (log_frame rid) ms) = true.
  Proof. induction ms as [|m ms IH]; cbn [map forallb]; [reflexivity|]. rewrite IH. cbn. now rewrite beqb_refl. Qed.

  Lemma logs_no_data ms : count is_data (map (log_frame rid) ms) = 0%nat.
  Proof. induction ms as [|m ms IH]; [reflexivity | exact IH]. Qed.

  Lemma logs_no_exc ms : count is_exc (map (log_frame rid) ms) = 0%nat.
  Proof. induction ms as [|m ms IH]; [reflexivity | exact IH]. Qed.
End Shape.

Lemma level_table_ok :
  prio level_exception = 0%Z /\ prio level_trace = 5%Z /\ prio (str "no-such-level") = log_prio_unknown
  /\ length log_levels = 6%nat.
Proof. vm_compute. repeat split; reflexivity. Qed.
