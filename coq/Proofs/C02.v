(* Proofs/C02.v — the reader-level serve loop equals the per-call model on every
   history whose calls are in frame; shape of each response; the witnesses
   against the pre-fix variants. *)
From VR Require Import Model.C02.
Open Scope N_scope.

(* what serveOne does with the request stream of [r], read off the call's outcome *)
Definition act_of (r : req) (o : outcome) : action :=
  match o with
  | OStreamRan e h =>
      ReplyRun (header_stream r o)
        (run_stream e (r_reqid r) (r_script r)
           (match header_stream r o with [] => log_frames (r_reqid r) (sc_logs (r_script r)) | _ => [] end))
  | _ => (if consumes_input o then ReplyDrain else Reply) [data_stream r o no_inputs]
  end.

Lemma step_eq g r : step current g (encode_req r) = act_of r (classify g r).
Proof.
  destruct r as [mf ver pv ptr sh rows x id ex sc].
  unfold step, read_request, classify, encode_req, is_ptr, req_is_ptr, params_ok.
  cbn [cs_batches cs_shape cb_meta cb_rows cb_vals m_method m_ver m_pv m_ptr m_reqid m_script
       r_method r_ver r_pv r_ptr r_shape r_rows r_x r_reqid r_script hd].
  destruct mf as [| |m]; [reflexivity | reflexivity |].
  destruct ver; [reflexivity | | reflexivity].
  destruct (has_fields sh && negb (rows =? 1) && negb ((rows =? 0) && ptr)); [reflexivity|].
  cbn [cs_batches cs_shape cb_meta cb_rows cb_vals m_method m_ver m_pv m_ptr m_reqid m_script hd].
  destruct ((rows =? 0) && ptr).
  { destruct m; reflexivity. }
  (* describe, transport options and an unknown name are answered at once; a registered
     method passes the version gate and the parameter check first *)
  destruct m; cbn [lookup]; [ | | | | | | reflexivity | reflexivity | reflexivity].
  all: destruct (g && negb match pv with PVSame => true | _ => false end); [reflexivity|].
  all: destruct sh; cbn [negb]; [ | reflexivity | reflexivity].
  (* the two unary methods: the handler runs *)
  1-2: reflexivity.
  (* the four stream methods: init fails, returns nil, or the loop runs behind its header *)
  all: destruct sc as [logs fail nil val hdr turns]; cbn [sc_fail sc_nil sc_header sc_logs sc_turns].
  all: destruct fail; [reflexivity|]; destruct nil; [reflexivity|].
  all: destruct hdr; reflexivity.
Qed.

Lemma in_frame_eq g c : in_frame g c = true -> consumes_input (classify g (call_req c)) = is_stream_call c.
Proof. intros H. symmetry. exact (eqb_prop _ _ H). Qed.

(* the frame premise leaves, per outcome, the one kind of call that writes as many streams as
   [act_of] reads *)
Lemma serve_flat_call g c ws :
  in_frame g c = true ->
  serve_flat current g (client_writes_call c ++ ws) = serve_call g c ++ serve_flat current g ws.
Proof.
  intros Hf. apply in_frame_eq in Hf. unfold serve_call.
  destruct c as [r | r ins]; cbn [client_writes_call call_req call_inputs is_stream_call app serve_flat] in *;
    rewrite step_eq; destruct (classify g r) as [| | | | |[]| | | |[]|[]|void|f| |e h].
  (* [Hf] refutes the outcomes that read an input stream behind a unary call and those that
     read none behind a stream call; on the others both sides compute to the same list *)
  all: try discriminate Hf; try reflexivity.
  (* left over: a stream call whose loop ran; header stream, data stream, the rest reassociate *)
  cbn [act_of data_stream]. now rewrite <- app_assoc.
Qed.

Lemma client_writes_app h1 h2 : client_writes (h1 ++ h2) = client_writes h1 ++ client_writes h2.
Proof. unfold client_writes. now rewrite map_app, concat_app. Qed.

Lemma serve_loop_app g h1 h2 : serve_loop g (h1 ++ h2) = serve_loop g h1 ++ serve_loop g h2.
Proof. unfold serve_loop. now rewrite map_app, concat_app. Qed.

Lemma serve_flat_prefix g h ws :
  Forall (fun c => in_frame g c = true) h ->
  serve_flat current g (client_writes h ++ ws) = serve_loop g h ++ serve_flat current g ws.
Proof.
  induction 1 as [|c cs Hc _ IH]; [reflexivity|].
  change (client_writes (c :: cs)) with (client_writes_call c ++ client_writes cs).
  rewrite <- app_assoc, serve_flat_call by exact Hc.
  rewrite IH. unfold serve_loop. cbn [map concat]. now rewrite app_assoc.
Qed.

Lemma stays_in_frame g h :
  Forall (fun c => in_frame g c = true) h ->
  serve_flat current g (client_writes h) = serve_loop g h.
Proof.
  intros H. rewrite <- (app_nil_r (client_writes h)), serve_flat_prefix by exact H.
  cbn [serve_flat]. apply app_nil_r.
Qed.

Lemma next_request_unaffected g h1 h2 :
  Forall (fun c => in_frame g c = true) h1 ->
  serve_flat current g (client_writes (h1 ++ h2)) = serve_loop g h1 ++ serve_flat current g (client_writes h2).
Proof. intros H. rewrite client_writes_app. now apply serve_flat_prefix. Qed.

Lemma consumes_input_eq g r :
  consumes_input (classify g r) = routed r && is_stream_method (r_method r).
Proof.
  unfold classify, routed, is_stream_method.
  destruct (r_method r) as [| |m]; [reflexivity | reflexivity |].
  destruct (r_ver r); [reflexivity | | reflexivity].
  (* [routed] is the negation of the row-count refusal *)
  assert (negb (has_fields (r_shape r)) || (r_rows r =? 1) || req_is_ptr r
          = negb (has_fields (r_shape r) && negb (r_rows r =? 1) && negb (req_is_ptr r))) as ->
    by (destruct (has_fields (r_shape r)), (r_rows r =? 1), (req_is_ptr r); reflexivity).
  destruct (has_fields (r_shape r) && negb (r_rows r =? 1) && negb (req_is_ptr r)); [reflexivity|].
  destruct (req_is_ptr r); [destruct (lookup m) as [[|]|]; reflexivity|].
  destruct m; cbn [lookup]; [ | | | | | | reflexivity | reflexivity | reflexivity].
  all: destruct (g && negb match r_pv r with PVSame => true | _ => false end); [reflexivity|].
  all: destruct (r_shape r); [ | reflexivity | reflexivity].
  (* a unary method never reads an input stream; a stream method that got this far always
     does: init error, nil result or the loop *)
  1-2: reflexivity.
  all: destruct (sc_fail (r_script r)); [reflexivity|]; destruct (sc_nil (r_script r)); reflexivity.
Qed.

Lemma in_frame_scope g c : in_frame g c = in_scope c.
Proof.
  unfold in_frame, in_scope. destruct c as [r|r ins]; cbn [is_stream_call call_req]; rewrite consumes_input_eq;
    now destruct (routed r && is_stream_method (r_method r)).
Qed.

Lemma scope_forall g cs : forallb in_scope cs = true -> Forall (fun c => in_frame g c = true) cs.
Proof.
  intros H. apply Forall_forall. intros c Hc. rewrite in_frame_scope.
  rewrite forallb_forall in H. now apply H.
Qed.

(* frames that more may follow: correlated to [id] (or to nothing), no exception *)
Definition calm (id : bytes) (fs : list frame) : bool :=
  forallb (fun f => frame_reqid_ok id f && negb (is_exc f)) fs.
(* a whole frame list: correlated to [id], an exception at most as the last frame *)
Definition ended (id : bytes) (fs : list frame) : bool :=
  forallb (frame_reqid_ok id) fs && exc_only_last fs.

Lemma calm_app id a b : calm id (a ++ b) = calm id a && calm id b.
Proof. apply forallb_app. Qed.

Lemma calm_app_ended id a b : calm id a = true -> ended id b = true -> ended id (a ++ b) = true.
Proof.
  intros Ha Hb. induction a as [|f a IH]; [exact Hb|].
  cbn [calm forallb] in Ha. apply andb_true_iff in Ha as [Hf Ha]. apply andb_true_iff in Hf as [Hr He].
  specialize (IH Ha). unfold ended in *. apply andb_true_iff in IH as [I1 I2].
  cbn [app forallb exc_only_last]. rewrite Hr, He, I1, I2. now destruct (a ++ b).
Qed.

Lemma calm_ended id a : calm id a = true -> ended id a = true.
Proof. intros H. rewrite <- (app_nil_r a). now apply calm_app_ended. Qed.

Lemma calm_logs id id' l : id' = id \/ id' = [] -> calm id (log_frames id' l) = true.
Proof.
  intros H. induction l as [|m l IH]; [reflexivity|].
  cbn [log_frames map calm forallb frame_reqid_ok is_exc negb]. fold (log_frames id' l). fold (calm id (log_frames id' l)).
  rewrite IH. destruct H as [-> | ->]; rewrite beqb_refl; [reflexivity | now rewrite orb_true_r].
Qed.

Lemma exc_ended id id' ty k : id' = id \/ id' = [] -> ended id [exc_frame ty k id'] = true.
Proof.
  unfold ended. cbn [forallb exc_only_last frame_reqid_ok exc_frame].
  intros [-> | ->]; rewrite beqb_refl; [reflexivity | now rewrite orb_true_r].
Qed.

Lemma log_count id l : count is_final (log_frames id l) = 0%nat.
Proof. induction l; [reflexivity|]. cbn. exact IHl. Qed.

(* one Produce / Exchange call: what it flushes may be followed by more exactly when the loop goes on *)
Lemma run_turn_ok e id t s :
  (if snd (run_turn e id t s) then calm id else ended id) (fst (run_turn e id t s)) = true.
Proof.
  assert (L : calm id (log_frames [] (t_logs t)) = true) by (apply calm_logs; now right).
  assert (D : forall v, calm id (log_frames [] (t_logs t) ++ [FData 1 [v] []]) = true)
    by (intros; now rewrite calm_app, L).
  unfold run_turn. destruct (t_act t) as [| | | | |f]; cbn [fst snd].
  - apply D.
  - (* second Emit *) apply exc_ended; now left.
  - (* no Emit *) apply exc_ended; now left.
  - (* Finish: refused on an exchange, ends a producer after its logs *)
    destruct e; [apply exc_ended; now left | apply calm_ended, L].
  - destruct e; [apply exc_ended; now left | apply calm_ended, D].
  - apply exc_ended; now left.
Qed.

Lemma lockstep_ok e ok id turns bs : ended id (lockstep e ok id turns bs) = true.
Proof.
  revert turns. induction bs as [|b bs IH]; intros turns; [reflexivity|].
  cbn [lockstep]. destruct (m_cancel (cb_meta b)); [reflexivity|].
  destruct (e && negb ok); [apply exc_ended; now left|].
  set (t := match turns with [] => default_turn e | t :: _ => t end).
  pose proof (run_turn_ok e id t (sumZ (cb_vals b))) as R.
  destruct (run_turn e id t (sumZ (cb_vals b))) as [fs go]; cbn [fst snd] in R.
  destruct go; [now apply calm_app_ended | exact R].
Qed.

Lemma data_schema_not_hdr r o ins : beqb (st_schema (data_stream r o ins)) sch_hdr = false.
Proof. destruct o as [| | | | |sm| | | |k|k|void|f| |e h]; try destruct k as [void|? ?]; try destruct void; reflexivity. Qed.

Lemma unary_frames_ok void id x sc :
  ended id (unary_frames void id x sc) = true /\ count is_final (unary_frames void id x sc) = 1%nat.
Proof.
  unfold unary_frames. rewrite count_app, log_count. split.
  - apply calm_app_ended; [apply calm_logs; now left|].
    destruct (sc_fail sc); [apply exc_ended; now left | now destruct void].
  - destruct (sc_fail sc); [reflexivity | now destruct void].
Qed.

Lemma data_stream_ok_model g c :
  in_frame g c = true ->
  data_stream_ok c (data_stream (call_req c) (classify g (call_req c)) (call_inputs c)) = true.
Proof.
  intros Hf. apply in_frame_eq in Hf. unfold data_stream_ok. rewrite data_schema_not_hdr. cbn [negb andb].
  set (r := call_req c) in *. fold (ended (r_reqid r) (st_frames (data_stream r (classify g r) (call_inputs c)))).
  destruct (classify g r) as [| | | | |sm| | | |k|k|void|f| |e h]; try destruct k;
    cbn [data_stream err_stream st_frames]; try (rewrite exc_ended by auto; apply orb_true_r); cbn [consumes_input] in Hf.
  - (* describe *) now rewrite <- Hf.
  - (* transport options *) now rewrite <- Hf.
  - (* unary handler ran *)
    destruct (unary_frames_ok void (r_reqid r) (r_x r) (r_script r)) as (-> & ->). apply orb_true_r.
  - (* lockstep loop ran: the init logs, if they were not put on a header stream, then the loop's frames *)
    unfold run_stream. cbn [st_frames]. rewrite <- Hf, calm_app_ended; [reflexivity | | apply lockstep_ok].
    destruct (header_stream r (OStreamRan e h)); [apply calm_logs; now left | reflexivity].
Qed.

Lemma header_frames_snoc id l h : header_frames_ok (log_frames id l ++ [FData 1 [h] []]) = true.
Proof.
  induction l as [|m l IH]; [reflexivity|].
  cbn [log_frames map app header_frames_ok]. fold (log_frames id l).
  destruct (log_frames id l ++ [FData 1 [h] []]) eqn:E; [destruct (log_frames id l); discriminate|].
  cbn [is_log andb]. exact IH.
Qed.

Lemma header_shape r o :
  header_stream r o = []
  \/ exists h e, header_stream r o = [h] /\ st_schema h = sch_hdr /\ header_stream_ok h = true /\ o = OStreamRan e true.
Proof.
  destruct o as [| | | | |sm| | | |k|k|void|f| |e h]; try (now left).
  destruct h; [|now left]. cbn [header_stream]. destruct (sc_header (r_script r)) as [hv|]; [|now left].
  right. eexists _, e. repeat split. apply header_frames_snoc.
Qed.

Lemma call_response_ok g c cs rest :
  in_frame g c = true ->
  responses_ok g (c :: cs) (serve_call g c ++ rest) = responses_ok g cs rest.
Proof.
  intros Hf. pose proof (data_stream_ok_model g c Hf) as Hd. apply in_frame_eq in Hf.
  set (d := data_stream (call_req c) (classify g (call_req c)) (call_inputs c)) in *.
  assert (Hgood : match good_unary_value g c with
                  | Some (sch, f) => beqb (st_schema d) sch && frame_eqb (last (st_frames d) FToken) f
                  | None => true
                  end = true).
  { subst d. destruct c as [r|r ins]; cbn [good_unary_value call_req call_inputs]; [|reflexivity].
    destruct (classify g r); try reflexivity.
    destruct (sc_fail (r_script r)) eqn:Hfail; [reflexivity|].
    cbn [data_stream st_schema st_frames]. unfold unary_frames. rewrite Hfail, last_last, beqb_refl, frame_eqb_refl. reflexivity. }
  unfold serve_call. fold d.
  destruct (header_shape (call_req c) (classify g (call_req c))) as [-> | (h & e & -> & Hh & Hok & Ho)];
    cbn [app responses_ok].
  - rewrite (data_schema_not_hdr _ _ _ : beqb (st_schema d) sch_hdr = false), andb_false_r. cbn [fst snd].
    rewrite Hd. destruct (good_unary_value g c) as [[sch f]|]; [rewrite Hgood|]; reflexivity.
  - rewrite Ho in Hf. cbn [consumes_input] in Hf. rewrite <- Hf, Hh, beqb_refl. cbn [andb fst snd].
    rewrite Hok, Hd. destruct (good_unary_value g c) as [[sch f]|]; [rewrite Hgood|]; reflexivity.
Qed.

Lemma responses_ok_loop g cs :
  Forall (fun c => in_frame g c = true) cs -> responses_ok g cs (serve_loop g cs) = true.
Proof.
  induction 1 as [|c cs Hc _ IH]; [reflexivity|].
  unfold serve_loop. cbn [map concat]. rewrite call_response_ok by exact Hc. exact IH.
Qed.

Lemma run_conn_single g c : in_frame g c = true -> run_conn g [c] = serve_call g c.
Proof.
  intros H. unfold run_conn. rewrite stays_in_frame by (constructor; [exact H | constructor]).
  unfold serve_loop. cbn [map concat]. apply app_nil_r.
Qed.

Lemma alone_ok_model g cs :
  Forall (fun c => in_frame g c = true) cs -> alone_ok g cs (map (fun c => run_conn g [c]) cs) = true.
Proof.
  induction 1 as [|c cs Hc _ IH]; [reflexivity|].
  cbn [map alone_ok]. rewrite IH, andb_true_r, run_conn_single by exact Hc.
  rewrite <- (app_nil_r (serve_call g c)), call_response_ok by exact Hc. reflexivity.
Qed.

Lemma concat_alone g cs :
  Forall (fun c => in_frame g c = true) cs -> concat (map (fun c => run_conn g [c]) cs) = serve_loop g cs.
Proof.
  induction 1 as [|c cs Hc _ IH]; [reflexivity|].
  cbn [map concat]. rewrite IH, run_conn_single by exact Hc. reflexivity.
Qed.

Definition good_script : script :=
  {| sc_logs := []; sc_fail := None; sc_nil := false; sc_value := 100%Z; sc_header := None; sc_turns := [] |}.
Definition good_req (m : mname) (id : bytes) : req :=
  {| r_method := MName m; r_ver := VGood; r_pv := PVSame; r_ptr := false; r_shape := SX; r_rows := 1; r_x := 7%Z;
     r_reqid := id; r_extra := 0; r_script := good_script |}.
Definition one_tick : inputs := {| in_shape := SEmpty; in_items := [ {| it_cancel := false; it_vals := [] |} ] |}.
Definition canary : call := Unary (good_req MUInt (str "canary")).

(* a stream call with mismatched parameters, then a unary call *)
Definition w_param : list call :=
  [ Stream {| r_method := MName MProd; r_ver := VGood; r_pv := PVAbsent; r_ptr := false; r_shape := SOther; r_rows := 1;
              r_x := 5%Z; r_reqid := str "r1"; r_extra := 0; r_script := good_script |} one_tick; canary ].
(* gate on: a stream call with an incompatible protocol version, then a unary call *)
Definition w_gate : list call :=
  [ Stream {| r_method := MName MExch; r_ver := VGood; r_pv := PVOther; r_ptr := false; r_shape := SX; r_rows := 1;
              r_x := 5%Z; r_reqid := str "r1"; r_extra := 0; r_script := good_script |} one_tick; canary ].
(* a stream call whose request is a shm pointer batch on a connection without a segment *)
Definition w_ptr (ins : inputs) : list call :=
  [ Stream {| r_method := MName MProd; r_ver := VGood; r_pv := PVAbsent; r_ptr := true; r_shape := SX; r_rows := 0;
              r_x := 5%Z; r_reqid := str "r1"; r_extra := 0; r_script := good_script |} ins; canary ].

Definition legacy_param : variant := {| v_param_drain := false; v_gate_drain := true; v_ptr_drain := true |}.
Definition legacy_gate : variant := {| v_param_drain := true; v_gate_drain := false; v_ptr_drain := true |}.
Definition legacy_ptr : variant := {| v_param_drain := true; v_gate_drain := true; v_ptr_drain := false |}.

(* outside the premise: a client that writes an input stream behind a request the
   server cannot recognise as a stream call (unknown method / refused by
   ReadRequest) is out of frame even on the current code *)
Definition w_unknown_stream : list call :=
  [ Stream {| r_method := MName MUnknown; r_ver := VGood; r_pv := PVAbsent; r_ptr := false; r_shape := SX; r_rows := 1;
              r_x := 5%Z; r_reqid := str "r1"; r_extra := 0; r_script := good_script |} one_tick; canary ].
Definition w_badversion_stream : list call :=
  [ Stream {| r_method := MName MProd; r_ver := VBad; r_pv := PVAbsent; r_ptr := false; r_shape := SX; r_rows := 1;
              r_x := 5%Z; r_reqid := str "r1"; r_extra := 0; r_script := good_script |} one_tick; canary ].

(* resp answers call c: an optional header stream (stream calls only), then exactly
   one complete, well-formed data stream *)
Definition well_formed_response (c : call) (resp : list stream) : Prop :=
  exists d, st_schema d <> sch_hdr /\ data_stream_ok c d = true /\
    (resp = [d] \/ exists h, resp = [h; d] /\ st_schema h = sch_hdr /\ header_stream_ok h = true /\ is_stream_call c = true).

Lemma serve_call_well_formed g c : in_frame g c = true -> well_formed_response c (serve_call g c).
Proof.
  intros Hf. exists (data_stream (call_req c) (classify g (call_req c)) (call_inputs c)).
  split; [apply beqb_neq, data_schema_not_hdr|]. split; [now apply data_stream_ok_model|].
  unfold serve_call.
  destruct (header_shape (call_req c) (classify g (call_req c))) as [-> | (h & e & -> & Hh & Hok & Ho)]; [now left|].
  right. exists h. repeat split; auto. apply in_frame_eq in Hf. now rewrite <- Hf, Ho.
Qed.

Lemma one_response_per_request g cs :
  forallb in_scope cs = true ->
  exists resps, serve_flat current g (client_writes cs) = concat resps
                /\ Forall2 well_formed_response cs resps.
Proof.
  intros Hs. pose proof (scope_forall g _ Hs) as Hf.
  exists (map (serve_call g) cs). split; [now apply stays_in_frame|].
  clear Hs. induction Hf as [|c cs Hc _ IH]; constructor; [now apply serve_call_well_formed | exact IH].
Qed.

Lemma bursts_concat sizes cs : concat (bursts_of sizes cs) = cs.
Proof.
  revert cs. induction sizes as [|n t IH]; intros cs.
  - destruct cs; [reflexivity|]. cbn [bursts_of concat]. apply app_nil_r.
  - cbn [bursts_of concat]. rewrite IH. apply firstn_skipn.
Qed.

Lemma serve_flat_bursts g bs :
  Forall (fun c => in_frame g c = true) (concat bs) ->
  serve_flat current g (client_writes (concat bs))
  = concat (map (fun b => serve_flat current g (client_writes b)) bs).
Proof.
  induction bs as [|b bs IH]; intros H; [reflexivity|].
  cbn [concat map] in *. apply Forall_app in H as [Hb Hr].
  rewrite client_writes_app, serve_flat_prefix by exact Hb.
  rewrite IH by exact Hr. now rewrite stays_in_frame by exact Hb.
Qed.

Lemma pipelining_irrelevant g sizes cs :
  forallb in_scope cs = true ->
  serve_flat current g (client_writes cs)
  = concat (map (fun b => serve_flat current g (client_writes b)) (bursts_of sizes cs)).
Proof.
  intros H. rewrite <- (bursts_concat sizes cs) at 1. apply serve_flat_bursts.
  rewrite bursts_concat. now apply scope_forall.
Qed.
