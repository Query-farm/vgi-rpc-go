(* A cap is a number in the code (in force when positive) and an option in the spec:
   [caps_agree] relates the two cascades, [within_cap] / [maxwin_spec] translate their tests.
   A request observes one of three things: [precheck_status] (refused on its declared
   length), [run_over] (refused after cap + 1 bytes), [run_within] (the outcome of decoding
   the whole body, [decode_part]); the theorems of Props/C18.v rewrite with these. *)
From VR Require Import Model.C18.
Local Open Scope Z_scope.

Lemma lim_plus_one_id l : l < max64 -> lim_plus_one l = l + 1.
Proof. intro H. unfold lim_plus_one. destruct (Z.eqb_spec l max64); [lia | reflexivity]. Qed.

Lemma lim_plus_one_bounds l : l <= lim_plus_one l <= l + 1.
Proof. unfold lim_plus_one. destruct (Z.eqb_spec l max64); lia. Qed.

(* one byte past the cap unless the cap is MaxInt64 itself; a Go slice is shorter than that anyway *)
Lemma lim_plus_one_gt l n : n <= l -> n < max64 -> n < lim_plus_one l.
Proof. unfold lim_plus_one. destruct (Z.eqb_spec l max64); lia. Qed.

Lemma zlen_nonneg b : 0 <= zlen b.
Proof. unfold zlen. lia. Qed.

Lemma zlen_app a b : zlen (a ++ b) = zlen a + zlen b.
Proof. unfold zlen. rewrite app_length. lia. Qed.

Lemma take_z_len n l : zlen (take_z n l) = if n <=? 0 then 0 else Z.min n (zlen l).
Proof.
  unfold take_z. destruct (n <=? 0) eqn:E1; [reflexivity|].
  destruct (zlen l <=? n) eqn:E2; [lia|]. unfold zlen. rewrite firstn_length. lia.
Qed.

Lemma take_z_all n l : 0 < n -> zlen l <= n -> take_z n l = l.
Proof.
  intros H1 H2. unfold take_z. destruct (n <=? 0) eqn:E1; [lia|].
  destruct (zlen l <=? n) eqn:E2; [reflexivity | lia].
Qed.

(* io.LimitReader(r, cap + 1): one byte past the cap exactly when the data exceeds it *)
Lemma take_cap_plus_one m l : 0 < m -> zlen l < max64 ->
  if m <? zlen l then zlen (take_z (lim_plus_one m) l) = m + 1 else take_z (lim_plus_one m) l = l.
Proof.
  intros H0 Hs. destruct (Z.ltb_spec m (zlen l)).
  - rewrite lim_plus_one_id, take_z_len by lia. destruct (Z.leb_spec (m + 1) 0); lia.
  - pose proof (lim_plus_one_bounds m). apply take_z_all; lia.
Qed.

Lemma take_z_prefix n l : exists r, l = take_z n l ++ r.
Proof.
  unfold take_z. destruct (n <=? 0); [now exists l|].
  destruct (zlen l <=? n); [exists []; now rewrite app_nil_r|].
  exists (skipn (Z.to_nat n) l). now rewrite firstn_skipn.
Qed.

Lemma run_segs_ok mw ss : forallb (fun s => s_win s <=? mw) ss = true ->
  run_segs mw ss = (concat (map s_out ss), false).
Proof.
  induction ss as [|s t IH]; cbn [forallb run_segs map concat]; [reflexivity|].
  intro H. apply andb_true_iff in H as [H1 H2]. rewrite (IH H2).
  destruct (mw <? s_win s) eqn:E; [lia | reflexivity].
Qed.

(* cap m is in force and size n exceeds it *)
Definition over (m n : Z) : bool := (0 <? m) && (m <? n).

Lemma within_cap n k flag : within n (if 0 <? k then Some (k, flag) else None) = negb (over k n).
Proof. unfold over. destruct (0 <? k); cbn [within andb negb]; [lia | reflexivity]. Qed.

Lemma maxwin_spec d flag : s_maxwin (if 0 <? d then Some (d, flag) else None) = maxwin d.
Proof. unfold maxwin. destruct (0 <? d); reflexivity. Qed.

Lemma db_in_scope orc c data m : zlen (total (orc c data)) < max64 ->
  in_scope (orc c data) (maxwin m) = true ->
  fst (decompress_bounded orc c data m) =
  if over m (zlen (total (orc c data))) then DErr (EDecTooLarge m) else DOk (total (orc c data)).
Proof.
  intros Hsh Hs. unfold in_scope in Hs. unfold decompress_bounded, over.
  set (st := orc c data) in *.
  apply andb_true_iff in Hs as [Hs Hf]. apply andb_true_iff in Hs as [Hc Hw].
  destruct (is_zstd c && (0 <? m) && match st_fcs st with Some f => m <? f | None => false end) eqn:Epre.
  - cbn [fst]. apply andb_true_iff in Epre as [Ea Eb]. apply andb_true_iff in Ea as [_ Ea].
    destruct (st_fcs st) as [f|]; [|discriminate].
    assert (H : m < zlen (total st)) by (clear - Eb Hf; lia).
    now rewrite Ea, (proj2 (Z.ltb_lt _ _) H).
  - rewrite (run_segs_ok _ _ Hw). fold (total st). rewrite Hc. cbn [negb orb andb].
    destruct (0 <? m) eqn:E0; cbn [andb]; [|reflexivity].
    pose proof (take_cap_plus_one m (total st) (proj1 (Z.ltb_lt _ _) E0) Hsh) as Ht.
    destruct (m <? zlen (total st)) eqn:E1; rewrite Ht.
    + now rewrite (proj2 (Z.ltb_lt m (m + 1)) (Z.lt_succ_diag_r m)).
    + now rewrite E1.
Qed.

(* for every stream, hostile ones included: which errors, how much is returned, how much is pulled *)
Lemma db_bounds orc c data m :
  match fst (decompress_bounded orc c data m) with
  | DOk b => 0 < m -> zlen b <= m
  | DErr e => e = EDecTooLarge m \/ e = ECodec
  end /\ (0 < m -> 0 <= snd (decompress_bounded orc c data m) <= m + 1).
Proof.
  unfold decompress_bounded. set (st := orc c data).
  destruct (is_zstd c && (0 <? m) && match st_fcs st with Some f => m <? f | None => false end);
    [cbn [fst snd]; split; [now left | lia]|].
  destruct (run_segs (maxwin m) (st_segs st)) as [pre wfail].
  pose proof (lim_plus_one_bounds m) as Hb. pose proof (take_z_len (lim_plus_one m) pre) as HL.
  pose proof (zlen_nonneg pre).
  destruct (0 <? m) eqn:E0.
  - replace (lim_plus_one m <=? 0) with false in HL by lia.
    destruct ((wfail || negb (st_clean st)) &&
              (if st_sticky st then zlen pre <=? lim_plus_one m else zlen pre <? lim_plus_one m));
      [cbn [fst snd]; split; [now right | lia]|].
    destruct (m <? zlen (take_z (lim_plus_one m) pre)) eqn:E1; cbn [fst snd]; split; try lia. now left.
  - destruct (wfail || negb (st_clean st)); cbn [fst snd]; split; try lia. now right.
Qed.

Lemma sat_mul16_pos w : 0 < w -> 0 < sat_mul16 w.
Proof.
  intro H. unfold sat_mul16. destruct (max64 / derive_factor <? w); [reflexivity|].
  apply Z.mul_pos_pos; [assumption | reflexivity].
Qed.

Lemma caps_agree c ex limit rca : raw_limit c ex = (limit, rca) ->
  s_raw_cap c ex = (if 0 <? limit then Some (limit, rca) else None) /\
  (rca = true -> 0 < limit /\ s_adv c ex = Some limit) /\
  s_dec_cap c ex = (if 0 <? decode_cap c limit rca
                    then Some (decode_cap c limit rca, rca && (decode_cap c limit rca =? limit)) else None).
Proof.
  intro Hr.
  assert (Hraw : s_raw_cap c ex = (if 0 <? limit then Some (limit, rca) else None) /\
                 (rca = true -> 0 < limit /\ s_adv c ex = Some limit)).
  { (* the two sides test the same comparisons, so each case computes *)
    revert Hr. unfold raw_limit, s_raw_cap, s_adv, s_wire. rewrite (Z.leb_antisym 0 (mbs c)).
    destruct ((0 <? mrb c) && negb ex) eqn:Ea; cbn [andb].
    - (* an advertised cap applies; it governs unless a wire cap below it is set *)
      apply andb_true_iff in Ea as [Ea _].
      destruct (0 <? mbs c) eqn:Ew; cbn [negb orb]; [destruct (mrb c <=? mbs c)|]; intros [= <- <-].
      + rewrite Ea. split; [reflexivity|]. intros _. split; [now apply Z.ltb_lt | reflexivity].
      + rewrite Ew. split; [reflexivity | discriminate].
      + rewrite Ea. split; [reflexivity|]. intros _. split; [now apply Z.ltb_lt | reflexivity].
    - (* none applies: the wire cap, if one is set *)
      intros [= <- <-]. split; [now destruct (0 <? mbs c) | discriminate]. }
  destruct Hraw as [Hrc Hrca]. split; [exact Hrc|]. split; [exact Hrca|].
  unfold s_dec_cap, decode_cap. rewrite Hrc, (Z.leb_antisym 0 (mds c)).
  destruct rca.
  - (* the advertised cap governs unless an explicit decoded-size limit is tighter *)
    destruct Hrca as [Hl _]; [reflexivity|]. apply Z.ltb_lt in Hl as El. rewrite El. cbn [andb].
    destruct (0 <? mds c) eqn:Ed; cbn [negb orb andb]; [|now rewrite El, Z.eqb_refl].
    destruct (Z.compare_spec (mds c) limit) as [E|E|E].
    + rewrite E, Z.ltb_irrefl, El, Z.eqb_refl. reflexivity.
    + rewrite (proj2 (Z.ltb_lt _ _) E), (proj2 (Z.ltb_ge _ _) (Z.lt_le_incl _ _ E)), Ed,
        (proj2 (Z.eqb_neq _ _) (Z.lt_neq _ _ E)). reflexivity.
    + rewrite (proj2 (Z.ltb_lt _ _) E), (proj2 (Z.ltb_ge _ _) (Z.lt_le_incl _ _ E)), El, Z.eqb_refl. reflexivity.
  - cbn [andb]. destruct (0 <? mds c) eqn:Ed; cbn [negb andb].
    + destruct (0 <? limit); now rewrite Ed.
    + destruct (0 <? limit) eqn:El; [|now rewrite Ed].
      now rewrite (proj2 (Z.ltb_lt _ _) (sat_mul16_pos _ (proj1 (Z.ltb_lt _ _) El))).
Qed.

Lemma read_body_over orc c rq limit rca :
  raw_limit c (r_exempt rq) = (limit, rca) -> zlen (r_raw rq) < max64 -> over limit (zlen (r_raw rq)) = true ->
  read_body orc c rq = (DErr (if rca then EReqTooLarge limit else ERawTooLarge limit), limit + 1).
Proof.
  intros Hr Hm Ho. apply andb_true_iff in Ho as [H0 Hl]. unfold read_body. rewrite Hr, H0.
  pose proof (take_cap_plus_one limit (r_raw rq) (proj1 (Z.ltb_lt _ _) H0) Hm) as Ht. rewrite Hl in Ht.
  rewrite Ht, lim_plus_one_id by lia.
  replace (zlen (r_raw rq) <? limit + 1) with false by lia. rewrite andb_false_r.
  now rewrite (proj2 (Z.ltb_lt limit (limit + 1)) (Z.lt_succ_diag_r limit)).
Qed.

(* what happens once the wire body is within its cap *)
Definition decode_part (orc : oracle) (c : config) (rq : request) (limit : Z) (rca : bool) : dres :=
  let enc := norm_coding (r_ce rq) in
  if r_rderr rq then DErr ETransport
  else if is_identity enc then DOk (r_raw rq)
  else if memb enc c18_decodable_codings then
    let dcap := decode_cap c limit rca in
    match fst (decompress_bounded orc enc (r_raw rq) dcap) with
    | DErr (EDecTooLarge k) => if rca && (dcap =? limit) then DErr (EReqTooLarge limit) else DErr (EDecTooLarge k)
    | r => r
    end
  else DErr (EUnsupported enc).

Lemma read_body_within orc c rq limit rca :
  raw_limit c (r_exempt rq) = (limit, rca) -> zlen (r_raw rq) < max64 -> over limit (zlen (r_raw rq)) = false ->
  read_body orc c rq = (decode_part orc c rq limit rca, zlen (r_raw rq)).
Proof.
  intros Hr Hm Ho. unfold read_body, decode_part. rewrite Hr.
  assert (Hb : (if 0 <? limit then take_z (lim_plus_one limit) (r_raw rq) else r_raw rq) = r_raw rq /\
               (if 0 <? limit then zlen (r_raw rq) <? lim_plus_one limit else true) = true).
  { unfold over in Ho. destruct (0 <? limit) eqn:E0; [|now split]. cbn [andb] in Ho.
    pose proof (lim_plus_one_gt limit (zlen (r_raw rq)) ltac:(lia) Hm) as Hn.
    pose proof (zlen_nonneg (r_raw rq)). split; [apply take_z_all; lia | lia]. }
  destruct Hb as [-> ->]. fold (over limit (zlen (r_raw rq))). rewrite Ho, andb_true_r.
  destruct (r_rderr rq); [reflexivity|].
  destruct (is_identity _); [reflexivity|]. destruct (memb _ _); [|reflexivity].
  destruct (fst _) as [b|[]]; try reflexivity. destruct (rca && _); reflexivity.
Qed.

(* for every oracle: how much is read, and that only an unknown coding is answered 415 *)
Lemma read_body_shape orc c rq :
  snd (read_body orc c rq) =
  zlen (if 0 <? fst (raw_limit c (r_exempt rq))
        then take_z (lim_plus_one (fst (raw_limit c (r_exempt rq)))) (r_raw rq) else r_raw rq) /\
  forall e, fst (read_body orc c rq) = DErr e -> status_of e = 415 ->
    is_identity (norm_coding (r_ce rq)) = false /\ memb (norm_coding (r_ce rq)) c18_decodable_codings = false.
Proof.
  unfold read_body. destruct (raw_limit c (r_exempt rq)) as [limit rca]. cbn [fst].
  set (body := if 0 <? limit then take_z (lim_plus_one limit) (r_raw rq) else r_raw rq).
  destruct (r_rderr rq && _); [split; [reflexivity | intros e [= <-]; discriminate]|].
  destruct ((0 <? limit) && (limit <? zlen body)); [split; [reflexivity | intros e [= <-]; destruct rca; discriminate]|].
  destruct (is_identity _); [split; [reflexivity | discriminate]|].
  destruct (memb _ _); [|split; [reflexivity | now split]].
  pose proof (proj1 (db_bounds orc (norm_coding (r_ce rq)) body (decode_cap c limit rca))) as Hk.
  destruct (fst (decompress_bounded _ _ _ _)) as [b|e]; [split; [reflexivity | discriminate]|].
  destruct Hk as [-> | ->]; [destruct (rca && _)|]; (split; [reflexivity | intros e [= <-]; discriminate]).
Qed.

Definition run (http : bool) (orc : oracle) (c : config) (rq : request) : obs :=
  if http && precheck c rq then OHttpRefused c18_status_precheck (Some (mrb c)) true 0
  else match read_body orc c rq with
       | (DOk b, n) => OBody 200 b n
       | (DErr e, n) => if http then OHttpRefused (status_of e) (names_of e) false n
                        else ORefused (status_of e) e n
       end.

Definition obs_of (http : bool) (r : dres) (n : Z) : obs :=
  match r with
  | DOk b => OBody 200 b n
  | DErr e => if http then OHttpRefused (status_of e) (names_of e) false n else ORefused (status_of e) e n
  end.

Lemma nread_obs_of http r n : nread_of (obs_of http r n) = n.
Proof. destruct r; [reflexivity | destruct http; reflexivity]. Qed.

Lemma run_read_body http orc c rq : http && precheck c rq = false ->
  run http orc c rq = obs_of http (fst (read_body orc c rq)) (snd (read_body orc c rq)).
Proof. intro Hp. unfold run. rewrite Hp. now destruct (read_body orc c rq) as [[b|e] n]. Qed.

Lemma nread_run http orc c rq :
  nread_of (run http orc c rq) = 0 \/ nread_of (run http orc c rq) = snd (read_body orc c rq).
Proof.
  destruct (http && precheck c rq) eqn:Hp; [left; unfold run; now rewrite Hp|].
  right. rewrite (run_read_body _ _ _ _ Hp). apply nread_obs_of.
Qed.

(* the refusal a cap (k, adv) asks for: 413 naming k when it is the advertised one, else 400 *)
Definition cap_err (k : Z) (adv decoded : bool) : berr :=
  if adv then EReqTooLarge k else if decoded then EDecTooLarge k else ERawTooLarge k.

Lemma no_precheck http c rq : (http = true -> precheck c rq = false) <-> http && precheck c rq = false.
Proof. destruct http; cbn [andb]; intuition discriminate. Qed.

Lemma run_over http orc c rq k adv :
  s_raw_cap c (r_exempt rq) = Some (k, adv) -> zlen (r_raw rq) < max64 ->
  (http = true -> precheck c rq = false) -> k < zlen (r_raw rq) ->
  run http orc c rq = obs_of http (DErr (cap_err k adv false)) (k + 1).
Proof.
  intros Hc Hm Hp Hk. apply no_precheck in Hp. destruct (raw_limit c (r_exempt rq)) as [limit rca] eqn:Hr.
  destruct (caps_agree c _ _ _ Hr) as (Hrc & _ & _). rewrite Hrc in Hc.
  destruct (0 <? limit) eqn:E0; [|discriminate]. injection Hc as -> ->.
  rewrite (run_read_body _ _ _ _ Hp), (read_body_over orc c rq k adv Hr Hm); [reflexivity|].
  unfold over. now rewrite E0, (proj2 (Z.ltb_lt _ _) Hk).
Qed.

Lemma run_within http orc c rq limit rca :
  raw_limit c (r_exempt rq) = (limit, rca) -> zlen (r_raw rq) < max64 ->
  (http = true -> precheck c rq = false) -> within (zlen (r_raw rq)) (s_raw_cap c (r_exempt rq)) = true ->
  run http orc c rq = obs_of http (decode_part orc c rq limit rca) (zlen (r_raw rq)).
Proof.
  intros Hr Hm Hp Hw. apply no_precheck in Hp. destruct (caps_agree c _ _ _ Hr) as (Hrc & _ & _).
  rewrite Hrc, within_cap in Hw. apply negb_true_iff in Hw.
  now rewrite (run_read_body _ _ _ _ Hp), (read_body_within orc c rq limit rca Hr Hm Hw).
Qed.

Lemma precheck_spec c rq :
  precheck c rq = match s_adv c (r_exempt rq) with Some a => a <? r_cl rq | None => false end.
Proof.
  unfold precheck, s_adv. destruct (0 <? mrb c), (r_exempt rq); cbn [andb negb];
    try reflexivity; try apply andb_false_r; apply andb_true_r.
Qed.

Lemma precheck_status c rq orc :
  precheck c rq = true ->
  run true orc c rq = OHttpRefused 413 (Some (mrb c)) true 0 /\ s_adv c (r_exempt rq) = Some (mrb c).
Proof.
  intro Hp. unfold run. rewrite Hp. split; [reflexivity|].
  unfold precheck in Hp. apply andb_true_iff in Hp as [Hp Hx]. apply andb_true_iff in Hp as [Hp _].
  unfold s_adv. now rewrite Hp, Hx.
Qed.

Lemma berr_eqb_refl e : berr_eqb e e = true.
Proof. destruct e; cbn [berr_eqb]; try reflexivity; try apply Z.eqb_refl. apply beqb_refl. Qed.

Lemma delivered_obs http b n : delivered (obs_of http (DOk b) n) b n = true.
Proof. cbn [obs_of delivered]. now rewrite beqb_refl, !Z.eqb_refl. Qed.

Lemma refusal_obs http k adv dec n : refusal_ok http (k, adv) dec (obs_of http (DErr (cap_err k adv dec)) n) = true.
Proof.
  destruct http, adv, dec; cbn [refusal_ok obs_of cap_err status_of names_of negb andb opt_eqb berr_eqb];
    rewrite ?Z.eqb_refl; reflexivity.
Qed.

(* what the codec yields for THIS request's body stays below MaxInt64 bytes *)
Definition decoded_fits_int64 (orc : oracle) (rq : request) : Prop :=
  is_identity (norm_coding (r_ce rq)) = false ->
  memb (norm_coding (r_ce rq)) c18_decodable_codings = true ->
  zlen (total (orc (norm_coding (r_ce rq)) (r_raw rq))) < max64.

Lemma decode_part_in_scope orc c rq limit rca :
  let enc := norm_coding (r_ce rq) in let d := decode_cap c limit rca in let st := orc enc (r_raw rq) in
  r_rderr rq = false -> is_identity enc = false -> memb enc c18_decodable_codings = true ->
  zlen (total st) < max64 -> in_scope st (maxwin d) = true ->
  decode_part orc c rq limit rca =
  if over d (zlen (total st)) then DErr (cap_err d (rca && (d =? limit)) true) else DOk (total st).
Proof.
  intros enc d st Hrd Hi Hm Hsh Hs. unfold decode_part. fold enc d. rewrite Hrd, Hi, Hm.
  rewrite (db_in_scope _ _ _ _ Hsh Hs). fold st. destruct (over d (zlen (total st))); [|reflexivity].
  unfold cap_err. destruct (rca && (d =? limit)) eqn:Ef; [|reflexivity].
  apply andb_true_iff in Ef as [_ Ef]. apply Z.eqb_eq in Ef. now rewrite Ef.
Qed.

Lemma within_meets_spec http orc c rq limit rca :
  decoded_fits_int64 orc rq -> raw_limit c (r_exempt rq) = (limit, rca) ->
  http && precheck c rq = false -> within (zlen (r_raw rq)) (s_raw_cap c (r_exempt rq)) = true ->
  spec_request http orc c rq (obs_of http (decode_part orc c rq limit rca) (zlen (r_raw rq))) = true.
Proof.
  intros Hsh Hr Hp Hw. destruct (caps_agree c _ _ _ Hr) as (_ & _ & Hdc).
  unfold spec_request. rewrite <- precheck_spec, Hp, nread_obs_of, Hw, Hdc, maxwin_spec, !within_cap.
  (* nothing is refused for the wire size, and the whole body was read *)
  assert (Hhd : forall P, (zlen (r_raw rq) <=? zlen (r_raw rq)) &&
                match s_raw_cap c (r_exempt rq) with Some (k, _) => zlen (r_raw rq) <=? k + 1 | None => true end &&
                match s_raw_cap c (r_exempt rq) with
                | Some (k, adv) => if k <? zlen (r_raw rq) then P k adv else true
                | None => true end = true).
  { intro P. destruct (s_raw_cap c (r_exempt rq)) as [[k adv]|]; cbn [within] in Hw; [|lia].
    rewrite Z.ltb_antisym, Hw. clear - Hw. cbn [negb]. lia. }
  rewrite (Hhd (fun k adv => _ && _)). clear Hhd. cbn [andb].
  destruct (r_rderr rq) eqn:Hrd.
  { unfold decode_part. rewrite Hrd. destruct http; reflexivity. }
  destruct (is_identity (norm_coding (r_ce rq))) eqn:Hi.
  { unfold decode_part. rewrite Hrd, Hi. apply delivered_obs. }
  destruct (memb (norm_coding (r_ce rq)) c18_decodable_codings) eqn:Hm.
  2:{ unfold decode_part. rewrite Hrd, Hi, Hm.
      destruct http; cbn [obs_of status_of names_of negb andb opt_eqb];
        [reflexivity | now rewrite berr_eqb_refl]. }
  set (d := decode_cap c limit rca). set (st := orc (norm_coding (r_ce rq)) (r_raw rq)).
  destruct (in_scope st (maxwin d)) eqn:Hs.
  - rewrite (decode_part_in_scope orc c rq limit rca Hrd Hi Hm (Hsh Hi Hm) Hs). fold d st.
    destruct (over d (zlen (total st))) eqn:Hov; cbn [negb]; [|apply delivered_obs].
    apply andb_true_iff in Hov as [-> _]. apply refusal_obs.
  - (* a stream outside the quantifier: never a 415, never more than the cap *)
    unfold decode_part. rewrite Hrd, Hi, Hm. fold d.
    pose proof (proj1 (db_bounds orc (norm_coding (r_ce rq)) (r_raw rq) d)) as Hres.
    destruct (fst (decompress_bounded orc (norm_coding (r_ce rq)) (r_raw rq) d)) as [b|e].
    + cbn [obs_of]. rewrite within_cap. unfold over. destruct (0 <? d) eqn:E0; [|reflexivity].
      apply Z.ltb_lt, Hres, Z.ltb_ge in E0. now rewrite E0.
    + destruct Hres as [-> | ->]; [destruct (rca && (d =? limit))|]; destruct http; reflexivity.
Qed.

Lemma run_meets_spec http orc c rq :
  zlen (r_raw rq) < max64 -> decoded_fits_int64 orc rq ->
  spec_request http orc c rq (run http orc c rq) = true.
Proof.
  intros Hlm Hn. destruct (http && precheck c rq) eqn:Hp.
  - unfold spec_request, run. rewrite <- precheck_spec, Hp.
    apply andb_true_iff in Hp as [_ Hp]. apply (precheck_status c rq orc) in Hp as [_ ->].
    cbn [opt_eqb]. now rewrite !Z.eqb_refl.
  - pose proof (proj2 (no_precheck _ _ _) Hp) as Hp'.
    destruct (within (zlen (r_raw rq)) (s_raw_cap c (r_exempt rq))) eqn:Hw.
    + destruct (raw_limit c (r_exempt rq)) as [limit rca] eqn:Hr.
      rewrite (run_within _ _ _ _ _ _ Hr Hlm Hp' Hw). now apply within_meets_spec.
    + destruct (s_raw_cap c (r_exempt rq)) as [[k adv]|] eqn:Hc; [|discriminate]. cbn [within] in Hw.
      rewrite (run_over _ _ _ _ _ _ Hc Hlm Hp') by lia.
      unfold spec_request. rewrite <- precheck_spec, Hp, nread_obs_of, Hc. cbn [within].
      rewrite Hw, refusal_obs, Z.eqb_refl, (proj2 (Z.ltb_lt k _)) by lia. clear - Hw. cbn [andb]. lia.
Qed.

Lemma dres_eqb_refl r : dres_eqb r r = true.
Proof. destruct r; cbn [dres_eqb]; [apply beqb_refl | apply berr_eqb_refl]. Qed.

(* the decoder calls of the loop: one per decodable name of the header, last name first *)
Fixpoint layers (orc : oracle) (m : Z) (ls : list bytes) (cur : bytes) : dres :=
  match ls with
  | [] => DOk cur
  | c :: r => match fst (decompress_bounded orc c cur m) with
              | DOk b => layers orc m r b
              | DErr e => DErr e
              end
  end.

Lemma decode_ce_layers orc data ce m : decode_ce orc data ce m = layers orc m (s_layers ce) data.
Proof.
  transitivity (decode_loop orc m (rev (split_on COMMA ce)) data); [destruct ce; reflexivity|].
  unfold s_layers. generalize (rev (split_on COMMA ce)) as toks. intro toks. revert data.
  induction toks as [|t r IH]; intro cur; cbn [decode_loop map filter]; [reflexivity|].
  destruct (memb (norm_coding t) c18_decodable_codings); [|apply IH].
  cbn [layers]. destruct (fst _); [apply IH | reflexivity].
Qed.

(* a non-empty stack returns what its last decoder call returned, so [db_bounds] speaks of it *)
Lemma layers_bounds orc m : forall ls cur, ls <> [] ->
  match layers orc m ls cur with
  | DOk b => 0 < m -> zlen b <= m
  | DErr e => e = EDecTooLarge m \/ e = ECodec
  end.
Proof.
  induction ls as [|c r IH]; intros cur Hne; [congruence|]. cbn [layers].
  pose proof (proj1 (db_bounds orc c cur m)) as Hres.
  destruct (fst (decompress_bounded orc c cur m)) as [b|e]; [|exact Hres].
  destruct r as [|c' r']; [exact Hres | apply IH; discriminate].
Qed.

Lemma layers_spec orc m : (forall k d, zlen (total (orc k d)) < max64) -> forall ls cur,
  match s_peel orc m ls cur with
  | Some want => layers orc m ls cur = want
  | None => True
  end.
Proof.
  intro Hm. induction ls as [|c r IH]; intro cur; cbn [layers s_peel]; [reflexivity|].
  unfold s_cap. rewrite maxwin_spec.
  destruct (in_scope (orc c cur) (maxwin m)) eqn:Es; [|exact I].
  rewrite (db_in_scope _ _ _ _ (Hm _ _) Es), within_cap.
  destruct (over m (zlen (total (orc c cur)))); cbn [negb]; [reflexivity | apply IH].
Qed.

Lemma stack_meets_spec orc data ce m : (forall k d, zlen (total (orc k d)) < max64) ->
  spec_stack orc data ce m (decode_ce orc data ce m) = true.
Proof.
  intro Hm. rewrite decode_ce_layers. unfold spec_stack. destruct ce as [|x ce']; [apply dres_eqb_refl|].
  pose proof (layers_spec orc m Hm (s_layers (x :: ce')) data) as Hs.
  pose proof (layers_bounds orc m (s_layers (x :: ce')) data) as Hb.
  destruct (s_layers (x :: ce')) as [|l ls]; [cbn [s_peel layers]; now rewrite dres_eqb_refl|]. specialize (Hb ltac:(discriminate)).
  apply andb_true_iff. split.
  - destruct (s_peel orc m (l :: ls) data) as [want|]; [rewrite Hs; apply dres_eqb_refl|].
    destruct (layers orc m (l :: ls) data) as [b|e]; [reflexivity | destruct Hb; subst e; reflexivity].
  - destruct (layers orc m (l :: ls) data) as [b|e]; [|reflexivity].
    unfold s_cap. destruct (0 <? m) eqn:E0; cbn [within]; [lia | reflexivity].
Qed.

Lemma tbl_short t : fits_tbl t = true -> forall k d, zlen (total (tbl_oracle t k d)) < max64.
Proof.
  intros Ht k d. induction t as [|[[c' d'] st] r IH]; cbn [tbl_oracle].
  - reflexivity.
  - cbn [fits_tbl forallb snd] in Ht. apply andb_true_iff in Ht as [H1 H2].
    destruct (beqb k c' && beqb d d'); [unfold short in H1; lia | now apply IH].
Qed.

Lemma path_under_spec base : forall path, path_under base path = s_under base path.
Proof.
  unfold path_under, s_under. induction base as [|b bs IH]; intro path.
  - cbn [app has_prefix length skipn andb]. destruct path as [|ch t]; [reflexivity|].
    cbn [beqb has_prefix orb]. now rewrite andb_true_r, N.eqb_sym.
  - destruct path as [|ch t]; [reflexivity|].
    cbn [app beqb has_prefix length skipn]. specialize (IH t).
    rewrite (N.eqb_sym ch b). destruct (N.eqb b ch); cbn [andb orb]; [exact IH | reflexivity].
Qed.

Lemma exempt_eq pfx path : is_exempt pfx path = s_exempt pfx path.
Proof. unfold is_exempt, s_exempt. now rewrite !path_under_spec. Qed.

Lemma path_under_iff base path :
  path_under base path = true <-> path = base \/ exists rest, path = base ++ SLASH :: rest.
Proof.
  unfold path_under. rewrite orb_true_iff, beqb_eq, has_prefix_spec. split; intros [H|[r H]]; auto.
  - right. exists r. now rewrite H, <- app_assoc.
  - right. exists r. now rewrite H, <- app_assoc.
Qed.

Lemma resolve_eq i : resolve s_exempt i = resolve is_exempt i.
Proof. destruct i; cbn [resolve]; try reflexivity; now rewrite exempt_eq. Qed.

Lemma core_meets_spec i : fits i = true -> spec_core i (model_core i) = true.
Proof.
  destruct i as [ops rq t | ops rq t | data ce m t | pfx path ops rq t | pfx path ops rq t];
    cbn [fits spec_core]; intro Hn; try reflexivity.
  - apply andb_true_iff in Hn as [H1 H2].
    change (model_core (Direct ops rq t)) with (run false (tbl_oracle t) (configure ops) rq).
    apply run_meets_spec; [unfold short in H1; lia | intros _ _; now apply tbl_short].
  - apply andb_true_iff in Hn as [H1 H2].
    change (model_core (Http ops rq t)) with (run true (tbl_oracle t) (configure ops) rq).
    apply run_meets_spec; [unfold short in H1; lia | intros _ _; now apply tbl_short].
  - cbn [model_core]. apply stack_meets_spec. now apply tbl_short.
Qed.

Lemma fits_resolve ex i : fits (resolve ex i) = fits i.
Proof. destruct i; reflexivity. Qed.

Lemma In_memb x l : In x l -> memb x l = true.
Proof. apply existsb_beqb_In. Qed.

(* facts about the regenerated coding names: lower-case, blank-free, not identity, comma-free *)
Lemma coding_names_ok : forall c, In c c18_decodable_codings ->
  norm_coding c = c /\ is_identity c = false /\ mem COMMA c = false.
Proof.
  assert (H : forallb (fun c => beqb (norm_coding c) c && negb (is_identity c) && negb (existsb (N.eqb COMMA) c))
                      c18_decodable_codings = true) by (vm_compute; reflexivity).
  intros c Hc. rewrite forallb_forall in H. specialize (H c Hc).
  apply andb_true_iff in H as [H H3]. apply andb_true_iff in H as [H1 H2].
  apply beqb_eq in H1. apply negb_true_iff in H2, H3. now repeat split.
Qed.

(* how an observable answers: status and the max_request_bytes value it names *)
Definition answers (o : obs) (st : Z) (names : option Z) : Prop :=
  match o with
  | ORefused s e _ => s = st /\ names_of e = names
  | OHttpRefused s nm _ _ => s = st /\ nm = names
  | _ => False
  end.

Lemma answers_cap_err http k adv dec n :
  answers (obs_of http (DErr (cap_err k adv dec)) n) (if adv then 413 else 400) (if adv then Some k else None).
Proof. destruct http, adv, dec; split; reflexivity. Qed.

Section Codec.
  Variable orc : oracle.
  Variable P : Type.                                 (* encoder settings: level, framing, window *)
  Variable comp : bytes -> P -> bytes -> bytes.      (* coding name, settings, payload -> wire bytes *)
  Variable need : bytes -> P -> bytes -> Z.          (* window memory the decoder needs for it *)
  (* decomp (comp x) = x, as the streaming decoder sees it *)
  Hypothesis codec_ok : forall c p x, In c c18_decodable_codings ->
    let st := orc c (comp c p x) in
    st_clean st = true /\ total st = x /\
    Forall (fun s => s_win s <= need c p x) (st_segs st) /\
    (forall f, st_fcs st = Some f -> f <= zlen x).

  Lemma codec_in_scope c p x mw : In c c18_decodable_codings -> need c p x <= mw ->
    in_scope (orc c (comp c p x)) mw = true /\ total (orc c (comp c p x)) = x.
  Proof.
    intros Hc Hn. destruct (codec_ok c p x Hc) as (H1 & H2 & H3 & H4). split; [|assumption].
    unfold in_scope. rewrite H1, H2. cbn [andb]. apply andb_true_iff. split.
    - apply forallb_forall. intros s Hs. rewrite Forall_forall in H3. specialize (H3 s Hs). lia.
    - destruct (st_fcs (orc c (comp c p x))) as [f|] eqn:Ef; [|reflexivity]. specialize (H4 f eq_refl). lia.
  Qed.

  Lemma run_compressed http c rq enc p x :
    zlen (r_raw rq) < max64 -> zlen x < max64 -> (http = true -> precheck c rq = false) ->
    norm_coding (r_ce rq) = enc -> In enc c18_decodable_codings ->
    r_raw rq = comp enc p x -> r_rderr rq = false ->
    within (zlen (r_raw rq)) (s_raw_cap c (r_exempt rq)) = true ->
    need enc p x <= s_maxwin (s_dec_cap c (r_exempt rq)) ->
    run http orc c rq =
    obs_of http (match s_dec_cap c (r_exempt rq) with
                 | Some (k, adv) => if k <? zlen x then DErr (cap_err k adv true) else DOk x
                 | None => DOk x
                 end) (zlen (r_raw rq)).
  Proof.
    intros Hn Hx Hp He Hc Hraw Hrd Hw Hneed. destruct (raw_limit c (r_exempt rq)) as [limit rca] eqn:Hr.
    destruct (caps_agree c _ _ _ Hr) as (_ & _ & Hdc). rewrite Hdc in Hneed |- *. rewrite maxwin_spec in Hneed.
    destruct (codec_in_scope enc p x _ Hc Hneed) as [Hs Ht].
    destruct (coding_names_ok enc Hc) as (_ & Hid & _). apply In_memb in Hc.
    rewrite <- Hraw in Hs, Ht. rewrite <- He in Hs, Ht, Hid, Hc.
    rewrite (run_within _ _ _ _ _ _ Hr Hn Hp Hw), (decode_part_in_scope orc c rq limit rca Hrd Hid Hc), Ht;
      [| now rewrite Ht | exact Hs].
    unfold over. now destruct (0 <? decode_cap c limit rca).
  Qed.

  (* stacks of codings, as an intermediary sees them *)
  Definition encode_stack (cs : list (bytes * P)) (x : bytes) : bytes :=
    fold_left (fun acc cp => comp (fst cp) (snd cp) acc) cs x.
  Definition stack_header (cs : list (bytes * P)) : bytes := join [COMMA] (map fst cs).
  (* every level fits the per-coding limit and the decoder's window ceiling under it *)
  Fixpoint stack_ok (m : Z) (cs : list (bytes * P)) (x : bytes) : Prop :=
    match cs with
    | [] => True
    | (c, p) :: r => In c c18_decodable_codings /\ zlen x < max64 /\ (m <= 0 \/ zlen x <= m) /\
                     need c p x <= maxwin m /\
                     stack_ok m r (comp c p x)
    end.

  (* the codings come off last first, so the names still to undo are carried along *)
  Lemma layers_stack m : forall cs x rest, stack_ok m cs x ->
    layers orc m (rev (map fst cs) ++ rest) (encode_stack cs x) = layers orc m rest x.
  Proof.
    induction cs as [|[c p] r IH]; intros x rest Hok; [reflexivity|].
    cbn [stack_ok] in Hok. destruct Hok as (Hc & Hx & Hlen & Hneed & Hr).
    cbn [map rev fst]. rewrite <- app_assoc. change (encode_stack ((c, p) :: r) x) with (encode_stack r (comp c p x)).
    rewrite (IH _ _ Hr). cbn [app layers].
    destruct (codec_in_scope c p x _ Hc Hneed) as [Hs Ht].
    rewrite (db_in_scope _ _ _ _ ltac:(rewrite Ht; exact Hx) Hs), Ht. unfold over.
    replace ((0 <? m) && (m <? zlen x)) with false by lia. reflexivity.
  Qed.
End Codec.

(* a header written from coding names reads back as those names *)
Lemma s_layers_join names : Forall (fun c => In c c18_decodable_codings) names ->
  s_layers (join [COMMA] names) = rev names.
Proof.
  intro H. destruct names as [|n r] eqn:E; [reflexivity|]. rewrite <- E in *. unfold s_layers.
  rewrite split_join;
    [| subst; discriminate | eapply Forall_impl; [|exact H]; intros c Hc; apply (coding_names_ok c Hc)].
  apply Forall_rev in H. induction H as [|c l Hc _ IH]; cbn [map filter]; [reflexivity|].
  destruct (coding_names_ok c Hc) as (-> & _). now rewrite (In_memb _ _ Hc), IH.
Qed.

Lemma stack_ok_names {P} (comp : bytes -> P -> bytes -> bytes) need m cs x :
  stack_ok P comp need m cs x -> Forall (fun c => In c c18_decodable_codings) (map fst cs).
Proof.
  revert x. induction cs as [|[c p] r IH]; intros x H; cbn [map fst]; [constructor|].
  cbn [stack_ok] in H. destruct H as (Hc & _ & _ & _ & Hr). constructor; [assumption | eapply IH; eassumption].
Qed.

(* inputs on which the code before d7c7597 / afb7453 broke the property *)
Definition legacy_witness : input :=
  Direct [SetMaxDecompressed 100]
    {| r_exempt := false; r_cl := 20; r_raw := pat 1 0 20; r_rderr := false; r_ce := c18_gzip |}
    [(c18_gzip, pat 1 0 20,
      {| st_fcs := None; st_segs := [{| s_win := 0; s_out := pat 0 0 101 |}]; st_clean := true; st_sticky := true |})].

Definition maxint_witness : input :=
  Direct [SetMaxBodySize max64]
    {| r_exempt := false; r_cl := 10; r_raw := pat 1 0 10; r_rderr := false; r_ce := [] |} [].
Definition maxint_stack_witness : input :=
  Stack (pat 1 0 20) c18_gzip max64
    [(c18_gzip, pat 1 0 20,
      {| st_fcs := None; st_segs := [{| s_win := 0; s_out := pat 0 0 50 |}]; st_clean := true; st_sticky := true |})].

(* the identity transform, seen as one clean segment, meets the oracle premises *)
Definition id_oracle : oracle := fun _ d =>
  {| st_fcs := Some (zlen d); st_segs := [{| s_win := 0; s_out := d |}]; st_clean := true; st_sticky := false |}.
