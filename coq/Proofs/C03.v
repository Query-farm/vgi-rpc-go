(* Proofs/C03.v — no panic escapes any dispatch path of Model/C03.v: [http_good] and
   [run_no_escape], for any repairs with [safe fx] and token binding, by one walk of each route
   with [good] at every leaf. The token opener is safe by [bind_np]; the version gate answers by
   [pipe_refuses_version] / [http_refuses_version]; the lattice falls under the general theorem
   ([sweep_decodes]) and is counted in N ([sweep_size]). *)
From VR Require Import Model.C03 Lib.Lists.
Open Scope N_scope.

Lemma recov_true_np {A} (r : res A) : recov true r <> Panic.
Proof. destruct r; cbn; discriminate. Qed.

(* with the recover at its boundary no panic leaves deserializeParams, whatever
   the batch (any nesting depth), the target, the row count, the row guard *)
Lemma deser_recover_np : forall guard t rows c, deser true guard t rows c <> Panic.
Proof. intros guard t rows c. destruct c; cbn [deser]; apply recov_true_np. Qed.

Lemma row0_pos rows : (rows <? 1) = false -> row0 rows = Ret tt.
Proof. intros H. unfold row0. destruct (N.eqb_spec rows 0) as [-> | _]; [discriminate H | reflexivity]. Qed.

(* for a struct with an ArrowSerializable field the recover is what makes it
   safe: without it an inner batch of another type panics *)
Definition ser_mismatch : cols := CP (PBatch 1 CAs).
Lemma deser_guard_only_panics : deser false true TSer 1 ser_mismatch = Panic.
Proof. reflexivity. Qed.
Lemma deser_legacy_zero_row_panics : deser false false TInt 0 CX = Panic.
Proof. reflexivity. Qed.

Definition safe (fx : fixes) : Prop :=
  forall t rows c, deser (f_recover fx) (f_rowguard fx) t rows c <> Panic.

Lemma current_safe : safe current.
Proof. intros t rows c. apply deser_recover_np. Qed.

(* the decoder premise: decoding the body does not kill the process *)
Definition decodes (b : body) : Prop := b <> BFatal.

Lemma read_request_alive b : decodes b -> read_request b <> RDead.
Proof.
  unfold decodes, read_request. destruct b as [ | | | | meta rows c]; try discriminate; try congruence.
  intros _. destruct (get_first c03_meta_method meta) as [m | ]; [ | discriminate].
  destruct (negb (valid_utf8 m)); [discriminate | ].
  destruct (get_first c03_meta_request_version meta) as [v | ]; [ | discriminate].
  destruct (negb (beqb v c03_request_version)); [discriminate | ].
  now destruct (nfields_pos c && _ && _ && _).
Qed.

Lemma pipe_no_escape fx pv b ins : safe fx -> decodes b -> pipe_one fx pv b ins <> OEscaped.
Proof.
  intros Hsafe Hdec. unfold pipe_one. pose proof (read_request_alive b Hdec) as A.
  destruct (read_request b) as [ | | e | m meta rows c]; try discriminate; try congruence.
  destruct (is_shm_ptr meta rows); try discriminate.
  (* describe, transport options and an unknown name are answered at once; the four method
     kinds that bind parameters pass the version gate first *)
  destruct (mclass_of m) as [t | t | | | | | ]; try discriminate.
  all: destruct (pv_refused pv meta); [discriminate | ].
  all: match goal with |- context [deser ?a ?b ?t ?r ?c] =>
         pose proof (Hsafe t r c) as Hs; destruct (deser a b t r c) end; [ | discriminate | congruence].
  (* bound: only an exchange looks at the input stream *)
  all: destruct ins; discriminate.
Qed.

(* an HTTP response: a status line in the valid range and no escaped panic *)
Definition good (o : obs) : Prop :=
  o_out o <> OEscaped /\ ((100 <=? o_status o) && (o_status o <? 600)) = true.

Lemma hresp_good st e : ((100 <=? st) && (st <? 600)) = true -> good (hresp st e).
Proof. intros H. unfold good, hresp. destruct (st =? 500); split; (discriminate || assumption || reflexivity). Qed.
Lemma hok_good : good hok. Proof. split; [discriminate | reflexivity]. Qed.

(* the responses of the routes are [hok] or [hresp] of a literal status *)
Local Hint Resolve hok_good hresp_good : good.

Lemma http_read_good i k : decodes (i_body i) -> (forall m meta rows c, good (k m meta rows c)) -> good (http_read i k).
Proof.
  intros Hdec H. unfold http_read. destruct (i_enc i); auto with good.
  pose proof (read_request_alive _ Hdec) as A.
  destruct (read_request (i_body i)); auto with good. congruence.
Qed.

(* what the unary and the stream-init routes do with a request they have read *)
Lemma bind_good fx i t m meta rows c : safe fx ->
  good (if negb (beqb m (i_path i)) then hresp 400 e_protocol else
        if pv_refused (i_pv i) meta then hresp 400 pv_error_type else
        match deser (f_recover fx) (f_rowguard fx) t rows c with
        | Panic => hescaped | Err e => hresp 400 e | Ret _ => hok end).
Proof.
  intros Hsafe. destruct (negb _); auto with good. destruct (pv_refused _ _); auto with good.
  pose proof (Hsafe t rows c). destruct (deser _ _ t rows c); auto with good. congruence.
Qed.

Lemma http_unary_good fx i : safe fx -> decodes (i_body i) -> good (http_unary fx i).
Proof.
  intros Hsafe Hdec. unfold http_unary, http_describe. destruct (negb (ct_ok i)); auto with good.
  destruct (mclass_of (i_path i)); auto with good; (apply http_read_good; [exact Hdec | ]); intros;
    auto using bind_good with good.
Qed.

Lemma http_init_good fx i : safe fx -> decodes (i_body i) -> good (http_init fx i).
Proof.
  intros Hsafe Hdec. unfold http_init. destruct (negb (ct_ok i)); auto with good.
  destruct (mclass_of (i_path i)); auto with good; (apply http_read_good; [exact Hdec | ]); intros;
    auto using bind_good.
Qed.

Lemma assert_checked_np have want : assert_state true have want <> Panic.
Proof. destruct have, want; cbn; discriminate. Qed.

Lemma http_exchange_good fx i : f_tokbind fx = true -> decodes (i_body i) -> good (http_exchange fx i).
Proof.
  intros Htok Hdec. unfold decodes in Hdec. unfold http_exchange. rewrite Htok. destruct (negb (ct_ok i)); auto with good.
  (* a path that names no method is a 404; for the four method kinds: the content encoding
     and the body, *)
  destruct (mclass_of (i_path i)); auto with good.
  all: destruct (i_enc i); auto with good.
  all: destruct (i_body i) as [ | | | | meta rows c]; auto with good; try congruence.
  (* the input batch: the cast check, a cursor that is present, sealed and opens, *)
  all: match goal with |- context [if ?b then hresp 400 e_type else _] => destruct b; auto with good end.
  all: destruct (get_first c03_meta_stream_state meta); auto with good.
  all: destruct (negb (beqb _ tok_marker)); auto with good.
  all: destruct (i_tok i); auto with good.
  (* resolveCall, the token bound to this method, and the checked state assertion *)
  all: match goal with |- context [if negb ?b then hresp 400 e_runtime else _] =>
         destruct b; cbn [negb]; auto with good end.
  all: cbn [andb negb]; auto with good.
  all: match goal with |- context [assert_state true ?h ?w] =>
         pose proof (assert_checked_np h w); destruct (assert_state true h w); auto with good; congruence end.
Qed.

Lemma http_upload_good i : decodes (i_body i) -> good (http_upload i).
Proof.
  intros Hdec. unfold http_upload. destruct (negb (i_upload i)); [split; [discriminate | reflexivity] | ].
  destruct (negb (ct_ok i)); auto with good. apply http_read_good; [exact Hdec | ]; intros.
  destruct (negb _); auto with good.
Qed.

Lemma http_introspect_good i : good (http_introspect i).
Proof. unfold http_introspect. destruct (i_introspect i); split; (discriminate || reflexivity). Qed.

Lemma http_good fx i : safe fx -> f_tokbind fx = true -> decodes (i_body i) ->
  is_http (i_route i) = true -> good (run fx i).
Proof.
  intros Hsafe Htok Hdec. unfold run. destruct (i_route i); cbn [is_http]; intros H; try discriminate.
  - apply http_unary_good; [exact Hsafe | exact Hdec].
  - apply http_init_good; [exact Hsafe | exact Hdec].
  - apply http_exchange_good; [exact Htok | exact Hdec].
  - apply http_upload_good, Hdec.
  - apply http_introspect_good.
Qed.

Lemma run_no_escape fx i : safe fx -> f_tokbind fx = true -> decodes (i_body i) -> o_out (run fx i) <> OEscaped.
Proof.
  intros Hsafe Htok Hdec. destruct (is_http (i_route i)) eqn:H; [now apply http_good | ].
  unfold run. destruct (i_route i); try discriminate. now apply pipe_no_escape.
Qed.

Definition std_meta (m : bytes) : list kv :=
  [(c03_meta_method, m); (c03_meta_request_version, c03_request_version)].

Definition mk (r : route) (path : bytes) (b : body) (t : tokc) : input :=
  {| i_route := r; i_pv := false; i_upload := false; i_introspect := false; i_path := path;
     i_ct := c03_arrow_content_type; i_enc := EncNone; i_body := b; i_tok := t; i_calltok := KValid;
     i_cache_hit := true; i_ins := IValid; i_follow := true |}.

(* before a41386f: zero rows let through by the location exemption, row 0 read *)
Definition w_zero_row : input :=
  mk Pipe [] (BBatch (std_meta (str "u_int") ++ [(c03_meta_location, str "https://x.invalid/b")]) 0 CX) TShort.
Definition pre_rowguard := {| f_recover := false; f_rowguard := false; f_tokbind := true |}.

(* before 17a92dc: ArrowSerializable payload whose inner column has another type *)
Definition w_ser_mismatch (r : route) (m : bytes) : input := mk r m (BBatch (std_meta m) 1 ser_mismatch) TShort.
Definition pre_recover := {| f_recover := false; f_rowguard := true; f_tokbind := true |}.

(* before e4cc5ac: a producer's token presented at an exchange method *)
Definition w_cross_token : input :=
  mk HExchange (str "e_only")
     (BBatch [(c03_meta_stream_state, tok_marker); (c03_meta_call_state, call_marker)] 1 CX)
     (TOther (MProducer TInt)).
Definition pre_tokbind := {| f_recover := true; f_rowguard := true; f_tokbind := false |}.

Lemma legacy_zero_row : o_out (run pre_rowguard w_zero_row) = OEscaped
  /\ o_out (run pre_rowguard (mk HUnary (str "u_int") (i_body w_zero_row) TShort)) = OEscaped
  /\ o_out (run pre_rowguard (mk HInit (str "p_only")
        (BBatch (std_meta (str "p_only") ++ [(c03_meta_location, [])]) 0 CX) TShort)) = OEscaped.
Proof. vm_compute. repeat split. Qed.

Lemma current_on_witnesses :
  o_out (model w_zero_row) = OErr e_type
  /\ o_out (model (w_ser_mismatch Pipe (str "u_ser"))) = OErr e_type
  /\ model w_cross_token = hresp 400 e_runtime.
Proof. vm_compute. repeat split. Qed.

Lemma get_last_snoc k v (m : list kv) : get_last k (m ++ [(k, v)]) = Some v.
Proof. unfold get_last. rewrite rev_app_distr. cbn [rev app get_first]. rewrite beqb_refl. reflexivity. Qed.

(* checkProtocolVersion runs on the client's vgi_rpc.protocol_version value
   outside every recover; the value [cv] is an arbitrary byte string *)
Definition pv_req (m cv : bytes) : body := BBatch (std_meta m ++ [(meta_protocol_version, cv)]) 1 CX.
Definition mkv (r : route) (path : bytes) (b : body) : input :=
  {| i_route := r; i_pv := true; i_upload := false; i_introspect := false; i_path := path;
     i_ct := c03_arrow_content_type; i_enc := EncNone; i_body := b; i_tok := TShort; i_calltok := KAbsent;
     i_cache_hit := false; i_ins := IValid; i_follow := true |}.

Lemma malformed_version_examples :
  forallb (fun v => match C10.parse v with None => true | Some _ => false end)
    [str "1..0"; str "0..0"; str "12..x"; str ".."; str "."; []; str "2.10."; str ".10.3"; str "2.."; str "1...0";
     [255; 46; 46; 254]; str "2.10.03"; str "2.10.3-rc1"; [50; 46; 49; 48; 46; 51; 10]] = true.
Proof. vm_compute. reflexivity. Qed.

(* The calls behind the version gate, by route. A request for any such method whose version
   value does not parse is answered with the ProtocolVersionError, on the pipe and over HTTP
   (Props.C03.malformed_version_answered_everywhere is the instance on eight route / method
   pairs). *)
Definition gated (r : route) (k : mclass) : bool :=
  match r, k with
  | Pipe, (MDescribe | MTransport | MUnknown) => false
  | Pipe, _ => true
  | HUnary, MUnary _ => true
  | HInit, _ => is_stream k
  | _, _ => false
  end.

Lemma pv_refused_snoc (m : list kv) cv : C10.parse cv = None -> pv_refused true (m ++ [(meta_protocol_version, cv)]) = true.
Proof. intros H. unfold pv_refused. rewrite get_last_snoc. unfold C10.gate. now rewrite H. Qed.

Lemma read_pv_req m cv : valid_utf8 m = true ->
  read_request (pv_req m cv) = ROk m (std_meta m ++ [(meta_protocol_version, cv)]) 1 CX.
Proof. intro U. unfold pv_req, read_request, std_meta. cbn [app get_first]. now rewrite !beqb_refl, U. Qed.

Lemma pipe_refuses_version m cv : valid_utf8 m = true -> gated Pipe (mclass_of m) = true -> C10.parse cv = None ->
  model (mkv Pipe [] (pv_req m cv)) = {| o_out := OErr pv_error_type; o_status := 0; o_errhdr := false; o_next := true |}.
Proof.
  intros U G H. unfold model, run, pipe_one. cbn [mkv i_route i_pv i_body i_ins i_follow].
  rewrite (read_pv_req m cv U), (pv_refused_snoc _ cv H). now destruct (mclass_of m).
Qed.

Lemma http_refuses_version r m cv : valid_utf8 m = true -> is_http r = true -> gated r (mclass_of m) = true ->
  C10.parse cv = None -> model (mkv r m (pv_req m cv)) = hresp 400 pv_error_type.
Proof.
  intros U R G H. destruct r; try discriminate; unfold model, run, http_unary, http_init, http_read, ct_ok;
    cbn [mkv i_route i_pv i_body i_ct i_enc i_path];
    rewrite (read_pv_req m cv U), (pv_refused_snoc _ cv H), !beqb_refl; now destruct (mclass_of m).
Qed.

(* freedom from panics composes along [bind]; the partial operations are safe in range *)
Lemma bind_np {A B} (r : res A) (f : A -> res B) : r <> Panic -> (forall a, f a <> Panic) -> bind r f <> Panic.
Proof. intros R F. destruct r; cbn [bind]; [apply F | discriminate | congruence]. Qed.

Lemma slice_np s a b : (a <= b)%nat -> (b <= length s)%nat -> slice s a b <> Panic.
Proof.
  intros H1 H2. unfold slice.
  rewrite (proj2 (Nat.leb_le a b) H1), (proj2 (Nat.leb_le b (length s)) H2). discriminate.
Qed.

Lemma index0_np s : (1 <= length s)%nat -> index0 s <> Panic.
Proof. destruct s; cbn; intros H; [lia | discriminate]. Qed.

Lemma unpack_np (zstd_dec : bytes -> option bytes) data : unpack_payload zstd_dec true data <> Panic.
Proof.
  unfold unpack_payload. cbn [andb]. destruct (Nat.eqb (length data) 0) eqn:E; [discriminate | ].
  apply Nat.eqb_neq in E.
  apply bind_np; [apply slice_np; lia | intro body]. apply bind_np; [apply index0_np; lia | intro tag].
  destruct (tag =? 0); [discriminate | ]. destruct (tag =? 1); [ | discriminate].
  destruct (zstd_dec body); discriminate.
Qed.

(* the envelope bounds the code relies on, as compiled *)
Lemma bounds : (1 + Z.to_nat c03_token_nonce_len <= Z.to_nat c03_token_min_len)%nat
               /\ (1 <= Z.to_nat c03_token_min_len)%nat.
Proof. vm_compute. split; repeat constructor. Qed.

(* a finite lattice of request shapes *)
Definition sweep_payloads : list payload :=
  [PNull; PEmpty; PGarbage; PNoBatch; PBatch 0 CA; PBatch 1 CA; PBatch 1 CAs; PBatch 1 CX; PBatch 0 CX;
   PBatch 1 (CP (PBatch 1 CAs)); PBatch 1 (CReq (PBatch 0 CX))].
Definition sweep_cols : list cols :=
  [CNone; CX; CX32; CXs; CA; CAs; COther] ++ map CP sweep_payloads ++ map CReq sweep_payloads.
Definition sweep_methods : list bytes :=
  [str "u_int"; str "u_ser"; str "p_only"; str "p_ser"; str "e_only"; str "dyn";
   c03_method_describe; c03_method_transport_options; str "nosuch"; [255]].
Definition sweep_extra : list (list kv) :=
  [[]; [(c03_meta_location, [])]; [(c03_meta_shm_offset, str "0")];
   [(c03_meta_shm_offset, str "0"); (c03_meta_log_level, str "INFO")];
   [(meta_protocol_version, str "2.10.3")]; [(meta_protocol_version, str "x")];
   [(c03_meta_stream_state, tok_marker); (c03_meta_call_state, call_marker)];
   [(c03_meta_stream_state, str "AAAA")]; [(c03_meta_stream_state, tok_marker); (c03_meta_cancel, [])]].
Definition sweep_bodies : list body :=
  [BGarbage; BNoBatchErr; BNoBatch; BBatch [] 1 CX; BBatch [(c03_meta_method, str "u_int")] 1 CX;
   BBatch [(c03_meta_method, str "u_int"); (c03_meta_request_version, str "2")] 1 CX] ++
  flat_map (fun m => flat_map (fun x => flat_map (fun rows => map (fun c =>
     BBatch (std_meta m ++ x) rows c) sweep_cols) [0; 1; 2]) sweep_extra) sweep_methods.
Definition sweep_xbodies : list body :=
  [BGarbage; BNoBatchErr; BNoBatch] ++
  flat_map (fun x => flat_map (fun rows => map (fun c => BBatch x rows c) [CNone; CX; CX32; CXs; COther]) [0; 1; 2]) sweep_extra.
Definition sweep_toks : list tokc :=
  [TOwn; TOther (MProducer TInt); TOther MExchange; TOther MDynamic; TExpired; TOtherKey; TTampered; TBadVersion; TShort].
Definition sweep : list input :=
  flat_map (fun r => flat_map (fun pv => flat_map (fun path => flat_map (fun b => map (fun t =>
    {| i_route := r; i_pv := pv; i_upload := pv; i_introspect := pv; i_path := path;
       i_ct := c03_arrow_content_type; i_enc := EncNone; i_body := b; i_tok := t; i_calltok := KValid;
       i_cache_hit := pv; i_ins := IWrong; i_follow := true |})
    (match r with HExchange => sweep_toks | _ => [TShort] end)) (match r with HExchange => sweep_xbodies | _ => sweep_bodies end))
    (match r with Pipe | HUpload | HIntrospect => [[]] | _ => [str "u_int"; str "u_ser"; str "p_only"; str "p_ser"; str "e_only"; str "dyn"; str "nosuch"] end))
    [false; true]) [Pipe; HUnary; HInit; HExchange; HUpload; HIntrospect].

Lemma Forall_flat_map_all {A B} (P : B -> Prop) (f : A -> list B) l :
  (forall x, In x l -> Forall P (f x)) -> Forall P (flat_map f l).
Proof. intro H. now apply Forall_flat_map, Forall_forall. Qed.

(* Every body of the lattice is built by a constructor the decoder survives, so
   the general theorem (Props.C03.spec_holds_on_model) covers the lattice. *)
Lemma sweep_bodies_decode : Forall decodes sweep_bodies /\ Forall decodes sweep_xbodies.
Proof.
  split; (apply Forall_app; split; [repeat constructor; discriminate | ]);
    repeat (apply Forall_flat_map_all; intros ? _); apply Forall_map, Forall_forall; discriminate.
Qed.

Lemma sweep_decodes : Forall (fun i => decodes (i_body i)) sweep.
Proof.
  apply Forall_flat_map_all; intros r _.
  do 2 (apply Forall_flat_map_all; intros ? _). apply Forall_flat_map_all; intros b Hb.
  apply Forall_map, Forall_forall; intros t _. cbn [i_body].
  destruct sweep_bodies_decode as [B X]. rewrite Forall_forall in B, X.
  destruct r; auto.
Qed.

(* The lattice is a sum over the routes of products, so its size is arithmetic on the
   lengths of the short factor lists; in N throughout, so that no large nat is built. *)
Lemma nlen_product4 {A B C D E} (g : A -> B -> C -> D -> E) la lb lc ld :
  N.of_nat (length (flat_map (fun a => flat_map (fun b => flat_map (fun c => map (g a b c) ld) lc) lb) la))
  = N.of_nat (length la) * (N.of_nat (length lb) * (N.of_nat (length lc) * N.of_nat (length ld))).
Proof. repeat (apply nlen_flat_map_const; intros ?). now rewrite map_length. Qed.

Lemma sweep_size : N.of_nat (length sweep) = 283812.
Proof.
  assert (B : N.of_nat (length sweep_bodies) = 7836).
  { unfold sweep_bodies. now rewrite app_length, Nat2N.inj_add, nlen_product4. }
  assert (X : N.of_nat (length sweep_xbodies) = 138).
  { unfold sweep_xbodies. rewrite app_length, Nat2N.inj_add.
    now rewrite (nlen_flat_map_const _ 15)
      by (intros x; apply (nlen_flat_map_const _ 5); intros r; now rewrite map_length). }
  (* as variables, so that rewriting never compares the two lists by unfolding them *)
  unfold sweep. revert B X. generalize sweep_bodies, sweep_xbodies. intros lb lx B X.
  erewrite nlen_flat_map by (intros r; apply nlen_product4).
  cbn [fold_right]. now rewrite B, X.
Qed.
