(* Proofs/C29.v — invariants of the sticky-session step model, for ALL schedules.
   Every step has one of a few shapes ([shape]: a registry operation, an answer
   that releases the lock held, a free lock taken). Each of the monitors L (the
   per-session mutex), C (Close() exactly once and no opening while draining)
   and X (teardown serialized with calls) keeps its invariant across a step of
   each shape, and [run_inv] carries an invariant of the steps along every
   schedule. Isolation of callers is treated on states only ([InvT]); nothing is
   proved of its trace monitor I. *)
From VR Require Import Model.C29 Lib.Lists.
From Coq Require Import Permutation.

Lemma nth_upd_same {A} (l : list A) t x y :
  nth_error l t = Some x -> nth_error (upd l t y) t = Some y.
Proof. revert t; induction l as [|a l IH]; intros [|t] H; cbn in *; try discriminate; auto. Qed.

Lemma nth_upd_other {A} (l : list A) t t' y :
  t' <> t -> nth_error (upd l t y) t' = nth_error l t'.
Proof.
  revert t t'; induction l as [|a l IH]; intros [|t] [|t'] H; cbn; auto; try congruence.
Qed.

Lemma length_upd {A} (l : list A) t y : length (upd l t y) = length l.
Proof. revert t; induction l as [|a l IH]; intros [|t]; cbn; auto. Qed.

Lemma nth_upd_inv {A} (l : list A) t x y u z :
  nth_error l t = Some x -> nth_error (upd l t y) u = Some z ->
  (u = t /\ z = y) \/ (u <> t /\ nth_error l u = Some z).
Proof.
  intros Ht Hu. destruct (Nat.eq_dec u t) as [->|Hne].
  - rewrite (nth_upd_same _ _ _ _ Ht) in Hu. inversion Hu. auto.
  - rewrite nth_upd_other in Hu by assumption. auto.
Qed.

Lemma memn_In x l : memn x l = true <-> In x l.
Proof. exact (existsb_eqb_In Nat.eqb Nat.eqb_eq x l). Qed.

Lemma lock_of_cons s t s' ls :
  lock_of s' ((s, t) :: ls) = if s =? s' then Some t else lock_of s' ls.
Proof. unfold lock_of; cbn [find fst snd]. destruct (s =? s'); reflexivity. Qed.

Lemma lock_of_unlock s s' ls : lock_of s' (unlock s ls) = if s =? s' then None else lock_of s' ls.
Proof.
  unfold lock_of, unlock. induction ls as [|[a b] ls IH]; cbn [filter find fst]; [now destruct (s =? s')|].
  destruct (N.eqb_spec a s) as [->|Hne]; cbn [negb find fst].
  - rewrite IH. now destruct (s =? s').
  - destruct (N.eqb_spec a s') as [->|_]; [|exact IH]. apply N.eqb_neq in Hne. now rewrite N.eqb_sym, Hne.
Qed.

Lemma find_ent_some w s es e : find_ent w s es = Some e -> In e es /\ e_sid e = s /\ e_w e = w.
Proof.
  unfold find_ent. intro H. apply find_some in H as [Hin Hc]. apply andb_true_iff in Hc as [H1 H2].
  apply N.eqb_eq in H1, H2. auto.
Qed.

Definition held_by (th : thr) : option N :=
  match t_ph th with PhRun (Some s) _ => Some s | PhDel s _ => Some s | _ => None end.

Record InvL (m : monL) (st : state) : Prop := {
  L_open : forall t s, In (t, s) (l_open m) -> lock_of s (locks st) = Some t;
  L_held : forall t th s, nth_error (thrs st) t = Some th -> held_by th = Some s ->
                          lock_of s (locks st) = Some t;
  L_lock : forall s t, lock_of s (locks st) = Some t ->
                       exists th, nth_error (thrs st) t = Some th /\ held_by th = Some s;
  L_done : forall t th, nth_error (thrs st) t = Some th -> memn t (l_done m) = true -> t_ph th = PhDone }.

(* thread t moves on: no lock taken or released, no answer *)
Lemma frameL m st st1 t th th' :
  InvL m st -> nth_error (thrs st) t = Some th -> t_ph th <> PhDone ->
  locks st1 = locks st -> thrs st1 = thrs st -> held_by th' = held_by th ->
  InvL m (set_thr st1 t th').
Proof.
  intros [I1 I2 I3 I4] Ht Hnd El Et Eh.
  split; cbn [set_thr locks thrs]; rewrite ?El, ?Et.
  - exact I1.
  - intros u thu s Hu Hh.
    destruct (nth_upd_inv _ _ _ _ _ _ Ht Hu) as [[-> ->]|[_ Hu']]; [rewrite Eh in Hh|]; eauto.
  - intros s u Hl. destruct (I3 _ _ Hl) as [thu [Hu Hh]].
    destruct (Nat.eq_dec u t) as [->|Hne].
    + exists th'. rewrite (nth_upd_same _ _ _ _ Ht). split; [reflexivity | congruence].
    + exists thu. rewrite nth_upd_other by assumption. auto.
  - intros u thu Hu Hm. destruct (nth_upd_inv _ _ _ _ _ _ Ht Hu) as [[-> ->]|[_ Hu']]; [|eauto].
    exfalso. eauto.
Qed.

(* thread t answers, releasing whatever lock it holds *)
Lemma doneL m st st1 t th th' r :
  InvL m st -> nth_error (thrs st) t = Some th ->
  locks st1 = unlock_opt (held_by th) (locks st) -> thrs st1 = thrs st -> t_ph th' = PhDone ->
  InvL (monL_step m (EResp t r)) (set_thr st1 t th').
Proof.
  intros [I1 I2 I3 I4] Ht El Et Ep.
  assert (Hother : forall s u, u <> t -> lock_of s (locks st) = Some u ->
                               lock_of s (locks st1) = Some u).
  { intros s u Hne Hl. rewrite El. destruct (held_by th) as [h|] eqn:Eh; cbn [unlock_opt]; [|exact Hl].
    rewrite lock_of_unlock. destruct (N.eqb_spec h s) as [->|_]; [|exact Hl].
    rewrite (I2 _ _ _ Ht Eh) in Hl. congruence. }
  split; cbn [set_thr locks thrs monL_step l_open l_done]; rewrite ?Et.
  - intros u s Hin. apply filter_In in Hin as [Hin Hne]. cbn [fst] in Hne.
    apply Hother; [|auto]. intros ->. now rewrite Nat.eqb_refl in Hne.
  - intros u thu s Hu Hh. destruct (nth_upd_inv _ _ _ _ _ _ Ht Hu) as [[-> ->]|[Hne Hu']].
    + unfold held_by in Hh. rewrite Ep in Hh. discriminate.
    + apply Hother; eauto.
  - intros s u Hl. rewrite El in Hl.
    assert (Hold : lock_of s (locks st) = Some u /\ held_by th <> Some s).
    { destruct (held_by th) as [h|]; cbn [unlock_opt] in Hl; [|split; [assumption | discriminate]].
      rewrite lock_of_unlock in Hl. destruct (N.eqb_spec h s) as [->|Hne]; [discriminate|].
      split; [assumption | congruence]. }
    destruct Hold as [Hl0 Hnh]. destruct (I3 _ _ Hl0) as [thu [Hu Hh]].
    destruct (Nat.eq_dec u t) as [->|Hne].
    + rewrite Ht in Hu. inversion Hu; subst thu. contradiction.
    + exists thu. rewrite nth_upd_other by assumption. auto.
  - intros u thu Hu Hm. destruct (nth_upd_inv _ _ _ _ _ _ Ht Hu) as [[-> ->]|[Hne Hu']]; [exact Ep|].
    cbn in Hm. destruct (Nat.eqb u t) eqn:E; [apply Nat.eqb_eq in E; congruence|]. eauto.
Qed.

(* thread t takes the free lock of s it was waiting for; [m'] is the monitor after
   the section on s opened (a request) or unchanged (a DELETE) *)
Lemma acqL m st t th th' s :
  InvL m st -> nth_error (thrs st) t = Some th -> t_ph th = PhWait s ->
  lock_of s (locks st) = None -> held_by th' = Some s ->
  existsb (fun p => snd p =? s) (l_open m) = false /\
  forall m', l_open m' = (t, s) :: l_open m \/ l_open m' = l_open m -> l_done m' = l_done m ->
    InvL m' (set_thr (with_locks st ((s, t) :: locks st)) t th').
Proof.
  intros [I1 I2 I3 I4] Ht Eph Hfree Eh. split.
  { destruct (existsb _ (l_open m)) eqn:E; [|reflexivity]. apply existsb_exists in E as [[u s'] [Hin E]].
    cbn [snd] in E. apply N.eqb_eq in E; subst s'. rewrite (I1 _ _ Hin) in Hfree. discriminate. }
  intros m' Eo Ed.
  assert (Hkeep : forall s' u, lock_of s' (locks st) = Some u ->
                               lock_of s' ((s, t) :: locks st) = Some u).
  { intros s' u Hl. rewrite lock_of_cons. destruct (s =? s') eqn:E; [|exact Hl].
    apply N.eqb_eq in E; subst s'. congruence. }
  assert (Hnew : lock_of s ((s, t) :: locks st) = Some t) by now rewrite lock_of_cons, N.eqb_refl.
  split; cbn [set_thr with_locks locks thrs]; rewrite ?Ed.
  - intros u s' Hin. destruct Eo as [Eo|Eo]; rewrite Eo in Hin; [destruct Hin as [Hin|Hin]|]; auto.
    inversion Hin; subst. exact Hnew.
  - intros u thu s' Hu Hh. destruct (nth_upd_inv _ _ _ _ _ _ Ht Hu) as [[-> ->]|[_ Hu']]; [|eauto].
    rewrite Eh in Hh. inversion Hh; subst s'. exact Hnew.
  - intros s' u Hl. rewrite lock_of_cons in Hl. destruct (s =? s') eqn:E.
    + apply N.eqb_eq in E; subst s'. inversion Hl; subst u.
      exists th'. rewrite (nth_upd_same _ _ _ _ Ht). auto.
    + destruct (I3 _ _ Hl) as [thu [Hu Hh]]. destruct (Nat.eq_dec u t) as [->|Hne].
      * rewrite Ht in Hu. inversion Hu; subst thu. unfold held_by in Hh. rewrite Eph in Hh. discriminate.
      * exists thu. rewrite nth_upd_other by assumption. auto.
  - intros u thu Hu Hm. destruct (nth_upd_inv _ _ _ _ _ _ Ht Hu) as [[-> ->]|[_ Hu']]; [|eauto].
    rewrite (I4 _ _ Ht Hm) in Eph. discriminate.
Qed.

Lemma foldL_closed l m : fold_left monL_step (map EClosed l) m = m.
Proof. induction l as [|a l IH]; cbn; auto. Qed.

Lemma evict_frame st dead : locks (fst (evict st dead)) = locks st /\ thrs (fst (evict st dead)) = thrs st.
Proof. split; reflexivity. Qed.

(* Token resolution and registry.close do the same thing to the registry: nothing,
   or they remove the entry of one session and Close() its state. *)
Inductive evicted (st : state) : state -> list event -> Prop :=
| EvNone : evicted st st []
| EvOne w s e : find_ent w s (ents st) = Some e ->
    evicted st (fst (evict st (fun e' => e_sid e' =? s))) [EClosed s].

Lemma reg_close_evicted st w s st1 hit :
  reg_close st w s = (st1, hit) -> evicted st st1 (if hit then [EClosed s] else []).
Proof.
  unfold reg_close. destruct (find_ent w s (ents st)) eqn:E; intro H; inversion H; subst;
    econstructor; eauto.
Qed.

(* ... and a resolution that evicts (the entry had expired) answers session_lost *)
Lemma resolve_evicted st w c tk st1 evs r :
  resolve st w c tk = (st1, evs, r) -> evicted st st1 evs /\ (r = None \/ evs = []).
Proof.
  assert (Hnone : (st, [], None) = (st1, evs, r) -> evicted st st1 evs /\ (r = None \/ evs = [])).
  { intro E; inversion E; split; [constructor | auto]. }
  unfold resolve. destruct tk as [k|]; [|exact Hnone].
  destruct (negb (beqb _ _)); [exact Hnone|]. destruct (negb (k_w k =? w)); [exact Hnone|].
  destruct (find_ent w (k_sid k) (ents st)) as [e|] eqn:Ef; [|exact Hnone].
  destruct (e_exp e <? now st)%Z; [intro H; inversion H; split; [econstructor; eauto | auto]|].
  destruct (negb _); [exact Hnone|]. intro H; inversion H; split; [constructor | auto].
Qed.

(* One handler action: an OpenSession is refused (the id counter still moves) or
   registers a fresh session and mints its token; a CloseSession evicts at most
   the session the handler bears. *)
Inductive acted (dttl : Z) (st : state) (t : nat) (th : thr) (w : N) (c : caller) (ttl : Z)
  : state -> thr -> list event -> Prop :=
| ActRefused r : r = ARefused \/ r = ADraining -> acted dttl st t th w c ttl (bump st) th [EAct t r]
| ActOpened : memN w (drain st) = false ->
    acted dttl st t th w c ttl
      {| now := now st; next := next st + 1;
         ents := ents st ++ [{| e_sid := next st; e_w := w; e_key := pkey c;
                                e_exp := (now st + eff_ttl dttl ttl)%Z |}];
         drain := drain st; locks := locks st; closes := closes st; thrs := thrs st |}
      {| t_ph := t_ph th; t_sess := Some (next st); t_closed := false;
         t_mint := Some {| k_w := w; k_sid := next st; k_aad := aad c |} |}
      [EAct t (AOpened (next st))]
| ActClosed st1 th1 evs hit :
    evicted st st1 evs -> t_mint th1 = t_mint th ->
    acted dttl st t th w c ttl st1 th1 (evs ++ [EAct t (AClose hit)]).

Lemma do_act_acted dttl st t th w c acc ttl a st1 th1 evs :
  do_act dttl st t th w c acc ttl a = (st1, th1, evs) -> acted dttl st t th w c ttl st1 th1 evs.
Proof.
  unfold do_act. destruct a.
  - destruct (negb acc); [intro H; inversion H; constructor; auto|].
    destruct (match t_sess th with Some _ => negb (t_closed th) | None => false end);
      [intro H; inversion H; constructor; auto|].
    destruct (memN w (drain st)) eqn:Ed; intro H; inversion H; constructor; auto.
  - destruct (t_sess th) as [s|].
    + destruct (reg_close st w s) as [st2 hit] eqn:E. apply reg_close_evicted in E.
      intro H; inversion H; subst. now constructor.
    + intro H; inversion H; subst. apply (ActClosed _ _ _ _ _ _ _ _ _ [] false); auto using EvNone.
Qed.

(* What one critical section does to the registry; none of it touches locks or
   threads. *)
Inductive regop (dttl : Z) (st : state) (t : nat) (th : thr) (p : prog)
  : state -> thr -> list event -> Prop :=
| REvicted st1 evs : evicted st st1 evs -> regop dttl st t th p st1 th evs
| RAct w c tk acc ttl body out st1 th1 evs :
    p = PReq w c tk acc ttl body out -> acted dttl st t th w c ttl st1 th1 evs ->
    regop dttl st t th p st1 th1 evs
| RSweep dead :
    regop dttl st t th p (fst (evict st dead)) th (map EClosed (snd (evict st dead))).

(* events that the monitors of L, C and X pass over *)
Definition silent (e : event) : bool :=
  match e with EStart _ | EEnter _ None _ => true | _ => false end.

(* The clock and the drain set change in the step in which the operator's program
   answers, and the monitors replay them from that response. *)
Definition answered (p : prog) (st : state) : state :=
  {| now := match p with PAdvance d => (now st + d)%Z | _ => now st end;
     next := next st; ents := ents st;
     drain := match p with
              | PDrain w b => if b then w :: drain st else filter (fun x => negb (x =? w)) (drain st)
              | _ => drain st
              end;
     locks := locks st; closes := closes st; thrs := thrs st |}.

(* A step of thread t stutters; or it performs one registry operation and then
   moves on holding what it held, or answers and releases what it held; or it takes
   the free lock it was waiting for. *)
Inductive shape (dttl : Z) (ps : list prog) (st : state) (t : nat) : state -> list event -> Prop :=
| SStutter : shape dttl ps st t st []
| SMove p th pre st1 th1 evs1 ph :
    nth_error ps t = Some p -> nth_error (thrs st) t = Some th -> t_ph th <> PhDone ->
    forallb silent pre = true -> regop dttl st t th p st1 th1 evs1 ->
    held_by (set_ph th1 ph) = held_by th ->
    (* a DELETE closes a session only under its lock *)
    (forall w c tk s, p = PDelete w c tk -> In (EClosed s) evs1 -> held_by th = Some s) ->
    shape dttl ps st t (set_thr st1 t (set_ph th1 ph)) (pre ++ evs1)
| SAnswer p th pre st1 th1 evs1 ls r :
    nth_error ps t = Some p -> nth_error (thrs st) t = Some th ->
    forallb silent pre = true -> regop dttl st t th p st1 th1 evs1 ->
    ls = unlock_opt (held_by th) (locks st1) ->
    (* a DELETE that reports a hit closes nothing as it answers *)
    (r = RDel true -> evs1 = []) ->
    shape dttl ps st t (set_thr (with_locks (answered p st1) ls) t (set_ph th1 PhDone))
          (pre ++ evs1 ++ [EResp t r])
| SAcquire p th s th' evs :
    nth_error ps t = Some p -> nth_error (thrs st) t = Some th -> t_ph th = PhWait s ->
    lock_of s (locks st) = None -> held_by th' = Some s -> t_mint th' = t_mint th ->
    evs = [] \/ (exists b, evs = [EEnter t (Some s) b]) ->
    shape dttl ps st t (set_thr (with_locks st ((s, t) :: locks st)) t th') evs.

Lemma step0_shape dttl ps st t st' evs :
  step0 dttl ps st t = (st', evs) -> shape dttl ps st t st' evs.
Proof.
  intro H.
  assert (Hsh : shape dttl ps st t (fst (step0 dttl ps st t)) (snd (step0 dttl ps st t)));
    [clear H | now rewrite H in Hsh].
  unfold step0, sys_done.
  destruct (nth_error ps t) as [p|] eqn:Hp; [|apply SStutter].
  destruct (nth_error (thrs st) t) as [[ph se cl mi]|] eqn:Ht; [|apply SStutter].
  cbn [t_ph].
  set (th := {| t_ph := ph; t_sess := se; t_closed := cl; t_mint := mi |}) in *.
  destruct ph as [|s|h [|a rest]|s [|]|]; destruct p as [w c tk acc ttl body out|w c tk|d|w|w b|w];
    try apply SStutter.
  all: cbn [fst snd].
  - (* a request arrives: without a token it enters its handler, with garbage it answers lost,
       with a token it comes to wait for the session's lock or answers lost *)
    destruct tk as [| |k].
    + eapply SMove with (pre := [EStart t; EEnter t None false]) (st1 := st);
        eauto using regop, evicted; easy.
    + eapply SAnswer with (1 := Hp) (pre := [EStart t]) (st1 := st) (evs1 := []); eauto using regop, evicted.
    + destruct (resolve st w c _) as [[st1 evs1] [s|]] eqn:Er; cbn [fst snd]; apply resolve_evicted in Er as [Er Hr].
      * destruct Hr as [[=]| ->].
        eapply SMove with (pre := [EStart t]) (st1 := st1); eauto using regop, evicted; easy.
      * eapply SAnswer with (1 := Hp) (pre := [EStart t]) (st1 := st1); eauto using regop, evicted; easy.
  - (* a DELETE arrives: the same, but for the answers *)
    destruct tk as [| |k].
    + eapply SAnswer with (1 := Hp) (pre := [EStart t]) (st1 := st) (evs1 := []); eauto using regop, evicted.
    + eapply SAnswer with (1 := Hp) (pre := [EStart t]) (st1 := st) (evs1 := []); eauto using regop, evicted.
    + destruct (resolve st w c _) as [[st1 evs1] [s|]] eqn:Er; cbn [fst snd]; apply resolve_evicted in Er as [Er Hr].
      * destruct Hr as [[=]| ->].
        eapply SMove with (pre := [EStart t]) (st1 := st1); eauto using regop, evicted; easy.
      * eapply SAnswer with (1 := Hp) (pre := [EStart t]) (st1 := st1); eauto using regop, evicted; easy.
  (* then, in this order: advance, reap, drain, shutdown; Lock() by a request, by a DELETE; the
     handler returns; a handler action; a DELETE unlocks and answers; a DELETE closes *)
  - eapply SAnswer with (1 := Hp) (pre := []) (st1 := st) (evs1 := []); eauto using regop, evicted.
  - eapply SAnswer with (1 := Hp) (pre := []) (st1 := fst (evict st _)); eauto; [apply RSweep | easy].
  - eapply SAnswer with (1 := Hp) (pre := []) (st1 := st) (evs1 := []); eauto using regop, evicted.
  - eapply SAnswer with (1 := Hp) (pre := []) (st1 := fst (evict st _)); eauto; [apply RSweep | easy].
  - destruct (lock_of s (locks st)) eqn:El; [apply SStutter|]. cbn [fst snd]. eapply SAcquire; eauto.
  - destruct (lock_of s (locks st)) eqn:El; [apply SStutter|]. cbn [fst snd]. eapply SAcquire; eauto.
  - eapply SAnswer with (1 := Hp) (pre := []) (st1 := st) (evs1 := []); eauto using regop, evicted. now destruct h.
  - destruct (do_act dttl st t th w c acc ttl a) as [[st1 th1] evs1] eqn:Ea. apply do_act_acted in Ea.
    eapply SMove with (pre := []) (st1 := st1); eauto using regop, evicted; easy.
  - eapply SAnswer with (1 := Hp) (pre := []) (st1 := st) (evs1 := []); eauto using regop, evicted.
  - destruct (reg_close st w s) as [st1 hit] eqn:Ec. apply reg_close_evicted in Ec.
    eapply SMove with (pre := []) (st1 := st1); eauto using regop, evicted; try easy.
    intros w' c' tk' s' _ Hin. destruct hit; [|destruct Hin]. now destruct Hin as [[= ->]|[]].
Qed.

Lemma regop_frame dttl st t th p st1 th1 evs :
  regop dttl st t th p st1 th1 evs ->
  locks st1 = locks st /\ thrs st1 = thrs st /\ forall m, fold_left monL_step evs m = m.
Proof.
  intros [st2 evs2 []|w c tk acc ttl body out st2 th2 evs2 _ [r _| |st3 th3 evs3 hit [] _]|dead];
    repeat split; auto using foldL_closed.
Qed.

(* what a critical section reports of the registry: Close() calls and the handler's action *)
Definition regev (e : event) : bool := match e with EClosed _ | EAct _ _ => true | _ => false end.

Lemma regop_events dttl st t th p st1 th1 evs : regop dttl st t th p st1 th1 evs -> forallb regev evs = true.
Proof.
  intros [st2 evs2 []|w c tk acc ttl body out st2 th2 evs2 _ [| |st3 th3 evs3 hit [] _]|dead]; try reflexivity.
  now rewrite forallb_map, forallb_forall.
Qed.

Lemma silentL m e : silent e = true -> monL_step m e = m.
Proof. destruct e as [|? [] ?| | | |]; try discriminate; reflexivity. Qed.

(* monitors that ignore EUnder do not see the annotation *)
Lemma fold_annot {M} (f : M -> event -> M) st t :
  (forall m u s, f m (EUnder u s) = m) ->
  forall evs m, fold_left f (annotate st t evs) m = fold_left f evs m.
Proof.
  intros Hig. induction evs as [|e evs IH]; intro m; [reflexivity|].
  unfold annotate. cbn [flat_map]. fold (annotate st t evs). rewrite fold_left_app, IH.
  destruct e; cbn [fold_left]; try reflexivity.
  destruct (in_call_other st t s); cbn [fold_left]; [rewrite Hig|]; reflexivity.
Qed.

Lemma step_unfold dttl ps st t st' evs :
  step dttl ps st t = (st', evs) ->
  exists evs0, step0 dttl ps st t = (st', evs0) /\ evs = annotate st t evs0.
Proof.
  unfold step. destruct (step0 dttl ps st t) as [st1 e0]. intro H; inversion H; subst. eauto.
Qed.

Definition okL_step (m m' : monL) (st' : state) : Prop := InvL m' st' /\ l_ok m' = l_ok m.

Lemma stepL dttl ps m st t st' evs :
  InvL m st -> step dttl ps st t = (st', evs) -> okL_step m (fold_left monL_step evs m) st'.
Proof.
  intros Hinv H. apply step_unfold in H as [e0 [H ->]]. rewrite fold_annot by reflexivity.
  destruct (step0_shape _ _ _ _ _ _ H)
    as [|p th pre st1 th1 evs1 ph _ Ht Hnd Hq Hop Hh _|p th pre st1 th1 evs1 ls r _ Ht Hq Hop -> _
        |p th s th' evs' _ Ht Eph Hfree Hh _ Hev].
  - split; [exact Hinv | reflexivity].
  - apply regop_frame in Hop as (El & Et & Ef).
    rewrite fold_left_app, Ef, (fold_left_silent _ _ _ (silentL _) pre) by exact Hq.
    split; [|reflexivity]. eapply frameL; eauto.
  - apply regop_frame in Hop as (El & Et & Ef).
    rewrite !fold_left_app, Ef, (fold_left_silent _ _ _ (silentL _) pre) by exact Hq.
    split; [|reflexivity]. eapply doneL; eauto; cbn [with_locks answered locks thrs]; congruence.
  - destruct (acqL m st t th th' s Hinv Ht Eph Hfree Hh) as [Hx Ha].
    destruct Hev as [->|[b ->]]; cbn [fold_left monL_step]; (split; [apply Ha; auto|]); [reflexivity|].
    cbn [l_ok]. rewrite Hx. apply andb_true_r.
Qed.

(* an invariant of the steps, with the monitor that reads their events, holds
   along every schedule *)
Lemma run_inv {M} (f : M -> event -> M) (Inv : M -> state -> Prop) dttl ps :
  (forall m st t st' evs, Inv m st -> step dttl ps st t = (st', evs) -> Inv (fold_left f evs m) st') ->
  forall sched m st st' tr, Inv m st -> run dttl ps st sched = (st', tr) -> Inv (fold_left f tr m) st'.
Proof.
  intro Hstep. induction sched as [|t r IH]; intros m st st' tr Hinv H; cbn [run] in H.
  - inversion H; subst. exact Hinv.
  - destruct (step dttl ps st t) as [st1 e1] eqn:E1. destruct (run dttl ps st1 r) as [st2 e2] eqn:E2.
    inversion H; subst. rewrite fold_left_app. eauto.
Qed.

(* ... and so does a verdict that no step changes *)
Lemma run_ok {M} (f : M -> event -> M) (Inv : M -> state -> Prop) (ok : M -> bool) dttl ps :
  (forall m st t st' evs, Inv m st -> step dttl ps st t = (st', evs) ->
     Inv (fold_left f evs m) st' /\ ok (fold_left f evs m) = ok m) ->
  forall sched m st st' tr, Inv m st -> run dttl ps st sched = (st', tr) ->
     Inv (fold_left f tr m) st' /\ ok (fold_left f tr m) = ok m.
Proof.
  intros Hstep sched m st st' tr Hinv H.
  refine (run_inv f (fun m' st' => Inv m' st' /\ ok m' = ok m) dttl ps _ sched m st st' tr (conj Hinv eq_refl) H).
  intros m1 st1 t st2 evs [I1 O1] E. destruct (Hstep _ _ _ _ _ I1 E) as [I2 O2]. split; [exact I2 | congruence].
Qed.

Lemma nth_init ps t th : nth_error (thrs (init ps)) t = Some th -> th = thr0.
Proof.
  cbn [init thrs]. intro H. apply nth_error_In in H. apply in_map_iff in H as [x [E _]]. auto.
Qed.

Lemma initL ps : InvL monL0 (init ps).
Proof.
  split; cbn [monL0 l_open l_done init locks].
  - intros t s [].
  - intros t th s H Hh. apply nth_init in H; subst. discriminate.
  - intros s t H. discriminate.
  - intros t th _ H. discriminate.
Qed.

Lemma reachL dttl ps sched st tr :
  run dttl ps (init ps) sched = (st, tr) -> okL_step monL0 (fold_left monL_step tr monL0) st.
Proof.
  apply (run_ok monL_step InvL l_ok dttl ps (stepL dttl ps)), initL.
Qed.

Lemma run_len dttl ps sched st tr :
  run dttl ps (init ps) sched = (st, tr) -> length (thrs st) = length ps.
Proof.
  apply (run_inv (fun _ _ => tt) (fun _ st => length (thrs st) = length ps) dttl ps); [|exact tt|apply map_length].
  intros _ st0 t st' evs E H. apply step_unfold in H as [e0 [H _]]. rewrite <- E.
  destruct (step0_shape _ _ _ _ _ _ H)
    as [|p th pre st1 th1 evs1 ph _ _ _ _ Hop _ _|p th pre st1 th1 evs1 ls r _ _ _ Hop _ _|];
    cbn [set_thr with_locks answered thrs]; rewrite ?length_upd; try reflexivity;
    apply regop_frame in Hop as (_ & -> & _); reflexivity.
Qed.

Lemma specL_model i : specL i (model i) = true.
Proof.
  unfold specL, model. destruct (run (i_dttl i) (i_progs i) (init (i_progs i)) (i_sched i)) as [st tr] eqn:H.
  cbn [o_trace o_locked].
  destruct (reachL _ _ _ _ _ H) as [[_ _ I3 I4] Ok]. rewrite Ok. cbn [monL0 l_ok andb].
  destruct (forallb _ _) eqn:Ea; [|reflexivity].
  destruct (locks st) as [|[s t] ls] eqn:El; [reflexivity|]. exfalso.
  assert (Hl : lock_of s ((s, t) :: ls) = Some t) by now rewrite lock_of_cons, N.eqb_refl.
  destruct (I3 _ _ Hl) as [th [Hn Hh]].
  assert (Hlt : (t < length (i_progs i))%nat).
  { rewrite <- (run_len _ _ _ _ _ H). apply nth_error_Some. congruence. }
  rewrite forallb_forall in Ea. specialize (Ea t). rewrite in_seq in Ea.
  assert (Hd : memn t (l_done (fold_left monL_step tr monL0)) = true) by (apply Ea; lia).
  pose proof (I4 _ _ Hn Hd) as Ep. unfold held_by in Hh. rewrite Ep in Hh. discriminate.
Qed.

Definition sids (es : list entry) : list N := map e_sid es.

Record InvC (m : monC) (st : state) : Prop := {
  C_drain : c_drain m = drain st;
  C_closed : c_closed m = closes st;
  C_fresh : forall s, In s (c_opened m) -> s < next st;
  C_nodup : NoDup (c_opened m);
  (* every opened session is in exactly one place: the registry or the list of Close() calls *)
  C_part : Permutation (c_opened m) (sids (ents st) ++ closes st) }.

Definition okC_step (m m' : monC) (st' : state) : Prop := InvC m' st' /\ c_ok m' = c_ok m.

Lemma InvC_ext m st st' :
  InvC m st -> drain st' = drain st -> closes st' = closes st -> ents st' = ents st ->
  next st' = next st -> InvC m st'.
Proof. intros [A B F D P] E1 E2 E3 E4. split; rewrite ?E1, ?E2, ?E3, ?E4; assumption. Qed.

Lemma InvC_live m st s : InvC m st -> In s (sids (ents st)) -> ~ In s (closes st).
Proof. intros [_ _ _ D P]. exact (NoDup_app_not_in _ _ s (Permutation_NoDup P D)). Qed.

Lemma foldC_closed ps gone : forall m,
  NoDup gone -> (forall s, In s gone -> ~ In s (c_closed m) /\ In s (c_opened m)) ->
  fold_left (monC_step ps) (map EClosed gone) m =
  {| c_drain := c_drain m; c_opened := c_opened m; c_closed := rev gone ++ c_closed m; c_ok := c_ok m |}.
Proof.
  induction gone as [|s gone IH]; intros m Hnd Hall; cbn [map fold_left rev app].
  - destruct m; reflexivity.
  - inversion Hnd; subst. rewrite IH; cbn [monC_step c_drain c_opened c_closed c_ok]; auto.
    + destruct (Hall s (or_introl eq_refl)) as [Hc Ho].
      apply (existsb_eqb_not_In N.eqb N.eqb_eq) in Hc. apply (existsb_eqb_In N.eqb N.eqb_eq) in Ho.
      unfold memN. rewrite Hc, Ho. cbn [negb].
      rewrite !andb_true_r, <- app_assoc. reflexivity.
    + intros s' Hin. destruct (Hall s' (or_intror Hin)) as [Hc Ho]. split; [|exact Ho].
      intros [->|Hc']; contradiction.
Qed.

Lemma evictC ps m st dead :
  InvC m st ->
  okC_step m (fold_left (monC_step ps) (map EClosed (snd (evict st dead))) m) (fst (evict st dead)).
Proof.
  intros [A B F D P]. pose proof (Permutation_NoDup P D) as ND. unfold evict. cbn [fst snd].
  set (gone := map e_sid (filter dead (ents st))).
  unfold sids in ND, P. rewrite (map_filter_perm e_sid dead) in ND, P. fold gone in ND, P.
  rewrite foldC_closed.
  - split; [|reflexivity]. split; cbn [c_drain c_opened c_closed drain closes ents next]; auto.
    + now rewrite B.
    + unfold sids. now rewrite P, <- app_assoc, <- Permutation_rev.
  - exact (NoDup_app_r _ _ (NoDup_app_l _ _ ND)).
  - intros s Hin. rewrite B. split.
    + apply (NoDup_app_not_in _ _ _ ND), in_or_app. auto.
    + apply (Permutation_in _ (Permutation_sym P)). rewrite !in_app_iff. auto.
Qed.

Lemma filter_sid_none s es : ~ In s (sids es) -> filter (fun e' => e_sid e' =? s) es = [].
Proof.
  induction es as [|a l IH]; cbn; intro H; [reflexivity|].
  destruct (e_sid a =? s) eqn:E; [apply N.eqb_eq in E; exfalso; apply H; auto|]. apply IH. tauto.
Qed.

Lemma find_ent_sid w s es e : find_ent w s es = Some e -> In s (sids es).
Proof. intro H. apply find_ent_some in H as (Hin & <- & _). exact (in_map e_sid _ _ Hin). Qed.

Lemma single_gone w s es e :
  NoDup (sids es) -> find_ent w s es = Some e ->
  map e_sid (filter (fun e' => e_sid e' =? s) es) = [s].
Proof.
  induction es as [|a l IH]; cbn [sids map]; intros Hnd H; [discriminate|].
  apply NoDup_cons_iff in Hnd as [Hn1 Hn2]. cbn [filter]. destruct (e_sid a =? s) eqn:E.
  - apply N.eqb_eq in E. cbn [map]. rewrite filter_sid_none; [cbn; congruence|].
    fold (sids l) in Hn1. congruence.
  - apply IH; auto. unfold find_ent in *. cbn [find] in H. rewrite E in H. exact H.
Qed.

Lemma evictedC ps m st st1 evs :
  InvC m st -> evicted st st1 evs -> okC_step m (fold_left (monC_step ps) evs m) st1.
Proof.
  intros Hinv [|w s e Ef]; [split; [exact Hinv | reflexivity]|].
  pose proof (evictC ps m st (fun e0 => e_sid e0 =? s) Hinv) as X.
  cbn [evict snd] in X. destruct Hinv as [_ _ _ D P].
  rewrite (single_gone _ _ _ _ (NoDup_app_l _ _ (Permutation_NoDup P D)) Ef) in X. exact X.
Qed.

Lemma actedC dttl ps m st t th w c tk acc ttl body out st1 th1 evs :
  InvC m st -> nth_error ps t = Some (PReq w c tk acc ttl body out) ->
  acted dttl st t th w c ttl st1 th1 evs -> okC_step m (fold_left (monC_step ps) evs m) st1.
Proof.
  intros Hinv Hp [r Hr|Ed|st2 th2 evs2 hit H _].
  - assert (E : monC_step ps m (EAct t r) = m) by (destruct Hr; subst r; reflexivity).
    cbn [fold_left]. rewrite E. split; [|reflexivity].
    destruct Hinv as [A B F D P]. split; cbn [bump drain closes ents next]; auto.
    intros s Hs. specialize (F s Hs). lia.
  - cbn [fold_left monC_step]. rewrite Hp.
    destruct Hinv as [A B F D P].
    assert (Hfresh : ~ In (next st) (c_opened m)) by (intro Hin; specialize (F _ Hin); lia).
    split.
    + split; cbn [c_drain c_opened c_closed drain closes ents next]; auto.
      * intros s [<-|Hs]; [lia|]. specialize (F s Hs). lia.
      * now constructor.
      * unfold sids. rewrite map_app, <- app_assoc. now apply Permutation_cons_app.
    + cbn [c_ok]. rewrite A, Ed. apply (existsb_eqb_not_In N.eqb N.eqb_eq) in Hfresh. unfold memN.
      rewrite Hfresh. cbn. now rewrite andb_true_r.
  - rewrite fold_left_app. cbn [fold_left]. exact (evictedC ps m _ _ _ Hinv H).
Qed.

Lemma silentC ps m e : silent e = true -> monC_step ps m e = m.
Proof. destruct e; try discriminate; reflexivity. Qed.

Lemma regopC dttl ps m st t th p st1 th1 evs :
  InvC m st -> nth_error ps t = Some p -> regop dttl st t th p st1 th1 evs ->
  okC_step m (fold_left (monC_step ps) evs m) st1.
Proof.
  intros Hinv Hp [st2 evs2 H|w c tk acc ttl body out st2 th2 evs2 -> H|dead].
  - eapply evictedC; eassumption.
  - eapply actedC; eauto.
  - apply evictC, Hinv.
Qed.

Lemma answeredC ps m st t p r ls th' :
  InvC m st -> nth_error ps t = Some p ->
  okC_step m (monC_step ps m (EResp t r)) (set_thr (with_locks (answered p st) ls) t th').
Proof.
  intros [A B F D P] Hp. cbn [monC_step]. rewrite Hp.
  destruct p; (split; [split|reflexivity]);
    cbn [c_drain c_opened c_closed set_thr with_locks answered drain closes ents next]; auto.
  now rewrite A.
Qed.

Lemma stepC dttl ps m st t st' evs :
  InvC m st -> step dttl ps st t = (st', evs) -> okC_step m (fold_left (monC_step ps) evs m) st'.
Proof.
  intros Hinv H. apply step_unfold in H as [e0 [H ->]]. rewrite fold_annot by reflexivity.
  destruct (step0_shape _ _ _ _ _ _ H)
    as [|p th pre st1 th1 evs1 ph Hp _ _ Hq Hop _ _|p th pre st1 th1 evs1 ls r Hp _ Hq Hop _ _
        |p th s th' evs' _ _ _ _ _ _ Hev].
  - split; [exact Hinv | reflexivity].
  - rewrite fold_left_app, (fold_left_silent _ _ _ (silentC ps _) pre) by exact Hq.
    destruct (regopC _ _ _ _ _ _ _ _ _ _ Hinv Hp Hop) as [I1 O1]. split; [|exact O1].
    eapply InvC_ext; eauto.
  - rewrite fold_left_app, (fold_left_silent _ _ _ (silentC ps _) pre), fold_left_app by exact Hq. cbn [fold_left].
    destruct (regopC _ _ _ _ _ _ _ _ _ _ Hinv Hp Hop) as [I1 O1].
    destruct (answeredC ps _ _ t p r ls (set_ph th1 PhDone) I1 Hp) as [I2 O2]. split; [exact I2 | congruence].
  - assert (E : fold_left (monC_step ps) evs' m = m) by (destruct Hev as [->|[b ->]]; reflexivity).
    rewrite E. split; [|reflexivity]. eapply InvC_ext; eauto.
Qed.

Lemma initC ps : InvC monC0 (init ps).
Proof. split; cbn; auto using NoDup_nil; tauto. Qed.

Lemma reachC dttl ps sched st tr :
  run dttl ps (init ps) sched = (st, tr) -> okC_step monC0 (fold_left (monC_step ps) tr monC0) st.
Proof.
  apply (run_ok (monC_step ps) InvC c_ok dttl ps (stepC dttl ps)), initC.
Qed.

Lemma specC_model i : specC i (model i) = true.
Proof.
  unfold specC, model. destruct (run (i_dttl i) (i_progs i) (init (i_progs i)) (i_sched i)) as [st tr] eqn:H.
  cbn [o_trace]. now destruct (reachC _ _ _ _ _ H) as [_ ->].
Qed.

Lemma model_meets_spec_LC i : specL i (model i) && specC i (model i) = true.
Proof. now rewrite specL_model, specC_model. Qed.

(* sessions opened / Close() calls, read off a trace *)
Definition opened_in (tr : list event) : list N :=
  flat_map (fun e => match e with EAct _ (AOpened s) => [s] | _ => [] end) tr.
Definition closed_in (tr : list event) : list N :=
  flat_map (fun e => match e with EClosed s => [s] | _ => [] end) tr.

Lemma monC_fields ps tr : forall m,
  c_opened (fold_left (monC_step ps) tr m) = rev (opened_in tr) ++ c_opened m /\
  c_closed (fold_left (monC_step ps) tr m) = rev (closed_in tr) ++ c_closed m.
Proof.
  induction tr as [|e tr IH]; intro m; cbn [fold_left opened_in closed_in flat_map rev app]; [auto|].
  fold (opened_in tr). fold (closed_in tr). destruct (IH (monC_step ps m e)) as [A B]. rewrite A, B.
  destruct e as [t|t s b|t a|s|t s|t r]; cbn [monC_step app rev].
  - auto.
  - auto.
  - destruct a; cbn [c_opened c_closed app rev]; auto.
    rewrite <- ?app_assoc; auto.
  - cbn [c_opened c_closed]. rewrite <- ?app_assoc; auto.
  - auto.
  - destruct (nth_error ps t) as [[]|]; auto.
Qed.

(* on the trace: the sessions opened, each once, are those registered and those closed *)
Lemma reachC_trace dttl ps sched st tr :
  run dttl ps (init ps) sched = (st, tr) ->
  NoDup (sids (ents st) ++ closed_in tr) /\ Permutation (opened_in tr) (sids (ents st) ++ closed_in tr).
Proof.
  intro H. destruct (reachC _ _ _ _ _ H) as [[_ B _ D P] _].
  destruct (monC_fields ps tr monC0) as [Eo Ec]. cbn [monC0 c_opened c_closed] in Eo, Ec.
  rewrite app_nil_r in Eo, Ec. rewrite <- B, Ec, <- Permutation_rev in P.
  split; [exact (Permutation_NoDup P D) | now rewrite <- P, Eo, <- Permutation_rev].
Qed.

(* no session is ever opened on a draining worker *)
Lemma do_act_draining dttl st t th w c acc ttl st1 th1 evs s :
  do_act dttl st t th w c acc ttl HOpen = (st1, th1, evs) -> In (EAct t (AOpened s)) evs ->
  memN w (drain st) = false.
Proof.
  intros H Hin. apply do_act_acted in H.
  destruct H as [r [-> | ->]|Hd|st2 th2 evs2 hit [] _]; auto; cbn in Hin; intuition discriminate.
Qed.

(* the AAD encoding separates callers (domains are NUL-free) *)
Lemma aad_inj c c' : dom_ok c = true -> dom_ok c' = true -> aad c = aad c' -> c = c'.
Proof.
  destruct c as [|d p], c' as [|d' p']; cbn [aad dom_ok]; intros Hd Hd' E.
  - reflexivity.
  - (* [c29_aad_auth_pre] ends in the byte 1 where [c29_aad_anon] has 0 *)
    exfalso. apply (f_equal (fun l => nth (length c29_aad_auth_pre - 1) l 2)) in E. vm_compute in E. discriminate.
  - exfalso. apply (f_equal (fun l => nth (length c29_aad_auth_pre - 1) l 2)) in E. vm_compute in E. discriminate.
  - apply app_inv_head in E. apply negb_true_iff in Hd, Hd'.
    change c29_aad_sep with [0] in E. cbn [app] in E.
    apply (existsb_eqb_not_In N.eqb N.eqb_eq) in Hd, Hd'.
    destruct (app_sep_inj _ _ _ _ _ Hd Hd' E) as [-> ->]. reflexivity.
Qed.

Lemma resolve_found st w c tok st1 evs s :
  resolve st w c (Some tok) = (st1, evs, Some s) ->
  st1 = st /\ evs = [] /\ s = k_sid tok /\ k_w tok = w /\ k_aad tok = aad c /\
  exists e, In e (ents st) /\ e_sid e = s /\ e_w e = w /\ e_key e = pkey c /\ (now st <= e_exp e)%Z.
Proof.
  unfold resolve. intro H.
  destruct (beqb (k_aad tok) (aad c)) eqn:Ea; cbn [negb] in H; [|discriminate].
  destruct (k_w tok =? w) eqn:Ew; cbn [negb] in H; [|discriminate].
  destruct (find_ent w (k_sid tok) (ents st)) as [e|] eqn:Ef; [|discriminate].
  destruct (e_exp e <? now st)%Z eqn:Ex; [discriminate|].
  destruct (beqb (e_key e) (pkey c)) eqn:Ek; cbn [negb] in H; [|discriminate].
  inversion H; subst. apply beqb_eq in Ea, Ek. apply N.eqb_eq in Ew.
  apply find_ent_some in Ef as (Hin & H1 & H2). repeat split; auto. exists e. repeat split; auto. lia.
Qed.

(* every token in circulation was sealed for the request that opened the session *)
Definition InvT (ps : list prog) (st : state) : Prop :=
  forall t th tok, nth_error (thrs st) t = Some th -> t_mint th = Some tok ->
    exists w c tk acc ttl body out,
      nth_error ps t = Some (PReq w c tk acc ttl body out) /\ k_w tok = w /\ k_aad tok = aad c.

Lemma InvT_upd ps st st1 t p th th' :
  InvT ps st -> nth_error ps t = Some p -> nth_error (thrs st) t = Some th -> thrs st1 = thrs st ->
  (t_mint th' = t_mint th \/
   exists w c tk acc ttl body out s, p = PReq w c tk acc ttl body out /\
      t_mint th' = Some {| k_w := w; k_sid := s; k_aad := aad c |}) ->
  InvT ps (set_thr st1 t th').
Proof.
  intros Hinv Hp Ht Et Hm u thu tok Hu Hk. cbn [set_thr thrs] in Hu. rewrite Et in Hu.
  destruct (nth_upd_inv _ _ _ _ _ _ Ht Hu) as [[-> ->]|[_ Hu']]; [|eauto].
  destruct Hm as [Hm | (w & c & tk & acc & ttl & body & out & s & -> & Hm)]; rewrite Hm in Hk.
  - eauto.
  - inversion Hk; subst. exists w, c, tk, acc, ttl, body, out. auto.
Qed.

Lemma regop_mint dttl st t th p st1 th1 evs :
  regop dttl st t th p st1 th1 evs ->
  t_mint th1 = t_mint th \/
  exists w c tk acc ttl body out s, p = PReq w c tk acc ttl body out /\
    t_mint th1 = Some {| k_w := w; k_sid := s; k_aad := aad c |}.
Proof.
  intros [|w c tk acc ttl body out st2 th2 evs2 Hp [| |]|]; auto.
  right. repeat eexists; eauto.
Qed.

Lemma stepT dttl ps st t st' evs : InvT ps st -> step dttl ps st t = (st', evs) -> InvT ps st'.
Proof.
  intros Hinv H. apply step_unfold in H as [e0 [H _]].
  destruct (step0_shape _ _ _ _ _ _ H)
    as [|p th pre st1 th1 evs1 ph Hp Ht _ _ Hop _ _|p th pre st1 th1 evs1 ls r Hp Ht _ Hop _ _
        |p th s th' evs' Hp Ht _ _ _ Hm _].
  - (* stutter *) exact Hinv.
  - (* move *) eapply InvT_upd; eauto; [apply (regop_frame _ _ _ _ _ _ _ _ Hop) | exact (regop_mint _ _ _ _ _ _ _ _ Hop)].
  - (* answer *) eapply InvT_upd; eauto; [apply (regop_frame _ _ _ _ _ _ _ _ Hop) | exact (regop_mint _ _ _ _ _ _ _ _ Hop)].
  - (* acquire: the token minted is kept *) eapply InvT_upd; eauto.
Qed.

Lemma reachT dttl ps sched st tr : run dttl ps (init ps) sched = (st, tr) -> InvT ps st.
Proof.
  apply (run_inv (fun _ _ => tt) (fun _ st => InvT ps st) dttl ps); [|exact tt|].
  - intros _ st0 t st' evs. apply stepT.
  - intros t th tok H Hm. apply nth_init in H; subst. discriminate.
Qed.

Lemma combine_seq_nth {A} (l : list A) : forall a u x,
  In (u, x) (combine (seq a (length l)) l) -> (a <= u)%nat /\ nth_error l (u - a) = Some x.
Proof.
  induction l as [|y l IH]; intros a u x H; cbn in H; [contradiction|].
  destruct H as [H|H].
  - inversion H; subst. rewrite Nat.sub_diag. split; [lia | reflexivity].
  - apply IH in H as [H1 H2]. split; [lia|].
    replace (u - a)%nat with (S (u - S a)) by lia. exact H2.
Qed.

Lemma in_call_other_true st t s :
  in_call_other st t s = true ->
  exists u th rest, u <> t /\ nth_error (thrs st) u = Some th /\ t_ph th = PhRun (Some s) rest.
Proof.
  unfold in_call_other. intro H. apply existsb_exists in H as [[u th] [Hin Hc]].
  cbn [fst snd] in Hc. apply andb_true_iff in Hc as [Hne Hp].
  apply combine_seq_nth in Hin as [_ Hn]. rewrite Nat.sub_0_r in Hn.
  destruct (t_ph th) as [| |[s'|] rest| |] eqn:Ep; try discriminate.
  apply N.eqb_eq in Hp; subst s'. exists u, th, rest. repeat split; auto.
  intros ->. now rewrite Nat.eqb_refl in Hne.
Qed.

(* the thread holding the lock of s is alone on s: nobody else is inside a handler on s *)
Lemma holder_alone mL st t th s :
  InvL mL st -> nth_error (thrs st) t = Some th -> held_by th = Some s -> in_call_other st t s = false.
Proof.
  intros Hinv Ht Eh. destruct (in_call_other st t s) eqn:E; [|reflexivity]. exfalso.
  apply in_call_other_true in E as (u' & th' & rest & Hne & Hn & Ep').
  assert (B : lock_of s (locks st) = Some u') by (eapply (L_held _ _ Hinv); eauto; unfold held_by; now rewrite Ep').
  rewrite (L_held _ _ Hinv _ _ _ Ht Eh) in B. congruence.
Qed.

Definition is_del (ps : list prog) (t : nat) : bool :=
  match nth_error ps t with Some (PDelete _ _ _) => true | _ => false end.

(* monitor X on one event of a step of thread t from st, its annotation included *)
Definition monX_at ps st t (m : monX) (e : event) : monX :=
  match e with
  | EClosed s => if in_call_other st t s && is_del ps t
                 then {| x_sus := t :: x_sus m; x_ok := x_ok m |} else m
  | _ => monX_step ps m e
  end.

Lemma foldX_annot ps st t evs : forall m,
  fold_left (monX_step ps) (annotate st t evs) m = fold_left (monX_at ps st t) evs m.
Proof.
  induction evs as [|e evs IH]; intro m; [reflexivity|].
  unfold annotate. cbn [flat_map fold_left]. fold (annotate st t evs). rewrite fold_left_app, IH. f_equal.
  destruct e as [| | |s| |]; try reflexivity. unfold monX_at, is_del.
  destruct (in_call_other st t s); [|reflexivity]. cbn. now destruct (nth_error ps t) as [[]|].
Qed.

Lemma silentX ps st t m e : silent e = true -> monX_at ps st t m e = m.
Proof. destruct e as [|? [] ?| | | |]; try discriminate; reflexivity. Qed.

(* over registry events the monitor comes to suspect t at most, and nobody if each session
   closed is free of other calls or t is no DELETE *)
Lemma foldX_reg ps st t evs : forallb regev evs = true -> forall m,
  let m' := fold_left (monX_at ps st t) evs m in
  x_ok m' = x_ok m /\ (forall u, In u (x_sus m') -> u = t \/ In u (x_sus m)) /\
  ((forall s, In (EClosed s) evs -> in_call_other st t s && is_del ps t = false) -> m' = m).
Proof.
  induction evs as [|e evs IH]; intros R m; cbn [fold_left]; [auto|].
  apply andb_true_iff in R as [Re R]. destruct (IH R (monX_at ps st t m e)) as (A & B & C).
  assert (K : (forall s, In (EClosed s) (e :: evs) -> in_call_other st t s && is_del ps t = false) ->
              forall s, In (EClosed s) evs -> in_call_other st t s && is_del ps t = false)
    by (intros H s Hs; apply H; now right).
  destruct e as [| | |s| |]; try discriminate Re; cbn [monX_at monX_step] in *; [auto|].
  destruct (in_call_other st t s && is_del ps t) eqn:E; cbn [x_ok x_sus] in *; [|auto].
  repeat split; [exact A | | intro H; rewrite H in E; [discriminate | now left]].
  intros u Hu. destruct (B u Hu) as [|[|]]; auto.
Qed.

Lemma filter_all_eq t l : (forall u, In u l -> u = t) -> filter (fun u => negb (Nat.eqb u t)) l = [].
Proof.
  induction l as [|u l IH]; intro H; [reflexivity|]. cbn [filter].
  rewrite (H u (or_introl eq_refl)), Nat.eqb_refl. apply IH. intros v Hv. apply H. now right.
Qed.

Lemma stepX dttl ps mL m st t st' evs :
  InvL mL st -> x_sus m = [] -> step dttl ps st t = (st', evs) ->
  x_sus (fold_left (monX_step ps) evs m) = [] /\ x_ok (fold_left (monX_step ps) evs m) = x_ok m.
Proof.
  intros Hinv Hs H. apply step_unfold in H as [e0 [H ->]]. rewrite foldX_annot.
  destruct (step0_shape _ _ _ _ _ _ H)
    as [|p th pre st1 th1 evs1 ph Hp Ht _ Hq Hop _ Hown|p th pre st1 th1 evs1 ls r _ _ Hq Hop _ Hr
        |p th s th' evs' _ _ _ _ _ _ [->|[b ->]]]; [auto | | | auto ..].
  - rewrite fold_left_app, (fold_left_silent _ _ _ (silentX ps st t _) pre) by exact Hq.
    destruct (foldX_reg ps st t _ (regop_events _ _ _ _ _ _ _ _ Hop) m) as (_ & _ & C). rewrite C; [auto|].
    (* a DELETE closes under its lock, where it is alone; the Close() of anybody else is not suspect *)
    intros s Hin. unfold is_del. rewrite Hp. destruct p; try apply andb_false_r.
    now rewrite (holder_alone _ _ _ _ _ Hinv Ht (Hown _ _ _ _ eq_refl Hin)).
  - rewrite fold_left_app, (fold_left_silent _ _ _ (silentX ps st t _) pre), fold_left_app by exact Hq.
    destruct (foldX_reg ps st t _ (regop_events _ _ _ _ _ _ _ _ Hop) m) as (A & B & _).
    cbn [fold_left monX_at monX_step x_sus x_ok]. split.
    + (* the answer clears every suspicion of this step *)
      apply filter_all_eq. intros u Hu. destruct (B u Hu) as [|Hu']; [assumption|]. rewrite Hs in Hu'. destruct Hu'.
    + rewrite A. destruct r as [| | [|] |]; try apply andb_true_r.
      rewrite (Hr eq_refl). cbn [fold_left]. rewrite Hs. apply andb_true_r.
Qed.

Lemma specX_model i : specX i (model i) = true.
Proof.
  unfold specX, model. destruct (run (i_dttl i) (i_progs i) (init (i_progs i)) (i_sched i)) as [st tr] eqn:H.
  cbn [o_trace].
  apply (run_ok (monX_step (i_progs i)) (fun m st => (exists mL, InvL mL st) /\ x_sus m = []) x_ok) with (m := monX0) in H as [_ ->].
  - reflexivity.
  - intros m st0 t st' evs [[mL Hinv] Hs] E. destruct (stepX _ _ _ _ _ _ _ _ Hinv Hs E) as [S1 O1].
    split; [split; [eexists; apply (stepL _ _ _ _ _ _ _ Hinv E) | exact S1] | exact O1].
  - split; [exists monL0; apply initL | reflexivity].
Qed.
