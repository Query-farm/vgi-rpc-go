(* Two ideas carry the file.  The allocation table is only ever looked at as the
   multiset of its offsets ([map fst]); every step of client and server keeps
       offsets in the table  ~  pointers handed out, not yet released ++ client slots,
   whatever the allocator decides (Proofs/C34.v: allocation adds one offset, free
   removes one).  And the big functions of the model are cut along their own joints
   ([lockstep_step], [serve_eq], [serve_call_eq], [run_live]) so that each fact is an
   induction with one case per joint.  These equations have no [let] on the right: a
   [let] is expanded by the first [cbn] after the rewrite, once per use of the bound
   name, and the kernel redoes that at [Qed].  (The two small ones, [put_items_cons] and
   [tables_ok_cons], keep the model's [let]s: written out they are hard to read.) *)
From Coq Require Import Permutation.
From VR Require Import Model.C36.
From VR Require Model.C34 Proofs.C34.
Local Open Scope N_scope.

Lemma write_slot_perm size z t :
  Permutation (map fst (snd (write_slot size z t)))
              (match fst (write_slot size z t) with Some p => [fst p] | None => [] end ++ map fst t).
Proof.
  unfold write_slot, C34.step. destruct (C34.canfit size (z_est z) t); [|apply Permutation_refl].
  destruct (C34.alloc size (z_total z) t) as [[off t1]|] eqn:E; [|apply Permutation_refl].
  exact (Proofs.C34.alloc_offs _ _ _ _ _ E).
Qed.

Lemma free_slot_cons off t R : Permutation (map fst t) (off :: R) -> Permutation (map fst (free_slot off t)) R.
Proof.
  intro P. destruct (Proofs.C34.free_offs off t) as (t' & E & Q); [rewrite P; now left|].
  unfold free_slot. rewrite E. apply Permutation_cons_inv with (a := off). now rewrite <- Q.
Qed.

Lemma remove_one_perm x : forall l, In x l -> Permutation l (x :: remove_one x l).
Proof.
  induction l as [|y r IH]; intro H; [destruct H|]. cbn [remove_one].
  destruct (N.eqb_spec x y) as [->|Ne]; [apply Permutation_refl|].
  destruct H as [H|H]; [congruence|]. rewrite (IH H) at 1. apply perm_swap.
Qed.

Lemma remove_one_cons off own R : Permutation own (off :: R) -> Permutation (remove_one off own) R.
Proof.
  intro Hown. apply Permutation_cons_inv with (a := off). rewrite <- Hown. apply Permutation_sym, remove_one_perm.
  rewrite Hown. now left.
Qed.

Lemma remove_one_incl x : forall l, incl (remove_one x l) l.
Proof.
  induction l as [|y r IH]; [apply incl_refl|]. cbn [remove_one].
  destruct (x =? y); [apply incl_tl, incl_refl|]. apply incl_cons; [now left|]. apply incl_tl. exact IH.
Qed.

(* the same test decides a pointer request ([en]: the connection holds the segment)
   and a pointer input ([en]: the call engaged it) *)
Definition unresolvable (en : bool) (s : sent) : bool :=
  match s with SInline => false | SPtr _ => negb en | SBad => true end.

(* what resolving does is likewise the same for both, and happens only with a segment at
   hand: the slot leaves the table and the client's account together *)
Definition release (en : bool) (s : sent) (st : lstate) : lstate :=
  match s with
  | SPtr off => if en then {| l_tab := free_slot off (l_tab st); l_own := remove_one off (l_own st) |} else st
  | _ => st
  end.

(* a slot that is not resolved stays on the account *)
Lemma release_own en s st R : Permutation (l_own st) (req_ptrs s ++ R) ->
  Permutation (l_own (release en s st)) ((if unresolvable en s then req_ptrs s else []) ++ R).
Proof. destruct s as [|off|]; [exact id|destruct en; [apply remove_one_cons|exact id]|exact id]. Qed.

Lemma release_perm en s st X R :
  Permutation (map fst (l_tab st)) (X ++ l_own st) -> Permutation (l_own st) (req_ptrs s ++ R) ->
  Permutation (map fst (l_tab (release en s st))) (X ++ l_own (release en s st)).
Proof.
  destruct s as [|off|]; [|destruct en|]; try exact (fun P _ => P). cbn [release l_tab l_own req_ptrs app].
  intros P Hown. rewrite (remove_one_cons _ _ _ Hown). apply free_slot_cons.
  rewrite P, Hown. apply Permutation_sym, Permutation_middle.
Qed.

Lemma release_incl en s st : incl (l_own (release en s st)) (l_own st).
Proof. destruct s as [|off|]; [|destruct en|]; try apply incl_refl. apply remove_one_incl. Qed.

Lemma free_all_perm : forall got t rest, Permutation (map fst t) (got ++ rest) ->
  Permutation (map fst (free_all got t)) rest.
Proof.
  induction got as [|o got IH]; intros t rest P; [exact P|]. apply (IH (free_slot o t)), free_slot_cons, P.
Qed.

Lemma ptr_offs_cons f fs : ptr_offs (f :: fs) = ptr_offs [f] ++ ptr_offs fs.
Proof. unfold ptr_offs. cbn [flat_map]. now rewrite app_nil_r. Qed.

Lemma ptr_offs_retag v : forall fs, ptr_offs (retag v fs) = ptr_offs fs.
Proof.
  unfold ptr_offs, retag. induction fs as [|f fs IH]; [reflexivity|]. cbn [map flat_map]. rewrite IH.
  destruct f as [a u s [[o l]|]| |]; reflexivity.
Qed.
Lemma view_set_var v f : view_frame (set_var v f) = set_var v (view_frame f).
Proof. destruct f; reflexivity. Qed.
Lemma view_retag v fs : map view_frame (retag v fs) = retag v (map view_frame fs).
Proof. unfold retag. rewrite !map_map. apply map_ext, view_set_var. Qed.
Lemma processed_retag v : forall fs, processed (retag v fs) = processed fs.
Proof. unfold retag. induction fs as [|f fs IH]; [reflexivity|]. cbn [map]. destruct f; cbn [set_var processed]; congruence. Qed.
Lemma retag_noptr v : forall fs, forallb no_ptr_frame (retag v fs) = forallb no_ptr_frame fs.
Proof. unfold retag. induction fs as [|f fs IH]; [reflexivity|]. cbn [map forallb]. rewrite IH. destruct f as [a u s [p|]| |]; reflexivity. Qed.
Lemma out_cfg_size g v : g_size (out_cfg g v) = g_size g.
Proof. reflexivity. Qed.

Lemma err_not_io k : beqb (err_exc k) exc_io_error = false.
Proof. destruct k; reflexivity. Qed.

Lemma client_put_perm g w rows t :
  Permutation (map fst (snd (client_put g w rows t))) (req_ptrs (fst (client_put g w rows t)) ++ map fst t).
Proof.
  unfold client_put. destruct (g_size g) as [size|]; [|apply Permutation_refl].
  destruct w; try apply Permutation_refl. destruct (rows =? 0); [apply Permutation_refl|].
  pose proof (write_slot_perm size (lookup_sz rows (g_szi g)) t) as W.
  destruct (write_slot size (lookup_sz rows (g_szi g)) t) as [[[off len]|] t']; exact W.
Qed.

Lemma client_put_sent g w rows t :
  match fst (client_put g w rows t) with SInline => True | SPtr _ => w = WPtr | SBad => w = WBad end.
Proof.
  unfold client_put. destruct (g_size g); [|exact I]. destruct w; cbn [fst]; try exact I; try reflexivity.
  destruct (rows =? 0); [exact I|]. destruct (write_slot _ _ _) as [[[o l]|] t']; cbn [fst]; [reflexivity|exact I].
Qed.

Lemma client_put_plain g w rows t : g_size g = None -> client_put g w rows t = (SInline, t).
Proof. intro E. unfold client_put. now rewrite E. Qed.

Lemma ship_perm g en ne u s z t :
  Permutation (map fst (snd (ship g en ne u s z t))) (ptr_offs [fst (ship g en ne u s z t)] ++ map fst t).
Proof.
  unfold ship. destruct (g_size g) as [size|]; [|apply Permutation_refl].
  destruct (en && ne && negb (z_buf z <? g_gate g)%Z); [|apply Permutation_refl].
  pose proof (write_slot_perm size z t) as W.
  destruct (write_slot size z t) as [[[off len]|] t']; exact W.
Qed.

Lemma ship_data g en ne u s z t : exists p, fst (ship g en ne u s z t) = WData 0 u s p.
Proof.
  unfold ship. destruct (g_size g); [|now exists None].
  destruct (en && ne && negb (z_buf z <? g_gate g)%Z); [|now exists None].
  destruct (write_slot n z t) as [[p|] t']; [now exists (Some p)|now exists None].
Qed.

Lemma ship_view g en ne u s z t : view_frame (fst (ship g en ne u s z t)) = WData 0 u s None.
Proof. destruct (ship_data g en ne u s z t) as [p ->]. reflexivity. Qed.

Lemma processed_ship g en ne u s z t fs : processed (fst (ship g en ne u s z t) :: fs) = S (processed fs).
Proof. destruct (ship_data g en ne u s z t) as [p ->]. reflexivity. Qed.

Lemma ship_plain g en ne u s z t : g_size g = None -> ship g en ne u s z t = (WData 0 u s None, t).
Proof. intro E. unfold ship. now rewrite E. Qed.

(* one exchange input as sent; anything else travels inline *)
Definition put_item (g : cfg) (m : mname) (it : item) (t : tbl) : sent * tbl :=
  match m with MExch => client_put g (it_wish it) (it_rows it) t | _ => (SInline, t) end.
Definition inline (it : item) : sitem := (SInline, it_rows it, it_val it).

Lemma put_items_cons g m it r t own :
  put_items g m (it :: r) t own =
  let p := put_item g m it t in
  let rr := put_items g m r (snd p) (req_ptrs (fst p) ++ own) in
  ((fst p, it_rows it, it_val it) :: fst (fst rr), snd (fst rr), snd rr).
Proof.
  cbn [put_items]. fold (put_item g m it t). destruct (put_item g m it t) as [s t1]. cbn [fst snd].
  destruct (put_items g m r t1 (req_ptrs s ++ own)) as [[ss t2] own2]. reflexivity.
Qed.

Lemma sptrs_cons s rows val (r : list sitem) : sptrs ((s, rows, val) :: r) = req_ptrs s ++ sptrs r.
Proof. unfold sptrs. cbn [flat_map fst]. destruct s; reflexivity. Qed.

Lemma put_items_own g m : forall its t own,
  Permutation (snd (put_items g m its t own)) (sptrs (fst (fst (put_items g m its t own))) ++ own).
Proof.
  induction its as [|it its IH]; intros t own; [apply Permutation_refl|].
  rewrite put_items_cons. cbn [fst snd]. rewrite sptrs_cons, IH, <- app_assoc.
  apply Permutation_app_swap_app.
Qed.

Lemma put_items_perm g m : forall its t own X, Permutation (map fst t) (X ++ own) ->
  Permutation (map fst (snd (fst (put_items g m its t own)))) (X ++ snd (put_items g m its t own)).
Proof.
  induction its as [|it its IH]; intros t own X P; [exact P|].
  rewrite put_items_cons. cbn [fst snd]. apply IH.
  assert (Q : Permutation (map fst (snd (put_item g m it t))) (req_ptrs (fst (put_item g m it t)) ++ map fst t))
    by (unfold put_item; destruct m; try apply Permutation_refl; apply client_put_perm).
  rewrite Q, P. apply Permutation_app_swap_app.
Qed.

Definition content (items : list sitem) : list (N * Z) := map (fun i => (snd (fst i), snd i)) items.
Definition item_content (its : list item) : list (N * Z) := map (fun it => (it_rows it, it_val it)) its.

Lemma put_items_content g m : forall its t own, content (fst (fst (put_items g m its t own))) = item_content its.
Proof.
  induction its as [|it its IH]; intros t own; [reflexivity|].
  rewrite put_items_cons. cbn [fst snd content item_content map]. f_equal. apply IH.
Qed.

Lemma put_items_inline g m : m <> MExch \/ g_size g = None -> forall its t own,
  put_items g m its t own = (map inline its, t, own).
Proof.
  intro H. induction its as [|it its IH]; intros t own; [reflexivity|]. rewrite put_items_cons.
  assert (E : put_item g m it t = (SInline, t)).
  { unfold put_item. destruct H as [H|H]; [destruct m; try reflexivity; congruence|].
    destruct m; try reflexivity. now apply client_put_plain. }
  rewrite E. cbn [fst snd req_ptrs app]. now rewrite IH.
Qed.

Definition turn_of (ex : bool) (turns : list turn) : turn :=
  match turns with [] => default_turn ex | t :: _ => t end.

Definition emit_frame (g : cfg) (ex en : bool) (t : turn) (rows : N) (val : Z) (tab : tbl) : wframe * tbl :=
  ship g en (negb (t_rows t =? 0)) (t_rows t)
       (Z.of_N (t_rows t) * (t_value t + if ex then Z.of_N rows * val else 0))%Z (lookup_sz (t_rows t) (g_szi g)) tab.

(* the turn on an input that got past resolution ([rows]: what the handler sees of it;
   [leak]: it was an unresolved pointer), then the rest of the loop *)
Definition turn_step (rf : bool) (g : cfg) (ex en : bool) (turns : list turn) (rest : list sitem) (val : Z)
                     (rows : N) (st : lstate) (leak : bool) : list wframe * lstate * bool :=
  match t_act (turn_of ex turns) with
  | AErr k => ([WExc (err_exc k)], st, leak)
  | AFinish => (if ex then [WExc exc_runtime_error] else [], st, leak)
  | AEmit =>
      let ft := emit_frame g ex en (turn_of ex turns) rows val (l_tab st) in
      let r := lockstep rf g ex en (tl turns) rest {| l_tab := snd ft; l_own := l_own st |} in
      (fst ft :: fst (fst r), snd (fst r), leak || snd r)
  end.

(* an input the call cannot resolve is refused, or (before 29847dc, call not engaged) let
   through as an empty batch, flagged; any other is resolved; then the turn *)
Lemma lockstep_step rf g ex en turns s rows val rest st :
  lockstep rf g ex en turns ((s, rows, val) :: rest) st =
  if unresolvable en s && (rf || en) then ([WExc exc_io_error], st, true)
  else turn_step rf g ex en turns rest val (if unresolvable en s then 0 else rows) (release en s st) (unresolvable en s).
Proof.
  cbn [lockstep].
  (* resolution, by the table of (how sent, engaged, refusing): refused, or the input goes on *)
  set (r := match s with SInline => _ | SPtr _ => _ | SBad => _ end).
  assert (R : r = if unresolvable en s && (rf || en) then inr tt
                  else inl (if unresolvable en s then 0 else rows, release en s st, unresolvable en s))
    by (subst r; destruct s as [|off|], en, rf; reflexivity).
  rewrite R. destruct (unresolvable en s && (rf || en)); [reflexivity|].
  (* the turn *)
  unfold turn_step, emit_frame, turn_of. cbv zeta.
  destruct (t_act _); [|destruct ex; reflexivity|reflexivity].
  destruct (ship _ _ _ _ _ _ _) as [f tab']. cbn [fst snd].
  destruct (lockstep _ _ _ _ _ _ _) as [[fs st2] leak2]. reflexivity.
Qed.

(* what the lockstep loop answers on a plain connection: a function of the script and
   of the CONTENT of the inputs only *)
Fixpoint plain_frames (ex : bool) (turns : list turn) (items : list (N * Z)) : list wframe :=
  match items with
  | [] => []
  | (rows, val) :: rest =>
      let insum := if ex then (Z.of_N rows * val)%Z else 0%Z in
      let t := match turns with [] => default_turn ex | t :: _ => t end in
      match t_act t with
      | AErr k => [WExc (err_exc k)]
      | AFinish => if ex then [WExc exc_runtime_error] else []
      | AEmit => WData 0 (t_rows t) (Z.of_N (t_rows t) * (t_value t + insum))%Z None :: plain_frames ex (tl turns) rest
      end
  end.

(* live offsets = pointers in the frames written ++ X ++ client slots, given that the
   client's account covers the pointer inputs still to come *)
Lemma lockstep_perm rf g ex en : forall items turns st X R,
  Permutation (map fst (l_tab st)) (X ++ l_own st) ->
  Permutation (l_own st) (sptrs items ++ R) ->
  let r := lockstep rf g ex en turns items st in
  Permutation (map fst (l_tab (snd (fst r)))) (ptr_offs (fst (fst r)) ++ X ++ l_own (snd (fst r))).
Proof.
  induction items as [|[[s rows] val] rest IH]; intros turns st X R P Hown; [exact P|].
  cbv zeta. rewrite lockstep_step. destruct (unresolvable en s && (rf || en)); [exact P|].
  rewrite sptrs_cons, <- app_assoc in Hown. pose proof (release_perm en _ _ _ _ P Hown) as P1.
  apply (release_own en) in Hown. rewrite Permutation_app_swap_app in Hown.
  unfold turn_step. cbv zeta. destruct (t_act _); [|destruct ex; exact P1|exact P1]. cbn [fst snd].
  rewrite ptr_offs_cons, <- app_assoc, Permutation_app_swap_app, (app_assoc (ptr_offs [_]) X).
  eapply IH; cbn [l_tab l_own]; [|exact Hown].
  unfold emit_frame. rewrite ship_perm, P1, app_assoc. reflexivity.
Qed.

Lemma lockstep_own_incl rf g ex en : forall items turns st,
  incl (l_own (snd (fst (lockstep rf g ex en turns items st)))) (l_own st).
Proof.
  induction items as [|[[s rows] val] rest IH]; intros turns st; [apply incl_refl|]. rewrite lockstep_step.
  destruct (unresolvable en s && (rf || en)); [apply incl_refl|]. unfold turn_step. cbv zeta.
  destruct (t_act _); [|apply release_incl ..]. cbn [fst snd].
  exact (incl_tran (IH _ {| l_tab := _; l_own := l_own (release en s st) |}) (release_incl en s st)).
Qed.

Lemma lockstep_inline rf g ex en : forall its turns st,
  let r := lockstep rf g ex en turns (map inline its) st in
  snd r = false /\ l_own (snd (fst r)) = l_own st.
Proof.
  induction its as [|it its IH]; intros turns st; [split; reflexivity|].
  cbv zeta. cbn [map]. change (inline it) with (SInline, it_rows it, it_val it). rewrite lockstep_step.
  cbn [unresolvable release andb]. unfold turn_step. cbv zeta.
  destruct (t_act _); [|split; reflexivity ..]. exact (IH _ _).
Qed.

Lemma lockstep_plain rf g ex en : g_size g = None -> forall its turns st,
  fst (fst (lockstep rf g ex en turns (map inline its) st)) = plain_frames ex turns (item_content its).
Proof.
  intro E. induction its as [|it its IH]; intros turns st; [reflexivity|].
  cbn [map item_content plain_frames]. change (inline it) with (SInline, it_rows it, it_val it). rewrite lockstep_step.
  cbn [unresolvable release andb]. unfold turn_step, turn_of, emit_frame. cbv zeta.
  destruct (t_act _); [|reflexivity ..]. rewrite (ship_plain g _ _ _ _ _ _ E). cbn [fst snd]. f_equal. apply IH.
Qed.

(* the loop met no unresolvable pointer: its frames, pointers resolved, are the plain ones *)
Lemma lockstep_view rf g ex en : forall items turns st,
  snd (lockstep rf g ex en turns items st) = false ->
  map view_frame (fst (fst (lockstep rf g ex en turns items st))) = plain_frames ex turns (content items).
Proof.
  induction items as [|[[s rows] val] rest IH]; intros turns st; [reflexivity|].
  rewrite lockstep_step. cbn [content map fst snd]. destruct (unresolvable en s && (rf || en)); [discriminate|].
  (* a turn keeps the flag it is given: a pointer let through as data stays visible *)
  unfold turn_step, turn_of. cbn [plain_frames]. cbv zeta.
  destruct (t_act _); cbn [fst snd map]; [|destruct ex; reflexivity|reflexivity].
  intro H. apply orb_false_iff in H as [-> H]. rewrite (IH _ _ H). unfold emit_frame. now rewrite ship_view.
Qed.

(* the model's [first_unresolvable], read off the items as sent instead of wishes and flags
   ([first_unresolvable_sfirst]) *)
Fixpoint sfirst (en : bool) (items : list sitem) : option nat :=
  match items with
  | [] => None
  | i :: r => if unresolvable en (fst (fst i)) then Some O else option_map S (sfirst en r)
  end.

Definition is_sptr (s : sent) : bool := match s with SPtr _ => true | _ => false end.

(* what the client can tell from its wish and from whether a pointer went out: whether the
   server can resolve it, and whether a slot was allocated for it *)
Lemma sent_kind g w rows t :
  let s := fst (client_put g w rows t) in
  (forall en, is_ptr_sent s && (negb en || match w with WBad => true | _ => false end) = unresolvable en s)
  /\ is_ptr_sent s && match w with WBad => false | _ => true end = is_sptr s.
Proof.
  cbv zeta. pose proof (client_put_sent g w rows t) as CS.
  destruct (fst (client_put g w rows t)); [split; reflexivity| |]; rewrite CS; split; try reflexivity; intro en.
  - apply orb_false_r.
  - apply orb_true_r.
Qed.

Lemma emits_before_S k turns :
  emits_before (S k) turns = match t_act (turn_of true turns) with AEmit => emits_before k (tl turns) | _ => false end.
Proof. destruct turns; [destruct k|]; reflexivity. Qed.

(* current code, exchange: the answers to the inputs before the first unresolvable pointer are the
   plain ones; if the loop gets that far the stream ends there with one IOError *)
Lemma lockstep_reach g en : forall items turns st,
  map view_frame (fst (fst (lockstep true g true en turns items st))) =
  match sfirst en items with
  | Some k => if emits_before k turns then firstn k (plain_frames true turns (content items)) ++ [WExc exc_io_error]
              else plain_frames true turns (content items)
  | None => plain_frames true turns (content items)
  end.
Proof.
  induction items as [|[[s rows] val] rest IH]; intros turns st; [reflexivity|].
  rewrite lockstep_step. cbn [sfirst fst snd content map].
  destruct (unresolvable en s); [reflexivity|]. cbn [andb].
  unfold turn_step. cbn [plain_frames]. cbv zeta. fold (turn_of true turns).
  destruct (sfirst en rest) as [k|]; cbn [option_map].
  - (* an unresolvable input k turns further on *)
    rewrite emits_before_S. destruct (t_act (turn_of true turns)); [|reflexivity ..].
    cbn [fst map]. rewrite IH. unfold emit_frame. rewrite ship_view.
    destruct (emits_before k (tl turns)); reflexivity.
  - destruct (t_act (turn_of true turns)); [|reflexivity ..].
    cbn [fst map]. rewrite IH. unfold emit_frame. now rewrite ship_view.
Qed.

(* current code, exchange: the loop frees exactly the slots of the inputs it got to - one per
   answer, plus the one whose turn ended the stream - whatever that turn then did *)
Lemma lockstep_exch_own g en : forall items turns st R,
  Permutation (l_own st) (sptrs items ++ R) ->
  let r := lockstep true g true en turns items st in
  Permutation (l_own (snd (fst r))) (sptrs (skipn (processed (fst (fst r))) items) ++ R).
Proof.
  induction items as [|[[s rows] val] rest IH]; intros turns st R P; [exact P|]. cbv zeta. rewrite lockstep_step.
  destruct (unresolvable en s) eqn:U; [exact P|]. cbn [andb].
  (* [release] is all the account sees of this input, whatever its turn does *)
  rewrite sptrs_cons, <- app_assoc in P. apply (release_own en) in P. rewrite U in P. cbn [app] in P.
  unfold turn_step. cbv zeta. destruct (t_act _) as [| |k]; cbn [fst snd].
  - unfold emit_frame. rewrite processed_ship. apply IH, P.
  - exact P.
  - cbn [processed]. rewrite err_not_io. exact P.
Qed.

Definition plain_answer (c : call) : list (list wframe) :=
  match c_method c with
  | MUnknown => [[WExc ss_exc_unknown_method]]
  | MBlob => if sc_fail (c_script c) then [[WExc exc_value_error]]
             else [[WData blob_schema (sc_n (c_script c)) (Z.of_N (sc_n (c_script c)) * c_x c)%Z None]]
  | MProd => if sc_fail (c_script c) then [[WExc exc_value_error]]
             else [retag (sc_var (c_script c)) (plain_frames false (sc_turns (c_script c)) (item_content (c_items c)))]
  | MExch => if sc_fail (c_script c) then [[WExc exc_value_error]]
             else [retag (sc_var (c_script c)) (plain_frames true (sc_turns (c_script c)) (item_content (c_items c)))]
  end.

(* the answer to a request that is not refused, its pointer (if it was one) released already *)
Definition serve_admitted (v : variant) (g : cfg) (engaged : bool) (c : call) (items : list sitem) (st : lstate) : answer :=
  let err ty := {| a_resp := [[WExc ty]]; a_tab := l_tab st; a_own := l_own st; a_alive := true; a_bad := false |} in
  match c_method c with
  | MUnknown => err ss_exc_unknown_method
  | MBlob =>
      if sc_fail (c_script c) then err exc_value_error
      else
        let n := sc_n (c_script c) in
        let ft := ship g engaged true n (Z.of_N n * c_x c)%Z (lookup_sz n (g_szb g)) (l_tab st) in
        {| a_resp := [[set_var blob_schema (fst ft)]]; a_tab := snd ft; a_own := l_own st; a_alive := true; a_bad := false |}
  | MProd | MExch =>
      if sc_fail (c_script c) then err exc_value_error
      else
        let r := lockstep (v_input_refuse v) (out_cfg g (sc_var (c_script c))) (match c_method c with MExch => true | _ => false end)
                   engaged (sc_turns (c_script c)) items st in
        {| a_resp := [retag (sc_var (c_script c)) (fst (fst r))]; a_tab := l_tab (snd (fst r)); a_own := l_own (snd (fst r));
           a_alive := true; a_bad := snd r |}
  end.

Lemma serve_eq v g sn a c rs items t own :
  serve v g sn a c rs items t own =
  if unresolvable sn rs
  then {| a_resp := fst (refusal v (c_method c) items); a_tab := t; a_own := own;
          a_alive := snd (refusal v (c_method c) items); a_bad := true |}
  else serve_admitted v g (sn && (has_name a || is_ptr_sent rs)) c items (release sn rs {| l_tab := t; l_own := own |}).
Proof. destruct rs, sn; reflexivity. Qed.

Lemma refusal_current m items : refusal current m items = ([[WExc exc_io_error]], true).
Proof. unfold refusal. cbn [current v_ptr_drain negb]. now rewrite andb_false_r. Qed.

Lemma refusal_no_ptrs v m items : ptr_offs (concat (fst (refusal v m items))) = [].
Proof. unfold refusal. destruct (is_stream m && negb (v_ptr_drain v)); [destruct items|]; reflexivity. Qed.

Lemma ptr_offs_set_var v f : ptr_offs [set_var v f] = ptr_offs [f].
Proof. exact (ptr_offs_retag v [f]). Qed.

Lemma serve_admitted_perm v g en c items st X R :
  Permutation (map fst (l_tab st)) (X ++ l_own st) -> Permutation (l_own st) (sptrs items ++ R) ->
  let ans := serve_admitted v g en c items st in
  Permutation (map fst (a_tab ans)) (ptr_offs (concat (a_resp ans)) ++ X ++ a_own ans).
Proof.
  intros P Hown. unfold serve_admitted. cbv zeta.
  destruct (c_method c); try exact P; (destruct (sc_fail (c_script c)); [exact P|]); cbn [a_tab a_resp a_own concat app].
  - now rewrite ptr_offs_set_var, ship_perm, P.
  - rewrite app_nil_r, ptr_offs_retag. exact (lockstep_perm _ _ _ _ items _ st X R P Hown).
  - rewrite app_nil_r, ptr_offs_retag. exact (lockstep_perm _ _ _ _ items _ st X R P Hown).
Qed.

Lemma serve_perm v g sn a c rs items t own X R :
  Permutation (map fst t) (X ++ own) -> Permutation own (req_ptrs rs ++ sptrs items ++ R) ->
  let ans := serve v g sn a c rs items t own in
  Permutation (map fst (a_tab ans)) (ptr_offs (concat (a_resp ans)) ++ X ++ a_own ans).
Proof.
  intros P Hown. cbv zeta. rewrite serve_eq.
  pose proof (release_own sn rs {| l_tab := t; l_own := own |} _ Hown) as Hown1.
  destruct (unresolvable sn rs); [cbn [a_tab a_resp a_own]; rewrite refusal_no_ptrs; exact P|].
  exact (serve_admitted_perm _ _ _ _ _ _ X R (release_perm sn rs {| l_tab := t; l_own := own |} _ _ P Hown) Hown1).
Qed.

Lemma serve_admitted_view v g en c items st :
  a_bad (serve_admitted v g en c items st) = false ->
  (is_stream (c_method c) = true -> content items = item_content (c_items c)) ->
  view (a_resp (serve_admitted v g en c items st)) = plain_answer c.
Proof.
  unfold serve_admitted, plain_answer, view. intros H C.
  destruct (c_method c); cbn [is_stream] in C; [| | |reflexivity];
    (destruct (sc_fail (c_script c)); [reflexivity|]); cbn [a_resp a_bad map] in *.
  - now rewrite view_set_var, ship_view.
  - now rewrite view_retag, (lockstep_view _ _ _ _ _ _ _ H), (C eq_refl).
  - now rewrite view_retag, (lockstep_view _ _ _ _ _ _ _ H), (C eq_refl).
Qed.

Lemma serve_view v g sn a c rs items t own :
  a_bad (serve v g sn a c rs items t own) = false ->
  (is_stream (c_method c) = true -> content items = item_content (c_items c)) ->
  view (a_resp (serve v g sn a c rs items t own)) = plain_answer c.
Proof. rewrite serve_eq. destruct (unresolvable sn rs); [discriminate|apply serve_admitted_view]. Qed.

(* the server only ever takes slots off the client's account *)
Lemma serve_own_incl v g sn a c rs items t own : incl (a_own (serve v g sn a c rs items t own)) own.
Proof.
  rewrite serve_eq. destruct (unresolvable sn rs); [apply incl_refl|].
  apply incl_tran with (2 := release_incl sn rs {| l_tab := t; l_own := own |}).
  unfold serve_admitted. destruct (c_method c); try apply incl_refl; destruct (sc_fail (c_script c)); try apply incl_refl; apply lockstep_own_incl.
Qed.

(* the current tree answers every request with one stream and goes on *)
Lemma serve_shape g sn a c rs items t own :
  a_alive (serve current g sn a c rs items t own) = true
  /\ Nat.eqb (length (a_resp (serve current g sn a c rs items t own))) 1 = true.
Proof.
  rewrite serve_eq. destruct (unresolvable sn rs); [cbn [a_alive a_resp]; rewrite refusal_current; split; reflexivity|].
  unfold serve_admitted. destruct (c_method c); try (split; reflexivity); destruct (sc_fail (c_script c)); split; reflexivity.
Qed.

Lemma serve_plain v g sn a c t own : g_size g = None ->
  let ans := serve v g sn a c SInline (if is_stream (c_method c) then map inline (c_items c) else []) t own in
  a_resp ans = plain_answer c /\ a_bad ans = false /\ a_alive ans = true.
Proof.
  intro E. cbv zeta. rewrite serve_eq. cbn [unresolvable release]. unfold serve_admitted, plain_answer.
  destruct (c_method c); cbn [is_stream]; [| | |repeat split];
    (destruct (sc_fail (c_script c)); [repeat split|]); cbn [a_resp a_bad a_alive].
  - rewrite (ship_plain g _ _ _ _ _ _ E). repeat split.
  - rewrite (lockstep_plain _ (out_cfg g _) false _ E). repeat split. apply lockstep_inline.
  - rewrite (lockstep_plain _ (out_cfg g _) true _ E). repeat split. apply lockstep_inline.
Qed.

(* the client slots still on the server's account after the call: all of them, except in an
   exchange, where the loop consumed the inputs it got to *)
Lemma serve_admitted_exch_own g en c items st R :
  Permutation (l_own st) (sptrs items ++ R) -> (c_method c <> MExch -> exists its, items = map inline its) ->
  let ans := serve_admitted current g en c items st in
  Permutation (a_own ans)
    (sptrs (match c_method c, sc_fail (c_script c), a_resp ans with
            | MExch, false, [fs] => skipn (processed fs) items
            | _, _, _ => items
            end) ++ R).
Proof.
  intros P NI. unfold serve_admitted. cbv zeta.
  destruct (c_method c); try exact P; (destruct (sc_fail (c_script c)); [exact P|]); cbn [a_own a_resp]; [exact P| |].
  - destruct (NI ltac:(discriminate)) as [its ->]. now rewrite (proj2 (lockstep_inline _ _ _ _ _ _ _)).
  - rewrite processed_retag. exact (lockstep_exch_own _ _ _ _ st R P).
Qed.

Definition sent_req (g : cfg) (st : state) (c : call) : sent * tbl := client_put g (c_wish c) 1 (s_tab st).
Definition sent_items (g : cfg) (st : state) (c : call) : list sitem * tbl * list N :=
  let rq := sent_req g st c in
  if is_stream (c_method c) then put_items g (c_method c) (c_items c) (snd rq) (req_ptrs (fst rq) ++ s_own st)
  else ([], snd rq, req_ptrs (fst rq) ++ s_own st).
Definition answer_of (v : variant) (g : cfg) (st : state) (c : call) : answer :=
  serve v g (fst (ensure (s_att st) (eff_adv g (c_adv c)))) (eff_adv g (c_adv c)) c (fst (sent_req g st c))
        (fst (fst (sent_items g st c))) (snd (fst (sent_items g st c))) (snd (sent_items g st c)).

(* the table once the client has read the response and released what it releases at once *)
Definition table_after (v : variant) (g : cfg) (st : state) (c : call) : tbl :=
  if c_release_now c then free_all (ptr_offs (concat (a_resp (answer_of v g st c)))) (a_tab (answer_of v g st c))
  else a_tab (answer_of v g st c).

Lemma serve_call_eq v g st c :
  serve_call v g st c =
  ({| b_req_ptr := is_ptr_sent (fst (sent_req g st c));
      b_items_ptr := map (fun i => is_ptr_sent (fst (fst i))) (fst (fst (sent_items g st c)));
      b_resp := a_resp (answer_of v g st c); b_tab := table_after v g st c |},
   {| s_att := snd (ensure (s_att st) (eff_adv g (c_adv c))); s_tab := table_after v g st c;
      s_deferred := if c_release_now c then s_deferred st
                    else s_deferred st ++ ptr_offs (concat (a_resp (answer_of v g st c)));
      s_own := a_own (answer_of v g st c);
      s_sent := s_sent st ++ req_ptrs (fst (sent_req g st c)) ++ sptrs (fst (fst (sent_items g st c)));
      s_alive := a_alive (answer_of v g st c) |},
   a_bad (answer_of v g st c)).
Proof. unfold serve_call, table_after, answer_of, sent_items, sent_req. reflexivity. Qed.

Lemma sent_own g st c :
  Permutation (snd (sent_items g st c))
              (req_ptrs (fst (sent_req g st c)) ++ sptrs (fst (fst (sent_items g st c))) ++ s_own st).
Proof.
  unfold sent_items. cbv zeta. destruct (is_stream (c_method c)); [|reflexivity].
  rewrite put_items_own. apply Permutation_app_swap_app.
Qed.

Lemma sent_perm g st c X : Permutation (map fst (s_tab st)) (X ++ s_own st) ->
  Permutation (map fst (snd (fst (sent_items g st c)))) (X ++ snd (sent_items g st c)).
Proof.
  intro P. unfold sent_items. cbv zeta.
  assert (P0 : Permutation (map fst (snd (sent_req g st c))) (X ++ req_ptrs (fst (sent_req g st c)) ++ s_own st)).
  { unfold sent_req. rewrite client_put_perm, P. apply Permutation_app_swap_app. }
  destruct (is_stream (c_method c)); [apply put_items_perm|]; exact P0.
Qed.

Lemma sent_content g st c : is_stream (c_method c) = true ->
  content (fst (fst (sent_items g st c))) = item_content (c_items c).
Proof. intro Hstream. unfold sent_items. cbv zeta. rewrite Hstream. apply put_items_content. Qed.

Lemma sent_inline g st c : c_method c <> MExch \/ g_size g = None ->
  fst (fst (sent_items g st c)) = if is_stream (c_method c) then map inline (c_items c) else [].
Proof. intro H. unfold sent_items. cbv zeta. destruct (is_stream (c_method c)); [now rewrite put_items_inline|reflexivity]. Qed.

Lemma eff_adv_some g size a : g_size g = Some size -> eff_adv g a = a.
Proof. intro E. unfold eff_adv. now rewrite E. Qed.

(* the invariant of the session: live slots = pointers whose release is deferred ++ client slots not yet consumed *)
Definition Inv (st : state) : Prop := Permutation (map fst (s_tab st)) (s_deferred st ++ s_own st).

Lemma serve_call_inv v g st c : Inv st -> Inv (snd (fst (serve_call v g st c))).
Proof.
  unfold Inv. intro P. rewrite serve_call_eq. cbn [fst snd s_tab s_deferred s_own].
  pose proof (serve_perm v g (fst (ensure (s_att st) (eff_adv g (c_adv c)))) (eff_adv g (c_adv c)) c _ _ _ _ _ (s_own st)
                (sent_perm g st c _ P) (sent_own g st c)) as Hserve.
  cbv zeta in Hserve. fold (answer_of v g st c) in Hserve. unfold table_after.
  destruct (c_release_now c); [apply free_all_perm, Hserve|].
  rewrite Hserve, <- app_assoc. apply Permutation_app_swap_app.
Qed.

Lemma serve_call_view v g st c :
  snd (serve_call v g st c) = false -> view (b_resp (fst (fst (serve_call v g st c)))) = plain_answer c.
Proof. rewrite serve_call_eq. cbn [fst snd b_resp]. intro H. apply serve_view; [exact H|apply sent_content]. Qed.

Lemma serve_call_plain v g st c : g_size g = None ->
  b_resp (fst (fst (serve_call v g st c))) = plain_answer c
  /\ snd (serve_call v g st c) = false
  /\ s_alive (snd (fst (serve_call v g st c))) = true.
Proof.
  intro E. rewrite serve_call_eq. cbn [fst snd b_resp s_alive]. unfold answer_of.
  rewrite (sent_inline g st c (or_intror E)). unfold sent_req. rewrite (client_put_plain g _ _ _ E). cbn [fst].
  now apply serve_plain.
Qed.

Lemma serve_call_alive g st c : s_alive (snd (fst (serve_call current g st c))) = true.
Proof. rewrite serve_call_eq. cbn [fst snd s_alive]. apply serve_shape. Qed.

Lemma serve_call_own_sent v g st c : incl (s_own st) (s_sent st) ->
  incl (s_own (snd (fst (serve_call v g st c)))) (s_sent (snd (fst (serve_call v g st c)))).
Proof.
  intro Hincl. rewrite serve_call_eq. cbn [fst snd s_own s_sent].
  eapply incl_tran; [apply serve_own_incl|]. intros x Hx. rewrite (sent_own g st c) in Hx.
  rewrite !in_app_iff in *. intuition.
Qed.

Lemma run_live v g st c r : s_alive st = true ->
  run v g st (c :: r) =
  ((fst (fst (serve_call v g st c)), snd (serve_call v g st c)) :: fst (run v g (snd (fst (serve_call v g st c))) r),
   snd (run v g (snd (fst (serve_call v g st c))) r)).
Proof.
  intro A. cbn [run]. rewrite A. destruct (serve_call v g st c) as [[o st1] bad]. cbn [fst snd].
  destruct (run v g st1 r). reflexivity.
Qed.

Lemma run_dead v g st c r : s_alive st = false ->
  run v g st (c :: r) = ((dead_obs, false) :: fst (run v g st r), snd (run v g st r)).
Proof. intro A. cbn [run]. rewrite A. destruct (run v g st r). reflexivity. Qed.

Lemma run_preserves v g (P : state -> Prop) : forall cs,
  (forall st c, In c cs -> P st -> P (snd (fst (serve_call v g st c)))) ->
  forall st, P st -> P (snd (run v g st cs)).
Proof.
  induction cs as [|c r IH]; intros H st HI; [exact HI|].
  assert (Hr : forall st c', In c' r -> P st -> P (snd (fst (serve_call v g st c'))))
    by (intros st' c' Hc; apply H; now right).
  destruct (s_alive st) eqn:A; [rewrite (run_live _ _ _ _ _ A)|rewrite (run_dead _ _ _ _ _ A)]; apply (IH Hr);
    [apply H; [now left|exact HI]|exact HI].
Qed.

Lemma inv_init : Inv init. Proof. apply Permutation_refl. Qed.

Lemma run_inv v g cs : Inv (snd (run v g init cs)).
Proof. apply run_preserves; [intros st c _; apply serve_call_inv|exact inv_init]. Qed.

Lemma run_alive g cs st : s_alive st = true -> s_alive (snd (run current g st cs)) = true.
Proof. exact (run_preserves current g (fun s => s_alive s = true) cs (fun s c _ _ => serve_call_alive g s c) st). Qed.

Lemma run_own_sent v g cs : incl (s_own (snd (run v g init cs))) (s_sent (snd (run v g init cs))).
Proof.
  exact (run_preserves v g (fun s => incl (s_own s) (s_sent s)) cs (fun s c _ => serve_call_own_sent v g s c) init (incl_refl _)).
Qed.

(* after any history: once the client has released every pointer it received, the live
   slots are exactly the client's own slots that the server never consumed *)
Lemma after_release_perm v g cs :
  let st := snd (run v g init cs) in Permutation (map fst (after_release st)) (s_own st).
Proof. apply free_all_perm, run_inv. Qed.

Lemma never_advertised v g cs :
  forallb (fun c => match c_adv c with AdvGood => false | _ => true end) cs = true ->
  s_att (snd (run v g init cs)) = false.
Proof.
  intro H. apply (run_preserves v g (fun s => s_att s = false)); [|reflexivity].
  intros st c Hc A. rewrite serve_call_eq. cbn [fst snd s_att]. rewrite A.
  apply (proj1 (forallb_forall _ _) H) in Hc. unfold eff_adv. destruct (g_size g); [|reflexivity].
  destruct (c_adv c); try reflexivity. discriminate.
Qed.

(* over a whole history: wherever the server met no unresolvable pointer, the client of the
   segment-owning session sees, after resolving pointers, exactly what the plain session shows *)
Lemma transparent_run g gp : g_size gp = None -> forall cs st stp,
  s_alive st = true -> s_alive stp = true ->
  Forall2 (fun ow op => snd ow = false -> view (b_resp (fst ow)) = b_resp (fst op))
          (fst (run current g st cs)) (fst (run current gp stp cs)).
Proof.
  intro E. induction cs as [|c r IH]; intros st stp A Ap; [constructor|].
  rewrite (run_live _ _ _ _ _ A), (run_live _ _ _ _ _ Ap). cbn [fst snd].
  destruct (serve_call_plain current gp stp c E) as (PR & _ & PA).
  constructor; [|exact (IH _ _ (serve_call_alive g st c) PA)].
  cbn [fst snd]. rewrite PR. apply serve_call_view.
Qed.

Lemma run_served g : forall cs st, s_alive st = true ->
  Forall2 (fun ow c => snd ow = false -> view (b_resp (fst ow)) = plain_answer c) (fst (run current g st cs)) cs.
Proof.
  induction cs as [|c r IH]; intros st A; [constructor|]. rewrite (run_live _ _ _ _ _ A). cbn [fst snd].
  constructor; [apply serve_call_view|apply IH, serve_call_alive].
Qed.

Lemma wframe_eqb_refl f : wframe_eqb f f = true.
Proof.
  destruct f as [a u s p| |]; cbn [wframe_eqb]; rewrite ?N.eqb_refl, ?Z.eqb_refl, ?beqb_refl; try reflexivity.
  apply opt_eqb_refl, pair_eqb_refl; apply N.eqb_refl.
Qed.
Lemma frames_eqb_refl fs : list_eqb wframe_eqb fs fs = true.
Proof. apply list_eqb_refl, wframe_eqb_refl. Qed.
Lemma resp_eqb_refl r : resp_eqb r r = true.
Proof. apply list_eqb_refl, frames_eqb_refl. Qed.

Lemma plain_frames_noptr ex : forall items turns, forallb no_ptr_frame (plain_frames ex turns items) = true.
Proof.
  induction items as [|[rows val] rest IH]; intro turns; [reflexivity|]. cbn [plain_frames]. cbv zeta.
  destruct (t_act _); [cbn [forallb no_ptr_frame]; apply IH|destruct ex; reflexivity|reflexivity].
Qed.

Lemma plain_answer_shape c :
  Nat.eqb (length (plain_answer c)) 1 = true /\ forallb (forallb no_ptr_frame) (plain_answer c) = true.
Proof.
  unfold plain_answer. destruct (c_method c); try destruct (sc_fail (c_script c)); split; try reflexivity;
    cbn [forallb]; rewrite retag_noptr, plain_frames_noptr; reflexivity.
Qed.

(* the walk finds the first unresolvable input from the flags the client observed *)
Lemma first_unresolvable_sfirst g en : forall its t own k,
  first_unresolvable en its (map (fun i => is_ptr_sent (fst (fst i))) (fst (fst (put_items g MExch its t own)))) k
  = option_map (fun j => (j + k)%nat) (sfirst en (fst (fst (put_items g MExch its t own)))).
Proof.
  induction its as [|it its IH]; intros t own k; [reflexivity|]. rewrite put_items_cons.
  cbn [fst snd map first_unresolvable sfirst]. rewrite IH.
  unfold put_item. rewrite (proj1 (sent_kind g (it_wish it) (it_rows it) t) en).
  destruct (unresolvable en _); [reflexivity|].
  destruct (sfirst en _) as [j|]; cbn [option_map]; [f_equal; lia|reflexivity].
Qed.

(* the test the walk applies to a pointer request, on what the client really sent *)
Lemma refused_test g st c sn :
  is_ptr_sent (fst (sent_req g st c)) && (negb sn || match c_wish c with WBad => true | _ => false end)
  = unresolvable sn (fst (sent_req g st c)).
Proof. exact (proj1 (sent_kind g (c_wish c) 1 (s_tab st)) sn). Qed.

Lemma call_clause g size st c : g_size g = Some size ->
  calls_ok (s_att st) [c] [fst (fst (serve_call current g st c))] [plain_answer c] = true.
Proof.
  intro E. destruct (plain_answer_shape c) as [PL PN]. cbn [calls_ok]. rewrite PL, PN, !andb_true_r.
  rewrite serve_call_eq. cbn [fst snd b_resp b_req_ptr b_items_ptr]. unfold answer_of. rewrite (eff_adv_some g size _ E).
  destruct (ensure (s_att st) (c_adv c)) as [sn att']. cbn [fst]. rewrite andb_true_r.
  rewrite (proj2 (serve_shape _ _ _ _ _ _ _ _)), refused_test, serve_eq. cbn [andb].
  destruct (unresolvable sn (fst (sent_req g st c))); [cbn [a_resp]; rewrite refusal_current; reflexivity|].
  set (en := sn && (has_name (c_adv c) || is_ptr_sent (fst (sent_req g st c)))).
  (* where the walk expects transparency, the server flagged nothing *)
  assert (V : forall st1, a_bad (serve_admitted current g en c (fst (fst (sent_items g st c))) st1) = false ->
    resp_eqb (view (a_resp (serve_admitted current g en c (fst (fst (sent_items g st c))) st1))) (plain_answer c) = true).
  { intros st1 B. rewrite serve_admitted_view; [apply resp_eqb_refl|exact B|apply sent_content]. }
  destruct (c_method c) eqn:M.
  - apply V. unfold serve_admitted. rewrite M. destruct (sc_fail (c_script c)); reflexivity.
  - apply V. unfold serve_admitted. rewrite M. destruct (sc_fail (c_script c)); [reflexivity|]. cbn [a_bad].
    rewrite sent_inline, M by (left; congruence). apply lockstep_inline.
  - unfold serve_admitted, plain_answer. rewrite M. destruct (sc_fail (c_script c)); [reflexivity|].
    cbn [a_resp current v_input_refuse]. unfold view. cbn [map]. rewrite view_retag, lockstep_reach, sent_content by (now rewrite M).
    assert (EI : fst (fst (sent_items g st c))
                 = fst (fst (put_items g MExch (c_items c) (snd (sent_req g st c)) (req_ptrs (fst (sent_req g st c)) ++ s_own st))))
      by (unfold sent_items; cbv zeta; now rewrite M).
    rewrite EI, first_unresolvable_sfirst.
    destruct (sfirst en _) as [k|]; cbn [option_map]; [rewrite Nat.add_0_r; destruct (emits_before k (sc_turns (c_script c)))|].
    + unfold retag. rewrite map_app, firstn_map. apply frames_eqb_refl.
    + apply resp_eqb_refl.
    + apply resp_eqb_refl.
  - apply V. unfold serve_admitted. rewrite M. reflexivity.
Qed.

Lemma serve_call_att g size st c : g_size g = Some size ->
  s_att (snd (fst (serve_call current g st c))) = snd (ensure (s_att st) (c_adv c)).
Proof. intro E. rewrite serve_call_eq. cbn [fst snd s_att]. now rewrite (eff_adv_some g size _ E). Qed.

Lemma calls_ok_cons att c cs w ws p wo :
  calls_ok att (c :: cs) (w :: ws) (p :: wo) = calls_ok att [c] [w] [p] && calls_ok (snd (ensure att (c_adv c))) cs ws wo.
Proof. cbn [calls_ok]. destruct (ensure att (c_adv c)). cbn [snd]. now rewrite andb_true_r. Qed.

Lemma calls_ok_run g size gp : g_size g = Some size -> g_size gp = None -> forall cs st stp,
  s_alive st = true -> s_alive stp = true ->
  calls_ok (s_att st) cs (map fst (fst (run current g st cs)))
           (map (fun o => b_resp (fst o)) (fst (run current gp stp cs))) = true.
Proof.
  intros E Ep. induction cs as [|c r IH]; intros st stp A Ap; [reflexivity|].
  rewrite (run_live _ _ _ _ _ A), (run_live _ _ _ _ _ Ap). cbn [fst snd map].
  destruct (serve_call_plain current gp stp c Ep) as (PR & _ & PA).
  rewrite calls_ok_cons, PR, (call_clause g size st c E), <- (serve_call_att g size st c E).
  exact (IH _ _ (serve_call_alive g st c) PA).
Qed.

(* no pointer left the client: it allocated nothing *)
Lemma sptrs_flags items : existsb (fun x => x) (map (fun i : sitem => is_ptr_sent (fst (fst i))) items) = false -> sptrs items = [].
Proof.
  induction items as [|[[s rows] val] r IH]; [reflexivity|]. cbn [map existsb fst]. intro H.
  apply orb_false_iff in H as [H1 H2]. rewrite sptrs_cons, (IH H2). destruct s; try discriminate; reflexivity.
Qed.

Lemma run_sent v g : forall cs st,
  sent_any (map fst (fst (run v g st cs))) = false -> s_sent (snd (run v g st cs)) = s_sent st.
Proof.
  induction cs as [|c r IH]; intros st; [reflexivity|]. unfold sent_any in *.
  destruct (s_alive st) eqn:A; [rewrite (run_live _ _ _ _ _ A)|rewrite (run_dead _ _ _ _ _ A)];
    cbn [fst snd map existsb]; [|exact (IH st)].
  intro H. apply orb_false_iff in H as [H1 H2]. apply orb_false_iff in H1 as [R1 R2].
  rewrite (IH _ H2). rewrite serve_call_eq in *. cbn [fst snd s_sent b_req_ptr b_items_ptr] in *.
  rewrite (sptrs_flags _ R2). destruct (fst (sent_req g st c)); try discriminate. cbn [req_ptrs app]. now rewrite app_nil_r.
Qed.

Definition slots_of (items : list sitem) : list bool := map (fun i => is_sptr (fst (fst i))) items.

Lemma count_slots items : count_true (slots_of items) = length (sptrs items).
Proof.
  unfold count_true, slots_of. induction items as [|[[s rows] val] r IH]; [reflexivity|].
  rewrite sptrs_cons, app_length, <- IH. destruct s; reflexivity.
Qed.

(* the slots the client judges real from wishes and flags are the pointers it sent *)
Lemma real_slots_model g m : forall its t own,
  real_slots its (map (fun i : sent * N * Z => is_ptr_sent (fst (fst i))) (fst (fst (put_items g m its t own))))
  = slots_of (fst (fst (put_items g m its t own))).
Proof.
  unfold slots_of. induction its as [|it its IH]; intros t own; [reflexivity|]. rewrite put_items_cons.
  cbn [fst snd map real_slots]. rewrite IH. f_equal.
  unfold put_item. destruct m; try reflexivity. apply (proj2 (sent_kind g (it_wish it) (it_rows it) t)).
Qed.

Lemma serve_call_len g size st c : g_size g = Some size ->
  length (s_own (snd (fst (serve_call current g st c))))
  = (length (s_own st) + unconsumed (fst (ensure (s_att st) (c_adv c))) c (fst (fst (serve_call current g st c))))%nat.
Proof.
  intro E. rewrite serve_call_eq. unfold unconsumed. cbn [fst snd b_resp b_req_ptr b_items_ptr s_own].
  unfold answer_of. rewrite (eff_adv_some g size _ E), refused_test, serve_eq.
  set (sn := fst (ensure (s_att st) (c_adv c))). set (items := fst (fst (sent_items g st c))).
  assert (SL : real_slots (c_items c) (map (fun i : sent * N * Z => is_ptr_sent (fst (fst i))) items) = slots_of items).
  { subst items. unfold sent_items. cbv zeta. destruct (is_stream (c_method c)); [apply real_slots_model|now destruct (c_items c)]. }
  rewrite SL. pose proof (sent_own g st c) as OW. fold items in OW.
  pose proof (client_put_sent g (c_wish c) 1 (s_tab st)) as CS. fold (sent_req g st c) in CS.
  destruct (unresolvable sn (fst (sent_req g st c))) eqn:U.
  - (* refused: the request slot, if the client allocated one, stays *)
    cbn [a_own]. rewrite OW, !app_length, count_slots.
    destruct (fst (sent_req g st c)); [discriminate U|rewrite CS|rewrite CS]; cbn [req_ptrs length]; lia.
  - (* served: a pointer request is consumed; of the inputs, what the loop did not get to stays *)
    pose proof (release_own sn _ {| l_tab := snd (fst (sent_items g st c)); l_own := snd (sent_items g st c) |} _ OW) as P.
    rewrite U in P.
    assert (NI : c_method c <> MExch -> exists its, items = map inline its).
    { intro M. subst items. rewrite sent_inline by now left. eexists (if is_stream (c_method c) then _ else []).
      destruct (is_stream (c_method c)); reflexivity. }
    rewrite (serve_admitted_exch_own g _ c items _ _ P NI), app_length, Nat.add_comm. f_equal.
    destruct (c_method c); try (symmetry; apply count_slots).
    destruct (sc_fail (c_script c)); [symmetry; apply count_slots|].
    destruct (a_resp _) as [|fs [|]]; unfold slots_of; rewrite ?skipn_map; symmetry; apply count_slots.
Qed.

Lemma tables_ok_cons att own deferred c cs w ws n :
  tables_ok att own deferred (c :: cs) (w :: ws) n =
  let own' := (own + unconsumed (fst (ensure att (c_adv c))) c w)%nat in
  let deferred' := if c_release_now c then deferred else (deferred + length (ptr_offs (concat (b_resp w))))%nat in
  Nat.eqb (length (b_tab w)) (own' + deferred') && tables_ok (snd (ensure att (c_adv c))) own' deferred' cs ws n.
Proof. cbn [tables_ok]. destruct (ensure att (c_adv c)). reflexivity. Qed.

Lemma tables_ok_run g size : g_size g = Some size -> forall cs st, s_alive st = true -> Inv st ->
  tables_ok (s_att st) (length (s_own st)) (length (s_deferred st)) cs (map fst (fst (run current g st cs)))
            (length (s_own (snd (run current g st cs)))) = true.
Proof.
  intro E. induction cs as [|c r IH]; intros st A Hinv; [apply Nat.eqb_refl|].
  rewrite (run_live _ _ _ _ _ A). cbn [fst snd map]. rewrite tables_ok_cons. cbv zeta.
  pose proof (serve_call_inv current g st c Hinv) as Hinv1.
  rewrite <- (serve_call_len g size st c E), <- (serve_call_att g size st c E).
  replace (if c_release_now c then length (s_deferred st) else _)
    with (length (s_deferred (snd (fst (serve_call current g st c)))))
    by (rewrite serve_call_eq; cbn [fst snd s_deferred b_resp]; destruct (c_release_now c); [reflexivity|apply app_length]).
  rewrite (IH _ (serve_call_alive g st c) Hinv1), andb_true_r. apply Nat.eqb_eq.
  apply Permutation_length in Hinv1. rewrite map_length, app_length in Hinv1.
  rewrite serve_call_eq in *. cbn [fst snd b_tab s_tab] in *. rewrite Hinv1. apply Nat.add_comm.
Qed.

Lemma real_slots_none : forall its flags, existsb (fun x => x) flags = false ->
  forall k, count_true (skipn k (real_slots its flags)) = 0%nat.
Proof.
  induction its as [|it its IH]; intros [|f fl] H k; try (destruct k; reflexivity).
  cbn [existsb] in H. apply orb_false_iff in H as [-> H]. cbn [real_slots andb].
  destruct k; [exact (IH _ H 0%nat)|exact (IH _ H k)].
Qed.

(* a call whose pointers (a request pointer at most) the connection could resolve leaves nothing behind *)
Lemma consumed_unconsumed sn c w :
  existsb (fun x => x) (b_items_ptr w) = false ->
  negb (b_req_ptr w) || (sn && match c_wish c with WBad => false | _ => true end) = true ->
  unconsumed sn c w = 0%nat.
Proof.
  intros F R. pose proof (real_slots_none (c_items c) _ F) as Hnone. unfold unconsumed.
  replace (b_req_ptr w && _) with false by (destruct (b_req_ptr w), sn, (c_wish c); try reflexivity; discriminate R).
  destruct (c_method c); try exact (Hnone 0%nat). destruct (sc_fail (c_script c)); [exact (Hnone 0%nat)|].
  destruct (b_resp w) as [|fs [|]]; [exact (Hnone 0%nat)|apply Hnone|exact (Hnone 0%nat)].
Qed.

(* so the exact count of a history judged consumed is the count it started with *)
Lemma consumed_count : forall cs ws att own d n,
  all_consumed att cs ws = true -> tables_ok att own d cs ws n = true -> n = own.
Proof.
  induction cs as [|c cs IH]; intros [|w ws] att own d n; cbn [all_consumed tables_ok]; try discriminate.
  - intros _ H. now apply Nat.eqb_eq in H.
  - destruct (ensure att (c_adv c)) as [sn att']. intros A T.
    apply andb_true_iff in A as [A A3]. apply andb_true_iff in A as [A1 A2]. apply negb_true_iff in A1.
    apply andb_true_iff in T as [_ T]. rewrite (consumed_unconsumed sn c w A1 A2), Nat.add_0_r in T.
    exact (IH _ _ _ _ _ A3 T).
Qed.

(* a pointer request the connection cannot resolve is answered with one IOError stream, and
   the session goes on serving *)
Lemma refused_and_continue g st c rest :
  s_alive st = true ->
  b_req_ptr (fst (fst (serve_call current g st c))) = true ->
  fst (ensure (s_att st) (eff_adv g (c_adv c))) = false ->
  let r := serve_call current g st c in
  b_resp (fst (fst r)) = [[WExc exc_io_error]]
  /\ fst (run current g st (c :: rest)) = (fst (fst r), snd r) :: fst (run current g (snd (fst r)) rest)
  /\ Forall2 (fun ow c2 => snd ow = false -> view (b_resp (fst ow)) = plain_answer c2)
             (fst (run current g (snd (fst r)) rest)) rest.
Proof.
  intros A P SN. cbv zeta. split; [|split].
  - rewrite serve_call_eq in *. cbn [fst snd b_resp b_req_ptr] in *. unfold answer_of. rewrite SN, serve_eq.
    destruct (fst (sent_req g st c)); [discriminate P| |]; cbn [unresolvable negb a_resp]; now rewrite refusal_current.
  - now rewrite (run_live _ _ _ _ _ A).
  - apply run_served, serve_call_alive.
Qed.

(* the size oracle of the witnesses: int64 batches of 1, 2, 6, 8 rows and the 50-byte blob
   result, figures as the harness measures them on the real batches (it measures afresh at
   every run: c36SizeOut, c36SizeBlob in harness/cmd/vh/c36.go) *)
Definition sz_int : list (N * sz) :=
  [(1, {| z_buf := 12; z_est := 4108; z_total := 288 |}); (2, {| z_buf := 20; z_est := 4116; z_total := 296 |});
   (6, {| z_buf := 52; z_est := 4148; z_total := 328 |}); (8, {| z_buf := 68; z_est := 4164; z_total := 344 |})].
Definition sz_blob : list (N * sz) := [(50, {| z_buf := 59; z_est := 4155; z_total := 352 |})].
(* a plain unary call put after (and before) the call a witness is about: its answer shows
   whether the session is still alive and in frame *)
Definition canary : call :=
  {| c_method := MBlob; c_dyn := false; c_adv := AdvNone; c_wish := WInline; c_x := 9;
     c_script := {| sc_fail := false; sc_var := 0; sc_n := 50; sc_turns := [] |}; c_items := []; c_release_now := true |}.
Definition emit (rows : N) (v : Z) : turn := {| t_rows := rows; t_value := v; t_act := AEmit |}.

(* before 6a8fa9d: a pointer request for a stream method on a connection without a segment *)
Definition witness_drain : input :=
  {| i_data := 16384; i_gate := 48; i_szi := sz_int; i_szb := sz_blob;
     i_calls := [ {| c_method := MExch; c_dyn := false; c_adv := AdvNone; c_wish := WPtr; c_x := 5;
                     c_script := {| sc_fail := false; sc_var := 0; sc_n := 0; sc_turns := [emit 8 1] |};
                     c_items := [ {| it_wish := WInline; it_rows := 2; it_val := 1 |} ]; c_release_now := true |};
                  canary ] |}.
Definition witness_drain_empty : input :=
  {| i_data := 16384; i_gate := 48; i_szi := sz_int; i_szb := sz_blob;
     i_calls := [ {| c_method := MProd; c_dyn := false; c_adv := AdvNone; c_wish := WPtr; c_x := 5;
                     c_script := {| sc_fail := false; sc_var := 0; sc_n := 0; sc_turns := [] |};
                     c_items := []; c_release_now := true |};
                  canary ] |}.
(* before 29847dc: exchange inputs as pointers on a connection that never advertised a segment *)
Definition witness_input : input :=
  {| i_data := 16384; i_gate := 48; i_szi := sz_int; i_szb := sz_blob;
     i_calls := [ canary;
                  {| c_method := MExch; c_dyn := false; c_adv := AdvNone; c_wish := WInline; c_x := 1;
                     c_script := {| sc_fail := false; sc_var := 0; sc_n := 0; sc_turns := [emit 8 1; emit 2 2; emit 8 3] |};
                     c_items := [ {| it_wish := WPtr; it_rows := 8; it_val := 2 |}; {| it_wish := WInline; it_rows := 6; it_val := 1 |};
                                  {| it_wish := WPtr; it_rows := 2; it_val := 5 |} ]; c_release_now := true |};
                  canary ] |}.

(* non-vacuity: a session that ships responses through the segment, takes request and
   input pointers, falls back to the pipe when the segment is full, and ends clean *)
Definition example_input : input :=
  {| i_data := 1000 + 4164; i_gate := 48; i_szi := sz_int;
     i_szb := [(50, {| z_buf := 59; z_est := 4155; z_total := 352 |}); (100, {| z_buf := 109; z_est := 4205; z_total := 400 |})];
     i_calls := [ {| c_method := MBlob; c_dyn := false; c_adv := AdvGood; c_wish := WPtr; c_x := 3;
                     c_script := {| sc_fail := false; sc_var := 0; sc_n := 100; sc_turns := [] |}; c_items := []; c_release_now := false |};
                  {| c_method := MExch; c_dyn := false; c_adv := AdvNone; c_wish := WPtr; c_x := 1;
                     c_script := {| sc_fail := false; sc_var := 0; sc_n := 0; sc_turns := [emit 8 1; emit 8 2] |};
                     c_items := [ {| it_wish := WPtr; it_rows := 8; it_val := 2 |}; {| it_wish := WPtr; it_rows := 6; it_val := 1 |} ];
                     c_release_now := true |};
                  canary ] |}.

Definition set_dyn (b : bool) (c : call) : call :=
  {| c_method := c_method c; c_dyn := b; c_adv := c_adv c; c_wish := c_wish c; c_x := c_x c;
     c_script := c_script c; c_items := c_items c; c_release_now := c_release_now c |}.
