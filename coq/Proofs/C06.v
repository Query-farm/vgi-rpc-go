(* Proofs/C06.v — the lockstep loop is the per-turn [plan] cut after the first turn that does
   not continue ([nrun]): [loop_char], by induction on the client's input list.  What a stream
   holds and which calls it makes is then read off the plan ([turn_ok] per turn, [turns_frames]
   per prefix), and so is the decidable contract ([body_ok_model]). *)
From VR Require Import Model.C06 Lib.Lists.
From VR Require Proofs.C04.
Local Open Scope nat_scope.

Lemma call_eqb_refl c : call_eqb c c = true.
Proof. destruct c; cbn [call_eqb]; rewrite ?Nat.eqb_refl, ?Z.eqb_refl; reflexivity. Qed.

Lemma calls_eqb_refl l : calls_eqb l l = true.
Proof. apply list_eqb_refl, call_eqb_refl. Qed.

Lemma frames_eqb_refl l : frames_eqb l l = true.
Proof. apply list_eqb_refl, frame_eqb_refl. Qed.

Lemma removelast_snoc {A} (l : list A) x : removelast (l ++ [x]) = l.
Proof. apply removelast_last. Qed.

Lemma last_opt_cons {A} (x y : A) l : last_opt (x :: y :: l) = last_opt (y :: l).
Proof. reflexivity. Qed.

Lemma last_opt_snoc {A} (l : list A) x : last_opt (l ++ [x]) = Some x.
Proof.
  induction l as [|y l IH]; [reflexivity|]. cbn [app]. destruct l as [|z l]; [reflexivity|].
  cbn [app] in *. rewrite last_opt_cons. exact IH.
Qed.

Lemma mkcall_is_turn m k s : is_turn_call (mkcall m k s) = true.
Proof. destruct m; reflexivity. Qed.

Lemma mkcall_not_cancel m k s : is_cancel_call (mkcall m k s) = false.
Proof. destruct m; reflexivity. Qed.

Lemma turn_logs_no_exc t : count is_exc (turn_logs t) = 0.
Proof. apply C04.logs_no_exc. Qed.

Lemma turn_logs_no_data t : count is_data (turn_logs t) = 0.
Proof. apply C04.logs_no_data. Qed.

(* what the contract asks of one planned turn: it is a turn call, it flushes no
   exception batch and at most one data batch, exactly one if it continues *)
Definition turn_ok (p : call * tres) : Prop :=
  is_turn_call (fst p) = true
  /\ count is_exc (res_frames p) = 0 /\ count is_data (res_frames p) <= 1
  /\ (is_cont p = true -> count is_data (res_frames p) = 1).

Lemma run_turn_ok m k t s : turn_ok (mkcall m k s, run_turn m t s).
Proof.
  unfold turn_ok, res_frames, is_cont, run_turn. cbn [fst snd]. split; [apply mkcall_is_turn|].
  (* every act in either mode: what is flushed is the turn's logs and no or one data frame *)
  destruct (t_act t), m; cbn [tres_frames];
    rewrite ?count_app, ?turn_logs_no_exc, ?turn_logs_no_data;
    repeat split; try discriminate; auto.
Qed.

(* how many planned turns run: up to and including the first that does not continue *)
Fixpoint nrun (p : list (call * tres)) : nat :=
  match p with
  | [] => 0
  | x :: r => if is_cont x then S (nrun r) else 1
  end.

Lemma nrun_le p : nrun p <= length p.
Proof. induction p as [|x p IH]; cbn [nrun length]; [lia|]. destruct (is_cont x); lia. Qed.

Lemma nrun_prefix_cont p : forallb is_cont (removelast (firstn (nrun p) p)) = true.
Proof.
  induction p as [|x p IH]; [reflexivity|]. cbn [nrun]. destruct (is_cont x) eqn:E.
  - cbn [firstn]. destruct (firstn (nrun p) p) as [|y l] eqn:F; [reflexivity|].
    change (removelast (x :: y :: l)) with (x :: removelast (y :: l)). cbn [forallb]. now rewrite E, IH.
  - cbn [firstn]. reflexivity.
Qed.

Lemma nrun_stop_reason p :
  Nat.eqb (nrun p) (length p) || negb (forallb is_cont (firstn (nrun p) p)) = true.
Proof.
  induction p as [|x p IH]; [reflexivity|]. cbn [nrun]. destruct (is_cont x) eqn:E.
  - cbn [firstn length forallb]. rewrite E. cbn [andb]. exact IH.
  - cbn [firstn forallb]. rewrite E. cbn [andb negb]. apply orb_true_r.
Qed.

Lemma nrun_all_cont p : forallb is_cont p = true -> nrun p = length p.
Proof.
  induction p as [|x p IH]; [reflexivity|]. cbn [forallb nrun length]. intro H.
  apply andb_true_iff in H as [H1 H2]. rewrite H1. now rewrite IH.
Qed.

Lemma nrun_split pre x post :
  forallb is_cont pre = true -> is_cont x = false ->
  firstn (nrun (pre ++ x :: post)) (pre ++ x :: post) = pre ++ [x].
Proof.
  intros Hp Hx. induction pre as [|y pre IH]; cbn [app nrun].
  - rewrite Hx. reflexivity.
  - cbn [forallb] in Hp. apply andb_true_iff in Hp as [H1 H2]. rewrite H1. cbn [firstn]. now rewrite IH.
Qed.

Lemma plan_length m sc k lv : length (plan m sc k lv) = length lv.
Proof. revert sc k; induction lv as [|it lv IH]; intros sc k; cbn [plan length]; [reflexivity | now rewrite IH]. Qed.

Lemma live_length ins : length (live ins) <= length ins.
Proof. induction ins as [|it r IH]; cbn [live length]; [lia|]. destruct (is_cancel it); cbn [length]; lia. Qed.

Lemma live_idem ins : live (live ins) = live ins.
Proof. induction ins as [|it r IH]; [reflexivity|]. cbn [live]. destruct (is_cancel it) eqn:E; [reflexivity|]. cbn [live]. now rewrite E, IH. Qed.

Lemma plan_ok m sc k lv : Forall turn_ok (plan m sc k lv).
Proof. revert sc k; induction lv as [|it lv IH]; intros sc k; constructor; [apply run_turn_ok | apply IH]. Qed.

(* the inputs hold a cancel batch: [live] cut something off *)
Definition cancelled (ins : list item) : bool := negb (Nat.eqb (length (live ins)) (length ins)).

Lemma cancelled_cons it r : cancelled (it :: r) = is_cancel it || cancelled r.
Proof. unfold cancelled. cbn [live]. destruct (is_cancel it); reflexivity. Qed.

Lemma res_exc_cont rid x l : is_cont x = true -> res_exc rid (last_opt (x :: l)) = res_exc rid (last_opt l).
Proof.
  intro H. destruct l as [|y l]; [|reflexivity]. cbn [last_opt res_exc]. destruct x as [c r].
  unfold is_cont in H. cbn [snd] in H. destruct r; try discriminate. reflexivity.
Qed.

Section Char.
  Variable m : mode.
  Variable rid : bytes.
  Variable canc : bool.

  (* the hook call that closes the trace: only after a cancel batch that every planned turn reached *)
  Definition cancel_part (k : nat) (ins : list item) (P run : list (call * tres)) : list call :=
    if cancelled ins && canc && forallb is_cont run && Nat.eqb (length run) (length P) then [CCancel (k + length run)] else [].

  Lemma loop_char sc k ins :
    let P := plan m sc k (live ins) in
    let run := firstn (nrun P) P in
    fst (loop m rid None canc sc k ins) = concat (map res_frames run) ++ res_exc rid (last_opt run)
    /\ snd (loop m rid None canc sc k ins) = map fst run ++ cancel_part k ins P run.
  Proof.
    revert sc k. induction ins as [|it rest IH]; intros sc k; cbn zeta.
    - cbn. split; reflexivity.
    - cbn [loop live]. destruct (is_cancel it) eqn:Ec.
      + cbn [plan nrun firstn map concat app last_opt res_exc fst snd]. split; [reflexivity|].
        unfold cancel_part. rewrite cancelled_cons, Ec. cbn [orb andb forallb length Nat.eqb].
        rewrite Nat.add_0_r. destruct canc; reflexivity.
      + cbn [plan]. set (s := insum m it). set (c := mkcall m k s).
        specialize (IH (tl sc) (S k)). cbn zeta in IH. destruct IH as [IHf IHc].
        set (P' := plan m (tl sc) (S k) (live rest)) in *.
        unfold cancel_part. rewrite cancelled_cons, Ec.
        destruct (run_turn m (hd (default_turn m) sc) s) as [e|fs|fs] eqn:Er.
        * cbn [nrun is_cont snd firstn map concat fst app last_opt res_exc res_frames tres_frames forallb andb].
          split; [reflexivity|]. rewrite andb_false_r. cbn [andb]. reflexivity.
        * cbn [nrun is_cont snd]. cbn [firstn map fst snd]. cbn [concat]. unfold res_frames at 1. cbn [snd tres_frames].
          rewrite res_exc_cont by reflexivity. rewrite <- app_assoc. split.
          -- now rewrite IHf.
          -- rewrite IHc. cbn [app]. f_equal. f_equal. unfold cancel_part.
             cbn [forallb is_cont snd andb length Nat.eqb]. rewrite Nat.add_succ_comm. reflexivity.
        * cbn [nrun is_cont snd firstn map concat fst app last_opt res_exc res_frames tres_frames forallb andb].
          rewrite !app_nil_r. split; [reflexivity|]. rewrite andb_false_r. cbn [andb]. reflexivity.
  Qed.
End Char.

Lemma turns_frames l : Forall turn_ok l ->
  filter is_turn_call (map fst l) = map fst l
  /\ count is_exc (concat (map res_frames l)) = 0
  /\ count is_data (concat (map res_frames l)) <= length l
  /\ (forallb is_cont l = true -> count is_data (concat (map res_frames l)) = length l).
Proof.
  induction 1 as [|p l (T & E & D & D1) _ (IT & IE & ID & ID1)]; [repeat split; reflexivity|].
  cbn [map concat length filter forallb]. rewrite T, IT, !count_app, E, IE. repeat split; [lia|].
  intros [C1 C2]%andb_true_iff. now rewrite (D1 C1), (ID1 C2).
Qed.

Lemma cancel_calls_filter (l : list (call * tres)) :
  (forall p, In p l -> is_cancel_call (fst p) = false) -> filter is_cancel_call (map fst l) = [].
Proof.
  induction l as [|x l IH]; intro H; cbn [map filter]; [reflexivity|].
  rewrite (H x (or_introl eq_refl)), IH; [reflexivity|]. intros p Hp. apply H. now right.
Qed.

Lemma res_exc_all_cont rid l : forallb is_cont l = true -> res_exc rid (last_opt l) = [].
Proof.
  induction l as [|x l IH]; [reflexivity|]. cbn [forallb]. intro H. apply andb_true_iff in H as [H1 H2].
  rewrite res_exc_cont by exact H1. now apply IH.
Qed.

Lemma count_removelast_le {A} (p : A -> bool) l : count p (removelast l) <= count p l.
Proof.
  unfold count. induction l as [|x l IH]; [reflexivity|]. destruct l as [|y l]; [cbn; lia|].
  change (removelast (x :: y :: l)) with (x :: removelast (y :: l)).
  cbn [filter] in *. destruct (p x); cbn [length]; lia.
Qed.

(* turn batches closed by the exception batch of a failing last turn, if any *)
Lemma closed_by_exc rid a o : count is_exc a = 0 ->
  Nat.leb (count is_exc (a ++ res_exc rid o)) 1 = true
  /\ exc_only_last (a ++ res_exc rid o) = true
  /\ count is_data (a ++ res_exc rid o) = count is_data a.
Proof.
  intro Ha. pose proof (count_removelast_le is_exc a). unfold exc_only_last.
  destruct o as [[c [e|fs|fs]]|]; cbn [res_exc];
    rewrite ?app_nil_r, ?removelast_last, ?count_app, Nat.leb_le, Nat.eqb_eq; cbn in *; lia.
Qed.

Lemma loop_all_continue m rid canc sc k ins :
  let P := plan m sc k (live ins) in
  forallb is_cont P = true ->
  fst (loop m rid None canc sc k ins) = concat (map res_frames P)
  /\ snd (loop m rid None canc sc k ins) =
       map fst P ++ (if cancelled ins && canc then [CCancel (k + length (live ins))] else []).
Proof.
  cbn zeta. intro H. destruct (loop_char m rid canc sc k ins) as [Hf Hc]. cbn zeta in Hf, Hc.
  rewrite (nrun_all_cont _ H), firstn_all in Hf, Hc. split.
  - rewrite Hf, (res_exc_all_cont _ _ H). apply app_nil_r.
  - rewrite Hc. unfold cancel_part. rewrite H, Nat.eqb_refl, !andb_true_r, plan_length. reflexivity.
Qed.

Lemma loop_continuing_counts m rid canc sc k ins :
  forallb is_cont (plan m sc k (live ins)) = true ->
  count is_data (fst (loop m rid None canc sc k ins)) = length (live ins)
  /\ count is_exc (fst (loop m rid None canc sc k ins)) = 0
  /\ count is_turn_call (snd (loop m rid None canc sc k ins)) = length (live ins).
Proof.
  intro H. destruct (loop_all_continue m rid canc sc k ins H) as [Hf Hc].
  destruct (turns_frames _ (plan_ok m sc k (live ins))) as (Ht & He & _ & Hd).
  rewrite Hf, Hc, He, (Hd H), plan_length. repeat split.
  unfold count. rewrite filter_app, Ht, app_length, map_length, plan_length.
  destruct (cancelled ins && canc); cbn; lia.
Qed.

Lemma loop_first_stop m rid canc sc k ins pre x post :
  plan m sc k (live ins) = pre ++ x :: post ->
  forallb is_cont pre = true -> is_cont x = false ->
  fst (loop m rid None canc sc k ins) = concat (map res_frames pre) ++ res_frames x ++ res_exc rid (Some x)
  /\ snd (loop m rid None canc sc k ins) = map fst pre ++ [fst x]
  /\ count is_exc (concat (map res_frames pre)) = 0
  /\ count is_data (concat (map res_frames pre)) = length pre
  /\ count is_exc (res_frames x) = 0 /\ count is_data (res_frames x) <= 1.
Proof.
  intros HP Hpre Hx. destruct (loop_char m rid canc sc k ins) as [Hf Hc]. cbn zeta in Hf, Hc.
  rewrite HP, (nrun_split _ _ _ Hpre Hx) in Hf, Hc.
  pose proof (plan_ok m sc k (live ins)) as F. rewrite HP in F. apply Forall_app in F as [F Fx].
  destruct (turns_frames pre F) as (_ & He & _ & Hd). apply Forall_inv in Fx. destruct Fx as (_ & Xe & Xd & _).
  split; [|split; [|auto]].
  - rewrite Hf, map_app, concat_app, last_opt_snoc. cbn [map concat]. now rewrite app_nil_r, <- app_assoc.
  - rewrite Hc, map_app. unfold cancel_part. rewrite forallb_app. cbn [forallb]. rewrite Hx.
    rewrite !andb_false_r. cbn [andb map]. now rewrite app_nil_r.
Qed.

Fixpoint exch_frames (sc : list turn) (lv : list item) : list frame :=
  match lv with
  | [] => []
  | it :: r => let t := hd (default_turn Exchange) sc in
               (turn_logs t ++ [data_frame t (insum Exchange it)]) ++ exch_frames (tl sc) r
  end.

Lemma nth_tl {A} (l : list A) j d : nth j (tl l) d = nth (S j) l d.
Proof. destruct l; [destruct j|]; reflexivity. Qed.

Lemma hd_nth {A} (l : list A) d : hd d l = nth 0 l d.
Proof. destruct l; reflexivity. Qed.

Lemma plan_emitting sc k lv :
  (forall j, j < length lv -> t_act (nth j sc (default_turn Exchange)) = AEmit) ->
  forallb is_cont (plan Exchange sc k lv) = true
  /\ concat (map res_frames (plan Exchange sc k lv)) = exch_frames sc lv.
Proof.
  revert sc k. induction lv as [|it r IH]; intros sc k H; [split; reflexivity|].
  assert (H0 : t_act (hd (default_turn Exchange) sc) = AEmit) by (rewrite hd_nth; apply H; cbn [length]; lia).
  destruct (IH (tl sc) (S k)) as [I1 I2]; [intros j Hj; rewrite nth_tl; apply H; cbn [length]; lia|].
  cbn [plan forallb map concat exch_frames]. unfold is_cont at 1, res_frames at 1, run_turn. cbn [snd].
  rewrite H0, I1, I2. split; reflexivity.
Qed.

(* exchange: one data batch per input, in input order, each preceded by that turn's logs *)
Theorem exchange_one_per_input rid canc sc k ins :
  (forall j, j < length (live ins) -> t_act (nth j sc (default_turn Exchange)) = AEmit) ->
  fst (loop Exchange rid None canc sc k ins) = exch_frames sc (live ins)
  /\ count is_data (exch_frames sc (live ins)) = length (live ins)
  /\ count is_exc (exch_frames sc (live ins)) = 0
  /\ count is_turn_call (snd (loop Exchange rid None canc sc k ins)) = length (live ins).
Proof.
  intro H. destruct (plan_emitting sc k (live ins) H) as [Hc Hfr].
  destruct (loop_continuing_counts Exchange rid canc sc k ins Hc) as (Hd & He & Ht).
  destruct (loop_all_continue Exchange rid canc sc k ins Hc) as [Lf _].
  rewrite Lf, Hfr in *. auto.
Qed.

(* the data batches are exactly the scripted values plus the input sums, in input order *)
Fixpoint exch_values (sc : list turn) (lv : list item) : list Z :=
  match lv with
  | [] => []
  | it :: r => (t_value (hd (default_turn Exchange) sc) + insum Exchange it)%Z :: exch_values (tl sc) r
  end.
Definition data_value (f : frame) : list Z := match f with FData _ v _ => v | _ => [] end.

(* the same turn doing a: lets a statement compare two actions on equal logs, value and metadata
   (a refused Finish against none, in Props) *)
Definition with_act (t : turn) (a : act) : turn :=
  {| t_logs := t_logs t; t_act := a; t_value := t_value t; t_meta := t_meta t |}.

Lemma filter_turn_logs t : filter is_data (turn_logs t) = [].
Proof. apply length_zero_iff_nil, turn_logs_no_data. Qed.

Lemma exchange_complete rid canc sc k ins :
  count is_exc (fst (loop Exchange rid None canc sc k ins)) = 0 ->
  count is_data (fst (loop Exchange rid None canc sc k ins)) = length (live ins).
Proof.
  revert sc k. induction ins as [|it rest IH]; intros sc k; [reflexivity|].
  cbn [loop live]. destruct (is_cancel it); [reflexivity|].
  destruct (run_turn_ok Exchange k (hd (default_turn Exchange) sc) (insum Exchange it)) as (_ & E & _ & D).
  unfold res_frames, is_cont in E, D. cbn [snd] in E, D.
  destruct (run_turn Exchange _ _) as [e|fs|fs] eqn:R; cbn [fst tres_frames] in *.
  - cbn. discriminate.
  - rewrite !count_app, E, (D eq_refl). intro H. cbn [length]. now rewrite (IH (tl sc) (S k) H).
  - unfold run_turn in R. destruct (t_act _); discriminate R.
Qed.

Lemma turns_le_live m rid cast canc sc k ins :
  count is_turn_call (snd (loop m rid cast canc sc k ins)) <= length (live ins).
Proof.
  revert sc k. induction ins as [|it rest IH]; intros sc k; [cbn; lia|].
  cbn [loop live]. destruct (is_cancel it); [destruct canc; cbn; lia|].
  destruct cast as [e|]; [cbn; lia|]. specialize (IH (tl sc) (S k)). unfold count in *.
  destruct (run_turn m _ _); cbn [snd filter]; rewrite mkcall_is_turn; cbn [length filter]; lia.
Qed.

Lemma live_app_cancel l1 l2 : live l1 = l1 -> live (l1 ++ Cancel :: l2) = l1.
Proof.
  induction l1 as [|it l1 IH]; [reflexivity|]. cbn [live app]. destruct (is_cancel it); [discriminate|].
  intro H. injection H as H. now rewrite IH.
Qed.

(* a cancel batch reached by the loop: the hook runs exactly once, no turn runs for it or after it,
   whatever the client sent behind the cancel *)
Theorem cancel_once_no_further_turn m rid canc sc k l1 l2 :
  live l1 = l1 -> forallb is_cont (plan m sc k l1) = true ->
  fst (loop m rid None canc sc k (l1 ++ Cancel :: l2)) = concat (map res_frames (plan m sc k l1))
  /\ snd (loop m rid None canc sc k (l1 ++ Cancel :: l2)) =
       map fst (plan m sc k l1) ++ (if canc then [CCancel (k + length l1)] else []).
Proof.
  intros Hl Hc. pose proof (loop_all_continue m rid canc sc k (l1 ++ Cancel :: l2)) as L. cbn zeta in L.
  rewrite (live_app_cancel _ l2 Hl) in L. destruct (L Hc) as [Lf Lc]. split; [exact Lf|].
  rewrite Lc. unfold cancelled. rewrite (live_app_cancel _ l2 Hl), app_length. cbn [length].
  replace (Nat.eqb (length l1) (length l1 + S (length l2))) with false by (symmetry; apply Nat.eqb_neq; lia).
  reflexivity.
Qed.

Theorem finish_refused_on_exchange t s :
  (t_act t = AFinish \/ t_act t = AEmitFinish) ->
  run_turn Exchange t s = TFail e_finish_exchange
  /\ (exists fs, run_turn Producer t s = TStop fs)
  /\ fst e_finish_exchange = exc_runtime_error /\ snd e_finish_exchange <> [] /\ c06_finish_producer_ok = 1%Z.
Proof.
  assert (E : fst e_finish_exchange = exc_runtime_error /\ snd e_finish_exchange <> [] /\ c06_finish_producer_ok = 1%Z).
  { split; [vm_compute; reflexivity|]. split; [vm_compute; discriminate | reflexivity]. }
  unfold run_turn. intros [H|H]; rewrite H.
  - (* AFinish *) split; [reflexivity|]. split; [eexists; reflexivity | exact E].
  - (* AEmitFinish *) split; [reflexivity|]. split; [eexists; reflexivity | exact E].
Qed.

Lemma forallb_removelast_last {A} (f : A -> bool) (l : list A) :
  forallb f (removelast l) = true ->
  (forall x, last_opt l = Some x -> f x = true) -> forallb f l = true.
Proof.
  induction l as [|x l IH]; [reflexivity|]. destruct l as [|y l].
  - intros _ H. cbn [forallb]. now rewrite (H x eq_refl).
  - change (removelast (x :: y :: l)) with (x :: removelast (y :: l)). rewrite last_opt_cons.
    cbn [forallb]. intros H1 H2. apply andb_true_iff in H1 as [Hx Hr]. rewrite Hx. cbn [andb].
    apply IH; assumption.
Qed.

Lemma exchange_clause m rid canc sc ins :
  match m with
  | Exchange => negb (Nat.eqb (count is_exc (fst (loop m rid None canc sc 0 ins))) 0)
                || negb (Nat.eqb (length (live ins)) (length ins))
                || Nat.eqb (count is_data (fst (loop m rid None canc sc 0 ins))) (length ins)
  | Producer => true
  end = true.
Proof.
  destruct m; [reflexivity|].
  destruct (Nat.eqb (count is_exc (fst (loop Exchange rid None canc sc 0 ins))) 0) eqn:E; [|reflexivity].
  apply Nat.eqb_eq in E. rewrite (exchange_complete _ _ _ _ _ E). cbn [negb orb].
  destruct (Nat.eqb (length (live ins)) (length ins)); reflexivity.
Qed.

Lemma body_ok_no_cast i :
  cast_error (i_mode i) (i_declared i) (i_schema i) = None ->
  body_ok i (fst (run_loop i)) (snd (run_loop i)) = true.
Proof.
  (* by [loop_char] the frames and the trace are those of run = the first [nrun P] planned turns;
     body_ok's conjuncts are then facts about that prefix, met in its order: E1 E2 E3 E5, Q1 Q2 Hx, Hf, Hc *)
  intro Ec. unfold run_loop. rewrite Ec.
  destruct (loop_char (i_mode i) (i_reqid i) (i_canceller i) (i_turns i) 0 (i_items i)) as [Hf Hc]. cbn zeta in Hf, Hc.
  pose proof (exchange_clause (i_mode i) (i_reqid i) (i_canceller i) (i_turns i) (i_items i)) as Hx.
  pose proof (plan_ok (i_mode i) (i_turns i) 0 (live (i_items i))) as F.
  set (res := loop (i_mode i) (i_reqid i) None (i_canceller i) (i_turns i) 0 (i_items i)) in *.
  set (P := plan (i_mode i) (i_turns i) 0 (live (i_items i))) in *.
  apply (Forall_firstn _ (nrun P)) in F.
  set (run := firstn (nrun P) P) in *.
  destruct (turns_frames run F) as (Ht & He & Hd & _).
  destruct (closed_by_exc (i_reqid i) _ (last_opt run) He) as (E2 & E3 & E4). rewrite <- Hf in E2, E3, E4.
  assert (Hlen : length run = nrun P) by (apply firstn_length_le, nrun_le).
  assert (Htc : filter is_turn_call (snd res) = map fst run).
  { rewrite Hc, filter_app, Ht. unfold cancel_part. destruct (_ && _ && _ && _); apply app_nil_r. }
  unfold body_ok. rewrite Ec, Htc, map_length, Hlen. fold P. fold run.
  assert (E1 : Nat.leb (nrun P) (length (i_items i)) = true).
  { apply Nat.leb_le. pose proof (nrun_le P). unfold P in H at 2. rewrite plan_length in H. pose proof (live_length (i_items i)). lia. }
  assert (E5 : Nat.leb (count is_data (fst res)) (nrun P) = true) by (apply Nat.leb_le; lia).
  rewrite E1, E2, E3, E5. cbn [andb].
  pose proof (nrun_prefix_cont P) as Q1. pose proof (nrun_stop_reason P) as Q2. fold run in Q1, Q2.
  rewrite calls_eqb_refl, Q1, Q2, Hx. cbn [andb]. rewrite andb_true_r.
  rewrite <- Hf, frames_eqb_refl. cbn [andb].
  rewrite Hc at 1. unfold cancel_part, cancelled. rewrite Hlen. cbn [Nat.add]. apply calls_eqb_refl.
Qed.

Lemma body_ok_cast i e :
  cast_error (i_mode i) (i_declared i) (i_schema i) = Some e ->
  body_ok i (fst (run_loop i)) (snd (run_loop i)) = true.
Proof.
  intro Ec. unfold run_loop, body_ok. rewrite Ec.
  assert (Em : i_mode i = Exchange) by (destruct (i_mode i); [discriminate | reflexivity]).
  rewrite Em. destruct (i_items i) as [|it rest] eqn:Ei.
  - cbn. reflexivity.
  - cbn [loop live]. destruct (is_cancel it) eqn:Ecc.
    + cbn [fst snd plan length filter firstn map concat app last_opt res_exc].
      destruct (i_canceller i); cbn; reflexivity.
    + cbn [fst snd filter length firstn]. unfold exc_only_last, count. cbn [removelast filter exc_frame is_exc is_data length Nat.leb Nat.eqb andb].
      rewrite frames_eqb_refl. cbn. reflexivity.
Qed.

Lemma body_ok_model i : body_ok i (fst (run_loop i)) (snd (run_loop i)) = true.
Proof.
  destruct (cast_error (i_mode i) (i_declared i) (i_schema i)) as [e|] eqn:Ec; [now apply (body_ok_cast i e) | now apply body_ok_no_cast].
Qed.

Lemma strip_prefix_app p l : strip_prefix p (p ++ l) = Some l.
Proof.
  unfold strip_prefix. rewrite firstn_app, Nat.sub_diag, firstn_all. cbn [firstn]. rewrite app_nil_r, frames_eqb_refl.
  now rewrite skipn_app, Nat.sub_diag, skipn_all.
Qed.
