(* After the receive the loop body changes the state only by [set_err], [bump], [store] and
   [launch] ([recv_keeps]); [run_inv] carries a property these keep to every run. One such
   property, [inv], holds whatever the server answers: the code's two counters are exact, what
   is stored for a chunk is an admitted answer to a request for it ([wf]), and each first
   request is in flight, stored or refused ([firsts]). The loop theorems are read off it. *)
From VR Require Import Model.C32 Lib.Lists.
Open Scope nat_scope.

Lemma filter_all {A} (f : A -> bool) l : (forall x, f x = true) -> filter f l = l.
Proof. intro H. induction l as [|x l IH]; [reflexivity|]. cbn [filter]. now rewrite H, IH. Qed.

Lemma filter_none {A} (f : A -> bool) l x : length (filter f l) = 0 -> In x l -> f x = false.
Proof.
  intros H Hx. destruct (f x) eqn:E; [|reflexivity]. apply length_zero_iff_nil in H.
  assert (K : In x (filter f l)) by now apply filter_In. rewrite H in K. destruct K.
Qed.

Lemma set_nth_length {A} i (v : A) l : length (set_nth i v l) = length l.
Proof. revert i; induction l as [|x l IH]; intros [|i]; cbn; try reflexivity. now rewrite IH. Qed.

Lemma nth_set_nth {A} (v d : A) l : forall i j,
  nth j (set_nth i v l) d = if (j =? i) && (i <? length l) then v else nth j l d.
Proof.
  induction l as [|x l IH]; intros [|i] [|j]; cbn [set_nth nth length]; try reflexivity.
  - now rewrite andb_false_r.
  - apply IH.
Qed.

Lemma att_eqb_eq a b : att_eqb a b = true <-> a = b.
Proof.
  destruct a as [i h], b as [j k]. unfold att_eqb; cbn [fst snd]. split.
  - intro H. apply andb_true_iff in H as [H1 H2]. apply Nat.eqb_eq in H1. apply Bool.eqb_prop in H2. now subst.
  - intro H. inversion H; subst. now rewrite Nat.eqb_refl, Bool.eqb_reflx.
Qed.

Lemma remove1_length a l : in_flight a l = true -> length (remove1 a l) = pred (length l).
Proof.
  induction l as [|x l IH]; [discriminate|]. cbn [in_flight existsb remove1].
  destruct (att_eqb a x) eqn:E; [reflexivity|]. cbn [orb]. intro H. cbn [length].
  fold (in_flight a l) in H. rewrite IH by exact H. destruct l; [discriminate|]. reflexivity.
Qed.

Lemma remove1_In_other a x l : In x l -> x <> a -> In x (remove1 a l).
Proof.
  induction l as [|y l IH]; [intros []|]. intros [E | H] D; cbn [remove1].
  - subst y. destruct (att_eqb a x) eqn:Q; [apply att_eqb_eq in Q; congruence | now left].
  - destruct (att_eqb a y); [exact H | right; now apply IH].
Qed.

Lemma remove1_subset a x l : In x (remove1 a l) -> In x l.
Proof.
  induction l as [|y l IH]; [intros []|]. cbn [remove1].
  destruct (att_eqb a y); [now right|]. intros [E | H]; [now left | right; now apply IH].
Qed.

Lemma lookup_cases a l :
  lookup a l = KFail \/ exists b, In (b, lookup a l) l /\ fst b = fst a.
Proof.
  induction l as [|[b k] l IH]; [now left|]. cbn [lookup].
  destruct (att_eqb a b) eqn:E.
  - right. exists b. split; [now left|]. apply att_eqb_eq in E. now subst.
  - destruct IH as [K | (c & Hin & Hf)]; [now left | right]. exists c. split; [now right | exact Hf].
Qed.

Lemma chunks_aux_concat cs : 0 < cs -> forall fuel l, length l <= fuel -> concat (chunks_aux fuel cs l) = l.
Proof.
  intros Hcs fuel; induction fuel as [|f IH]; intros l Hl.
  - destruct l; [reflexivity | cbn [length] in Hl; lia].
  - destruct l as [|x t]; [reflexivity|].
    change (chunks_aux (S f) cs (x :: t)) with (firstn cs (x :: t) :: chunks_aux f cs (skipn cs (x :: t))).
    cbn [concat]. rewrite IH; [apply firstn_skipn|].
    rewrite skipn_length. cbn [length] in *. lia.
Qed.

Lemma chunks_concat cs l : 0 < cs -> concat (chunks cs l) = l.
Proof. intro H. unfold chunks. now apply chunks_aux_concat. Qed.

Section Loop.
  Variable plan : list bytes.
  Variable ans : attempt -> answer.
  Variable slow : st -> nat -> bool.
  Variable hedging : bool.
  Variable maxh : Z.

  (* the model's functions at the parameters of the section; a qualified [C32.run] in a script
     is the model's own function, which [cbn] and [unfold] need *)
  Notation n := (length plan).
  Notation hedge_scan := (hedge_scan maxh).
  Notation maybe_hedge := (maybe_hedge plan slow hedging maxh).
  Notation recv := (recv plan ans slow hedging maxh).
  Notation run := (run plan ans slow hedging maxh).

  Definition live (s : st) : bool := (0 <? remaining s) && (0 <? expected s).

  (* [store] is only applied to an admitted answer and a chunk that has no data yet, [launch]
     only to a chunk of the plan that has neither data nor a duplicate yet: a property need
     only be kept under these side conditions. *)
  Lemma hedge_scan_keeps (P : st -> Prop) sl :
    (forall s i, i < n -> is_done s i = false -> memb i (hedged s) = false -> P s -> P (launch s i)) ->
    forall idxs s, (forall i, In i idxs -> i < n) -> P s -> P (hedge_scan sl idxs s).
  Proof.
    intro HL. induction idxs as [|i t IH]; intros s HI H; cbn [C32.hedge_scan]; [exact H|].
    assert (HT : forall j, In j t -> j < n) by (intros j Hj; apply HI; now right).
    destruct (is_done s i || memb i (hedged s)) eqn:E; [now apply IH|].
    destruct (cap_reached maxh s); [exact H|].
    destruct (sl i); [|now apply IH].
    apply orb_false_iff in E as [D M]. apply IH; [exact HT|]. apply HL; auto. apply HI. now left.
  Qed.

  Lemma maybe_hedge_keeps (P : st -> Prop) :
    (forall s i, i < n -> is_done s i = false -> memb i (hedged s) = false -> P s -> P (launch s i)) ->
    forall s, P s -> P (maybe_hedge s).
  Proof.
    intros HL s H. unfold C32.maybe_hedge. destruct (negb hedging); [exact H|]. destruct (cap_reached maxh s); [exact H|].
    apply hedge_scan_keeps; [exact HL | | exact H]. intros i Hi. apply in_seq in Hi. unfold nchunks in Hi. lia.
  Qed.

  Lemma recv_keeps (P : st -> Prop) a :
    (forall s, P s -> P (set_err s)) ->
    (forall s, P s -> P (bump s)) ->
    (forall s d, accept (want plan (fst a)) (ans a) = Some d -> is_done s (fst a) = false -> P s -> P (store s (fst a) d)) ->
    (forall s i, i < n -> is_done s i = false -> memb i (hedged s) = false -> P s -> P (launch s i)) ->
    forall s, P s -> P (recv s a).
  Proof.
    intros Herr Hbump Hstore HL s H. unfold C32.recv. destruct (accept _ _) as [d|] eqn:A.
    - unfold C32.recv_ok.
      set (s2 := if is_done (bump s) (fst a) then bump s else store (bump s) (fst a) d).
      assert (E : P s2) by (subst s2; destruct (is_done (bump s) (fst a)) eqn:D; auto).
      destruct (0 <? remaining s2); [now apply maybe_hedge_keeps | exact E].
    - unfold recv_err. destruct (is_done s (fst a)); auto.
  Qed.

  Lemma maybe_hedge_results s : results (maybe_hedge s) = results s.
  Proof. apply (maybe_hedge_keeps (fun s' => results s' = results s)); [|reflexivity]. intros s0 i _ _ _ H. exact H. Qed.

  Lemma maybe_hedge_remaining s : remaining (maybe_hedge s) = remaining s.
  Proof. apply (maybe_hedge_keeps (fun s' => remaining s' = remaining s)); [|reflexivity]. intros s0 i _ _ _ H. exact H. Qed.

  Lemma recv_first_wins s a i d : nth i (results s) None = Some d -> nth i (results (recv s a)) None = Some d.
  Proof.
    apply (recv_keeps (fun s' => nth i (results s') None = Some d)).
    - (* set_err *) intros s0 H. exact H.
    - (* bump *) intros s0 H. exact H.
    - (* store: not to chunk i, which has data *)
      intros s0 d' _ D H. cbn [results store]. rewrite nth_set_nth.
      destruct (i =? fst a) eqn:Q; [|exact H].
      apply Nat.eqb_eq in Q. subst i. unfold is_done in D. rewrite H in D. discriminate.
    - (* launch *) intros s0 j _ _ _ H. exact H.
  Qed.

  Lemma recv_stores s a d :
    accept (want plan (fst a)) (ans a) = Some d -> fst a < length (results s) -> is_done (recv s a) (fst a) = true.
  Proof.
    intros A Hl. unfold C32.recv, C32.recv_ok. rewrite A.
    set (s2 := if is_done (bump s) (fst a) then bump s else store (bump s) (fst a) d).
    assert (E : is_done s2 (fst a) = true).
    { subst s2. destruct (is_done (bump s) (fst a)) eqn:D; [exact D|]. unfold is_done. cbn [results store bump].
      rewrite nth_set_nth, Nat.eqb_refl. apply Nat.ltb_lt in Hl. now rewrite Hl. }
    destruct (0 <? remaining s2); [|exact E]. unfold is_done. now rewrite maybe_hedge_results.
  Qed.

  Lemma recv_inflight s a x : In x (inflight s) -> In x (inflight (recv s a)).
  Proof.
    apply (recv_keeps (fun s' => In x (inflight s'))).
    - (* set_err *) intros s0 H. exact H.
    - (* bump *) intros s0 H. exact H.
    - (* store *) intros s0 d _ _ H. exact H.
    - (* launch *) intros s0 i _ _ _ H. cbn [inflight launch]. apply in_or_app. now left.
  Qed.

  Lemma unhedged_launch s i : i < n -> memb i (hedged s) = false -> S (unhedged n (launch s i)) = unhedged n s.
  Proof.
    intros Hi HM. apply (filter_drop_one _ _ i); [apply seq_NoDup | apply in_seq; lia | now rewrite HM | |].
    - cbn [hedged launch memb existsb]. now rewrite Nat.eqb_refl.
    - intros j Hj. cbn [hedged launch memb existsb]. apply Nat.eqb_neq in Hj. now rewrite Hj.
  Qed.

  Lemma recv_measure s a : measure n (recv s a) = measure n s.
  Proof.
    apply (recv_keeps (fun s' => measure n s' = measure n s)); [| | | |reflexivity].
    - (* set_err *) intros s0 H. exact H.
    - (* bump *) intros s0 H. exact H.
    - (* store *) intros s0 d _ _ H. exact H.
    - (* launch: one more expected, one fewer launchable *)
      intros s0 i Hi _ M H. rewrite <- H. unfold measure. rewrite <- (unhedged_launch s0 i Hi M).
      cbn [expected launch]. lia.
  Qed.

  Lemma step_measure s a : live s = true -> S (measure n (recv (take_out s a) a)) = measure n s.
  Proof.
    intro L. rewrite recv_measure. unfold live in L. apply andb_true_iff in L as [_ L]. apply Nat.ltb_lt in L.
    unfold measure, unhedged. cbn [expected hedged take_out]. lia.
  Qed.

  (* the loop rule: an invariant of the iterations, and their number when the schedule runs out *)
  Lemma run_inv (P : st -> Prop) :
    (forall s a, P s -> live s = true -> in_flight a (inflight s) = true -> P (recv (take_out s a) a)) ->
    forall sched s, P s ->
    match run sched s with
    | Done s' => P s' /\ live s' = false
    | Waiting s' => P s' /\ live s' = true /\ inflight s' <> [] /\ measure n s' + length sched = measure n s
    | Stuck s' => P s' /\ live s' = true /\ inflight s' = []
    | Desync => True
    end.
  Proof.
    intros Hstep sched; induction sched as [|a t IH]; intros s HP; cbn [C32.run]; fold (live s).
    (* in both cases the two exits come first: not live is [Done], nothing in flight is [Stuck] *)
    all: destruct (live s) eqn:L; cbn [negb]; [|split; [exact HP | exact L]].
    all: destruct (inflight s) as [|x l] eqn:F; [exact (conj HP (conj L F))|].
    - (* the schedule has run out: [Waiting] *)
      repeat split; try assumption; [rewrite F; discriminate | apply Nat.add_0_r].
    - (* one delivery, then the rest of the schedule *)
      rewrite <- F. destruct (in_flight a (inflight s)) eqn:Hfl; [|exact I].
      specialize (IH _ (Hstep s a HP L Hfl)). destruct (run t _) as [s'|s'|s'|]; [exact IH | | exact IH | exact IH].
      destruct IH as (HP' & L' & F' & M). repeat split; try assumption.
      rewrite <- (step_measure s a L), <- M. cbn [length]. lia.
  Qed.

  Lemma init_measure : measure n (init plan) = 2 * n.
  Proof.
    unfold measure, unhedged, init, nchunks. cbn [expected hedged].
    rewrite filter_all by reflexivity. rewrite seq_length. lia.
  Qed.

  (* counted over the indices, as [unhedged] is, so that [filter_drop_one] serves both counters *)
  Definition undone (s : st) : nat := length (filter (fun i => negb (is_done s i)) (seq 0 n)).

  Lemma is_done_store s i d j : is_done (store s i d) j = (j =? i) && (i <? length (results s)) || is_done s j.
  Proof. unfold is_done. cbn [results store]. rewrite nth_set_nth. now destruct ((j =? i) && _). Qed.

  Lemma undone_store s i d : i < n -> length (results s) = n -> is_done s i = false ->
    S (undone (store s i d)) = undone s.
  Proof.
    intros Hi HL D. apply (filter_drop_one _ _ i); [apply seq_NoDup | apply in_seq; lia | now rewrite D | |].
    - rewrite is_done_store, Nat.eqb_refl, HL. apply Nat.ltb_lt in Hi. now rewrite Hi.
    - intros j Hj. rewrite is_done_store. apply Nat.eqb_neq in Hj. now rewrite Hj.
  Qed.

  Record wf (s : st) : Prop := {
    wf_count : expected s = length (inflight s);
    wf_len : length (results s) = n;
    wf_rem : remaining s = undone s;
    wf_bound : forall a, In a (inflight s) -> fst a < n;
    wf_adm : forall i d, nth i (results s) None = Some d -> exists h, accept (want plan i) (ans (i, h)) = Some d }.

  Lemma wf_step s a : wf s -> in_flight a (inflight s) = true -> wf (recv (take_out s a) a).
  Proof.
    intros W Hfl. assert (Ha : fst a < n) by now apply (wf_bound s W), (existsb_eqb_In att_eqb att_eqb_eq).
    apply recv_keeps.
    - (* set_err *) intros s0 [C L R B M]. constructor; assumption.
    - (* bump *) intros s0 [C L R B M]. constructor; assumption.
    - (* store *) intros s0 d A D [C L R B M]. constructor; cbn [results remaining store]; try assumption.
      + now rewrite set_nth_length.
      + now rewrite R, <- (undone_store s0 (fst a) d Ha L D).
      + intros j d' H. rewrite nth_set_nth in H. destruct ((j =? fst a) && _) eqn:Q; [|now apply M].
        apply andb_true_iff in Q as [Q _]. apply Nat.eqb_eq in Q. subst j. injection H as <-.
        exists (snd a). now rewrite <- surjective_pairing.
    - (* launch *) intros s0 i Hi _ _ [C L R B M]. constructor; cbn [expected inflight launch]; try assumption.
      + rewrite app_length, C. cbn [length]. lia.
      + intros x Hx. apply in_app_or in Hx as [Hx | [<- | []]]; [now apply B | exact Hi].
    - (* take_out *) destruct W as [C L R B M]. constructor; cbn [expected inflight take_out]; try assumption.
      + rewrite remove1_length by exact Hfl. now rewrite C.
      + intros x Hx. apply B. now apply remove1_subset in Hx.
  Qed.

  (* The third case makes this hold of any server; where every first request is admitted
     it cannot occur, and then a loop that left with nothing in flight has every chunk. *)
  Definition firsts (s : st) : Prop := forall i, i < n ->
    is_done s i = true \/ In (i, false) (inflight s) \/ accept (want plan i) (ans (i, false)) = None.

  Definition inv (s : st) : Prop := wf s /\ firsts s.

  Lemma inv_step s a : inv s -> live s = true -> in_flight a (inflight s) = true -> inv (recv (take_out s a) a).
  Proof.
    intros [W V] _ Hfl. split; [now apply wf_step|].
    intros i Hi. destruct (V i Hi) as [D | [F | Hrej]]; [left | | now right; right].
    - unfold is_done in *. destruct (nth i (results s) None) as [d|] eqn:E; [|discriminate].
      now rewrite (recv_first_wins (take_out s a) a i d E).
    - (* still in flight unless it is the one received, and that one is stored or was refused *)
      destruct (att_eqb a (i, false)) eqn:Q.
      + apply att_eqb_eq in Q. subst a. destruct (accept (want plan i) (ans (i, false))) as [d|] eqn:A; [left | now right; right].
        apply (recv_stores _ (i, false) d A). cbn [results take_out fst]. now rewrite (wf_len s W).
      + right; left. apply recv_inflight, remove1_In_other; [exact F|]. intros <-. now rewrite (proj2 (att_eqb_eq _ _) eq_refl) in Q.
  Qed.

  Lemma init_inv : inv (init plan).
  Proof.
    split; [constructor|]; unfold init, nchunks; cbn [expected inflight results remaining].
    - now rewrite map_length, seq_length.
    - apply repeat_length.
    - unfold undone, is_done. cbn [results]. rewrite filter_all, seq_length; [reflexivity|]. intro i. now rewrite nth_repeat.
    - intros a Ha. apply in_map_iff in Ha as (i & <- & Hi). apply in_seq in Hi. cbn [fst]. lia.
    - intros i d H. rewrite nth_repeat in H. discriminate.
    - intros i Hi. right; left. apply in_map_iff. exists i. split; [reflexivity | apply in_seq; lia].
  Qed.

  Definition run_init_inv sched := run_inv inv inv_step sched (init plan) init_inv.

  Lemma never_stuck sched s' : run sched (init plan) <> Stuck s'.
  Proof.
    intro E. pose proof (run_init_inv sched) as H. rewrite E in H. destruct H as ([W _] & L & F).
    pose proof (wf_count _ W) as C. rewrite F in C. unfold live in L. rewrite C, andb_comm in L. discriminate.
  Qed.

  (* What an exited loop yields against an honest server: every chunk, each with an admitted
     answer, or an error, and then some first request was refused. *)
  Variant done_case (s : st) : Prop :=
  | done_bytes : assemble s = RBytes (concat plan) ->
      (forall i, i < n -> exists h, accept (want plan i) (ans (i, h)) <> None) -> done_case s
  | done_error k : assemble s = RError -> k < n -> accept (want plan k) (ans (k, false)) = None -> done_case s.

  Lemma done_cases sched s' : honest plan ans -> run sched (init plan) = Done s' -> done_case s'.
  Proof.
    intros Hh E. pose proof (run_init_inv sched) as H. rewrite E in H. destruct H as [[W V] LV].
    destruct (forallb is_some (results s')) eqn:A.
    - assert (G : forall i, i < n -> exists d h, nth i (results s') None = Some d /\ accept (want plan i) (ans (i, h)) = Some d).
      { intros i Hi. rewrite <- (wf_len _ W) in Hi. pose proof (proj1 (forallb_forall _ _) A _ (nth_In _ None Hi)) as Hsome.
        destruct (nth i (results s') None) as [d|] eqn:Q; [|discriminate]. destruct (wf_adm _ W i d Q) as [h K]. now exists d, h. }
      apply done_bytes.
      + unfold assemble. rewrite A. do 2 f_equal. apply (nth_ext _ _ (get None) []); rewrite map_length, (wf_len _ W); [reflexivity|].
        intros i Hi. rewrite map_nth. destruct (G i Hi) as (d & h & -> & K). exact (Hh (i, h) d K).
      + intros i Hi. destruct (G i Hi) as (d & h & _ & K). exists h. now rewrite K.
    - pose proof A as A'. apply forallb_false_ex in A' as (o & Hin & Ho). destruct (In_nth _ o None Hin) as (k & Hk & Q).
      rewrite (wf_len _ W) in Hk. destruct o; [discriminate|].
      apply (done_error _ k); [unfold assemble; now rewrite A | exact Hk |].
      (* chunk k has no data, so the loop left because nothing was expected any more *)
      unfold live in LV. apply andb_false_iff in LV as [LV | LV]; apply Nat.ltb_ge in LV.
      + rewrite (wf_rem _ W) in LV.
        assert (D : negb (is_done s' k) = false) by (apply (filter_none (fun j => negb (is_done s' j)) (seq 0 n)); [unfold undone in LV; lia | apply in_seq; lia]).
        unfold is_done in D. now rewrite Q in D.
      + destruct (V k Hk) as [D | [F | Hrej]]; [unfold is_done in D; now rewrite Q in D | | exact Hrej].
        rewrite (wf_count _ W) in LV. destruct (inflight s'); [destruct F | cbn [length] in LV; lia].
  Qed.
End Loop.

Lemma chunk_nat_pos c size : 0 < size -> 0 < chunk_nat c size.
Proof.
  intro H. unfold chunk_nat, eff_chunk, default_chunk. destruct (c <=? 0)%Z eqn:E; lia.
Qed.

Lemma honest_of_script i : honest_b i = true -> honest (plan_of i) (ans_of i).
Proof.
  intros H a d A. unfold honest_b in H. apply andb_true_iff in H as [_ H]. unfold ans_of in A.
  destruct (lookup_cases a (i_script i)) as [K | (b & Hin & Hf)].
  - rewrite K in A. discriminate.
  - rewrite forallb_forall in H. specialize (H _ Hin). cbn [fst snd] in H. rewrite Hf in H.
    unfold honest_chunk_b in H. rewrite A in H. now apply beqb_eq in H.
Qed.

Lemma simple_ok i : honest_b i = true ->
  match simple i with OBytes b => beqb b (i_res i) | OHang => false | _ => true end = true.
Proof.
  intro H. unfold honest_b in H. apply andb_true_iff in H as [H _]. unfold simple, fetch_simple.
  destruct (realize _ _ _ _) as [|stc fr b]; [reflexivity|]. cbn [honest_simple_b] in H.
  destruct (stc =? 200)%N; [|reflexivity]. destruct (i_maxfetch i <? _)%Z; [reflexivity | exact H].
Qed.

Lemma parallel_ok i : 0 < length (i_res i) -> honest_b i = true ->
  match parallel i with
  | OBytes b => beqb b (i_res i) = true
  | OHang => False
  | OError => originals_ok_b i = false
  | _ => True
  end.
Proof.
  intros Hs H. apply honest_of_script in H. unfold parallel.
  assert (Hc : concat (plan_of i) = i_res i) by (unfold plan_of; rewrite chunks_concat by (apply chunk_nat_pos; exact Hs); reflexivity).
  destruct (run _ _ _ _ _ _ _) as [s|s|s|] eqn:E; cbn [obs_of]; try exact I.
  - destruct (done_cases _ _ _ _ _ _ _ H E) as [A _ | k A Hk Hrej]; rewrite A; [rewrite Hc; apply beqb_refl|].
    destruct (originals_ok_b i) eqn:Hall; [|reflexivity]. unfold originals_ok_b in Hall. rewrite forallb_forall in Hall.
    specialize (Hall k). rewrite Hrej in Hall. discriminate Hall. apply in_seq. lia.
  - exact (never_stuck _ _ _ _ _ _ _ E).
Qed.

(* the call takes the parallel path exactly when [parallel_path] says so; otherwise it is
   the plain GET, or the refusal of a resource over the cap *)
Variant model_case (i : input) : bool -> obs -> Prop :=
| model_parallel : 0 < length (i_res i) -> model_case i true (parallel i)
| model_simple : model_case i false (simple i)
| model_over : model_case i false OError.

Lemma model_cases i : model_case i (parallel_path i) (model i).
Proof.
  unfold model, parallel_path. destruct (i_head i) as [|[|] ranges]; cbn [negb orb].
  - constructor.
  - destruct ranges; cbn [negb]; [|rewrite orb_true_r; constructor].
    rewrite orb_false_r.
    destruct ((_ <? i_threshold i)%Z || (_ <=? 0)%Z) eqn:E; cbn [negb andb]; [constructor|].
    destruct (i_maxfetch i <? _)%Z; cbn [negb]; constructor.
    apply orb_false_iff in E as [_ E]. lia.
  - change (-1 <=? 0)%Z with true. rewrite orb_true_r. constructor.
Qed.

(* witnesses against the loop as it was before the repair *)
Definition legacy_block_witness : input :=
  {| i_res := [1; 2]%N; i_head := HeadOk true true; i_simple := KWhole200 Declared;
     i_chunk := 1%Z; i_par := 2%Z; i_threshold := 1%Z; i_maxfetch := 100%Z; i_mult := MOff; i_maxh := 4%Z;
     i_script := [((0, false), KFail); ((1, false), KExact Declared)];
     i_sched := [(0, false); (1, false)] |}.
Definition legacy_whole_witness : input :=
  {| i_res := [1; 2]%N; i_head := HeadOk true true; i_simple := KWhole200 Declared;
     i_chunk := 1%Z; i_par := 2%Z; i_threshold := 1%Z; i_maxfetch := 100%Z; i_mult := MOff; i_maxh := 4%Z;
     i_script := [((0, false), KWhole200 Chunked); ((1, false), KWhole200 Declared)];
     i_sched := [(0, false); (1, false)] |}.

Lemma legacy_blocks : honest_b legacy_block_witness = true /\ parallel_legacy legacy_block_witness = OHang
                      /\ model legacy_block_witness = OError.
Proof. repeat split; reflexivity. Qed.
