(* The hook events of a run pass [bal] because the token values [bal] still waits to see ended
   are exactly those the suspended requests hold ([BalInv]); [accepts] says so for a stretch of
   events, so that it composes over requests, schedule steps and the run ([run_bal]).  Which
   requests reach the hook, and with which error the end hook is called, is settled per request as
   its fate ([good]) and carried over to the requests of the skeleton ([srq_ok], [skel_ok]); the
   resumed half of a suspended request needs [SkelInv] for it: only requests that reached the hook
   are ever suspended. *)
From VR Require Import Model.C37 Lib.Lists.
Local Open Scope nat_scope.

Lemma drq_resp hs h s : q_resp (snd (drq hs h s)) = s_resp s.
Proof.
  unfold drq. destruct (s_part s) as [|e| |e]; cbn; try reflexivity.
  destruct (take_tok (s_k s) (h_tab h)) as [[tok rest]|]; reflexivity.
Qed.

(* dseg and decorate thread the hook state through drq; these equations spare
   every induction below the destructuring of the two nested pairs *)
Lemma dseg_cons hs h s r :
  dseg hs h (s :: r)
  = (fst (dseg hs (fst (drq hs h s)) r), snd (drq hs h s) :: snd (dseg hs (fst (drq hs h s)) r)).
Proof. cbn [dseg]. destruct (drq hs h s) as [h1 q]. cbn [fst snd]. now destruct (dseg hs h1 r). Qed.

Lemma decorate_cons hs h l r :
  decorate hs h (l :: r)
  = (fst (decorate hs (fst (dseg hs h l)) r), snd (dseg hs h l) :: snd (decorate hs (fst (dseg hs h l)) r)).
Proof. cbn [decorate]. destruct (dseg hs h l) as [h1 q]. cbn [fst snd]. now destruct (decorate hs h1 r). Qed.

Lemma dseg_resps hs l : forall h, map q_resp (snd (dseg hs h l)) = map s_resp l.
Proof.
  induction l as [|s r IH]; intro h; [reflexivity|].
  rewrite dseg_cons. cbn [snd map]. now rewrite drq_resp, IH.
Qed.

Lemma decorate_resps hs ll : forall h, resps (snd (decorate hs h ll)) = map (map s_resp) ll.
Proof.
  unfold resps. induction ll as [|l r IH]; intro h; [reflexivity|].
  rewrite decorate_cons. cbn [snd map]. now rewrite dseg_resps, IH.
Qed.

Definition occ (t : nat) (l : list nat) : nat := length (filter (Nat.eqb t) l).

Lemma mem_nat_occ t l : mem_nat t l = true -> 1 <= occ t l.
Proof.
  unfold mem_nat, occ. induction l as [|x r IH]; cbn; [discriminate|].
  destruct (Nat.eqb t x); cbn; [lia|exact IH].
Qed.

Lemma mem_nat_of_occ t l : 1 <= occ t l -> mem_nat t l = true.
Proof.
  unfold occ, mem_nat. induction l as [|x r IH]; cbn; [lia|].
  destruct (Nat.eqb t x); cbn; [reflexivity|exact IH].
Qed.

Lemma occ_cons t x l : occ t (x :: l) = (if Nat.eqb t x then 1 else 0) + occ t l.
Proof. apply length_filter_cons. Qed.

Lemma occ_rm t u l : mem_nat t l = true -> occ u (rm t l) + (if Nat.eqb u t then 1 else 0) = occ u l.
Proof.
  unfold mem_nat. induction l as [|x r IH]; cbn [existsb rm]; [discriminate|].
  destruct (Nat.eqb_spec t x) as [<-|Hne]; cbn [orb]; intro M; rewrite !occ_cons; [lia|].
  specialize (IH M). lia.
Qed.

Lemma bal_app n o p q :
  bal n o (p ++ q) = match bal n o p with Some (n1, o1) => bal n1 o1 q | None => None end.
Proof.
  revert n o; induction p as [|e p IH]; intros n o; cbn; [reflexivity|].
  destruct e as [id out|tv err].
  - destruct (Nat.eqb id n && tok_ok id out); [apply IH|reflexivity].
  - destruct (mem_nat tv o); [apply IH|reflexivity].
Qed.

Lemma cnt_cons p x l : cnt p (x :: l) = (if p x then 1 else 0) + cnt p l.
Proof. apply length_filter_cons. Qed.

Lemma bal_counts evs : forall n o n' o', bal n o evs = Some (n', o') ->
  forall t, cnt (is_end_tok t) evs + occ t o' = cnt (is_sret_of t) evs + occ t o.
Proof.
  induction evs as [|e r IH]; intros n o n' o' H t; cbn in H.
  - injection H as <- <-. reflexivity.
  - rewrite !cnt_cons. destruct e as [id out|tv err]; cbn [is_end_tok is_sret_of].
    + destruct (Nat.eqb id n && tok_ok id out); [|discriminate]. specialize (IH _ _ _ _ H t).
      destruct out as [[tv cv]|]; [rewrite occ_cons in IH|]; lia.
    + destruct (mem_nat tv o) eqn:M; [|discriminate]. specialize (IH _ _ _ _ H t).
      pose proof (occ_rm tv t o M). lia.
Qed.

Lemma sret_is_start t id out :
  tok_ok id out = true -> is_sret_of (S t) (HStart id out) = true -> is_start_of t (HStart id out) = true.
Proof.
  destruct out as [[tv cv]|]; cbn [tok_ok is_sret_of is_start_of]; [|discriminate].
  intros K E. apply Nat.eqb_eq in E. subst tv. exact K.
Qed.

Lemma bal_starts evs : forall n o n' o', bal n o evs = Some (n', o') ->
  forall t, cnt (is_start_of t) evs <= 1 /\ (t < n -> cnt (is_start_of t) evs = 0)
            /\ cnt (is_sret_of (S t)) evs <= cnt (is_start_of t) evs.
Proof.
  induction evs as [|e r IH]; intros n o n' o' H t; cbn in H.
  - cbn. repeat split; lia.
  - rewrite !cnt_cons. destruct e as [id out|tv err].
    + destruct (Nat.eqb id n && tok_ok id out) eqn:E; [|discriminate].
      apply andb_true_iff in E as [E TK]. apply Nat.eqb_eq in E. subst id.
      destruct (IH _ _ _ _ H t) as (I1 & I2 & I3). pose proof (sret_is_start t n out TK) as SI.
      destruct (is_sret_of (S t) (HStart n out)); [rewrite SI by reflexivity|];
        cbn [is_start_of] in *; destruct (Nat.eqb_spec t n); repeat split; lia.
    + destruct (mem_nat tv o); [|discriminate]. exact (IH _ _ _ _ H t).
Qed.

(* the token values bal still waits to see ended are those the suspended requests hold *)
Definition BalInv (h : hstate) (open : list nat) : Prop := forall t, occ t open = held t (h_tab h).

Definition holds_out (t : nat) (out : option (nat * nat)) : nat :=
  match out with Some (tv, _) => if Nat.eqb t tv then 1 else 0 | None => 0 end.

Lemma held_cons t k n out tab : held t ((k, (n, out)) :: tab) = holds_out t out + held t tab.
Proof.
  unfold held. rewrite length_filter_cons. unfold holds, holds_out. cbn [snd].
  destruct out as [[tv cv]|]; reflexivity.
Qed.

Lemma take_tok_held k tab tok rest : take_tok k tab = Some (tok, rest) ->
  forall t, held t tab = holds_out t (snd tok) + held t rest.
Proof.
  revert tok rest; induction tab as [|[j [n out]] r IH]; intros tok rest H t; cbn in H; [discriminate|].
  destruct (Nat.eqb j k).
  - injection H as <- <-. apply held_cons.
  - destruct (take_tok k r) as [[t' r']|]; [|discriminate]. injection H as <- <-.
    specialize (IH _ _ eq_refl t). rewrite !held_cons. lia.
Qed.

Lemma drq_begin hs h s : s_part s = PtBegin ->
  fst (drq hs h s) = {| h_next := S (h_next h); h_tab := (s_k s, (h_next h, start_out hs (h_next h))) :: h_tab h |}
  /\ q_evs (snd (drq hs h s)) = [HStart (h_next h) (start_out hs (h_next h))].
Proof. intro P. unfold drq. rewrite P. split; reflexivity. Qed.

Lemma hook_end_evs hs n out e : hook_end hs n out e = match out with Some (tv, _) => [HEnd tv e] | None => [] end.
Proof. unfold hook_end. destruct out as [[tv cv]|]; [|reflexivity]. destruct (hb_ep (beh hs n)); reflexivity. Qed.

Lemma start_out_tok_ok hs n : tok_ok n (start_out hs n) = true.
Proof.
  unfold start_out, tok_ok. destruct (hb_sp (beh hs n)); [reflexivity|].
  destruct (hb_ret (beh hs n)); cbn; rewrite ?Nat.eqb_refl; reflexivity.
Qed.

(* bal follows the hook from h to h' along evs; such runs compose (accepts_app), so the
   requests of a segment and the segments of a run need no open list of their own *)
Definition accepts (h : hstate) (evs : list hev) (h' : hstate) : Prop :=
  forall open, BalInv h open -> exists open', bal (h_next h) open evs = Some (h_next h', open') /\ BalInv h' open'.

Lemma accepts_nil h : accepts h [] h.
Proof. intros open Hbal. exists open. split; [reflexivity|exact Hbal]. Qed.

Lemma accepts_app h1 h2 h3 p q : accepts h1 p h2 -> accepts h2 q h3 -> accepts h1 (p ++ q) h3.
Proof.
  intros A B open Hbal. destruct (A open Hbal) as (o1 & B1 & Hbal1). destruct (B o1 Hbal1) as (o2 & B2 & Hbal2).
  exists o2. split; [|exact Hbal2]. rewrite bal_app, B1. exact B2.
Qed.

Lemma drq_bal hs h s : accepts h (q_evs (snd (drq hs h s))) (fst (drq hs h s)).
Proof.
  unfold drq. destruct (s_part s) as [|e| |e]; cbn [fst snd q_evs]; [apply accepts_nil| | |].
  - intros open Hbal. cbn [h_next]. rewrite hook_end_evs. unfold hook_start. pose proof (start_out_tok_ok hs (h_next h)) as TK.
    exists open. split; [|exact Hbal].
    destruct (start_out hs (h_next h)) as [[tv cv]|]; cbn [app bal]; rewrite Nat.eqb_refl, TK; cbn [andb]; [|reflexivity].
    unfold mem_nat. cbn [existsb]. rewrite Nat.eqb_refl. cbn [orb rm]. now rewrite Nat.eqb_refl.
  - intros open Hbal. unfold hook_start. pose proof (start_out_tok_ok hs (h_next h)) as TK. cbn [bal h_next]. rewrite Nat.eqb_refl, TK. cbn [andb].
    destruct (start_out hs (h_next h)) as [[tv cv]|] eqn:SO.
    + exists (tv :: open). split; [reflexivity|]. intro t. cbn [h_tab]. rewrite held_cons, occ_cons. cbn [holds_out]. now rewrite (Hbal t).
    + exists open. split; [reflexivity|]. intro t. cbn [h_tab]. rewrite held_cons. cbn [holds_out]. apply Hbal.
  - destruct (take_tok (s_k s) (h_tab h)) as [[[n0 out] rest]|] eqn:T; cbn [fst snd q_evs]; [|apply accepts_nil].
    intros open Hbal. cbn [h_next]. rewrite hook_end_evs. pose proof (take_tok_held _ _ _ _ T) as Hh. cbn [snd] in Hh.
    destruct out as [[tv cv]|]; cbn [bal].
    + assert (mem_nat tv open = true) as M.
      { apply mem_nat_of_occ. specialize (Hbal tv). specialize (Hh tv). cbn [holds_out] in Hh.
        rewrite Nat.eqb_refl in Hh. lia. }
      rewrite M. exists (rm tv open). split; [reflexivity|]. intro t. specialize (Hbal t). specialize (Hh t).
      cbn [holds_out] in Hh. cbn [h_tab]. pose proof (occ_rm tv t open M). lia.
    + exists open. split; [reflexivity|]. intro t. specialize (Hbal t). specialize (Hh t). cbn [holds_out] in Hh. cbn [h_tab]. lia.
Qed.

Lemma dseg_bal hs l : forall h, accepts h (flat_map q_evs (snd (dseg hs h l))) (fst (dseg hs h l)).
Proof.
  induction l as [|s r IH]; intro h; [apply accepts_nil|].
  rewrite dseg_cons. exact (accepts_app _ _ _ _ _ (drq_bal hs h s) (IH _)).
Qed.

Lemma decorate_bal hs ll : forall h, accepts h (flat_evs (snd (decorate hs h ll))) (fst (decorate hs h ll)).
Proof.
  unfold flat_evs. induction ll as [|l r IH]; intro h; [apply accepts_nil|].
  rewrite decorate_cons. cbn [fst snd concat]. rewrite flat_map_app.
  exact (accepts_app _ _ _ _ _ (dseg_bal hs l h) (IH _)).
Qed.

Lemma run_bal hs calls sched :
  exists open, bal 0 [] (flat_evs (snd (run hs calls sched))) = Some (h_next (fst (run hs calls sched)), open)
               /\ BalInv (fst (run hs calls sched)) open.
Proof. unfold run. apply (decorate_bal hs _ hinit []). intro t. reflexivity. Qed.

(* a fate whose error flag, when the hook is started at all, is the one its response reports
   provided [c] holds ([clean_call], below); the index says whether the hook is started, whatever [c] *)
Variant good (c : bool) : fate -> bool -> Prop :=
| good_refused r : good c (refused r) false
| good_early e r : (c = true -> e = resp_err r) -> good c (early e r) true
| good_handled e r tok pos : (c = true -> e = resp_err r) -> good c (handled e r tok pos) true.

Lemma good_ok c f d : good c f d ->
  (c = true -> f_disp f = true -> f_err f = resp_err (f_resp f)) /\ f_disp f = d.
Proof. intros [r|e r E|e r tok pos E]; split; try reflexivity; [discriminate | intros C _; exact (E C) ..]. Qed.

Lemma big_log_no_exc b : existsb is_exc (big_log b) = false.
Proof. destruct b; reflexivity. Qed.

(* an input batch matters to the lockstep loop only in being a cancellation or not *)
Lemma pipe_loop_item prod ts pos it rest :
  it = ICancel \/ forall c, pipe_loop prod ts c pos (it :: rest) = pipe_loop prod ts c pos (ITick :: rest).
Proof. destruct it; auto. Qed.

Lemma pipe_loop_exc prod ts c ins : forall pos,
  existsb is_exc (fst (pipe_loop prod ts c pos ins)) = snd (pipe_loop prod ts c pos ins).
Proof.
  induction ins as [|it rest IH]; intro pos; [reflexivity|]. specialize (IH (S pos)).
  destruct (pipe_loop_item prod ts pos it rest) as [-> | ->]; [reflexivity|]. cbn [pipe_loop].
  destruct (nth pos ts (default_act prod)); try reflexivity; [ | | destruct prod; reflexivity];
    (destruct (cancel_here c pos); [reflexivity|]; destruct (pipe_loop prod ts c (S pos) rest); exact IH).
Qed.

Lemma http_prod_exc c rest : forall pos count big, has_badschema rest = false ->
  let '(f, e, ct, p) := http_prod c rest pos count big in
  existsb is_exc f = e /\ (ct = true -> e = false).
Proof.
  induction rest as [|a r IH]; intros pos count big NB; cbn [http_prod]; [split; [reflexivity|discriminate]|].
  cbn in NB. destruct a; cbn in NB.
  8: discriminate NB.                                 (* TBadSchema is excluded *)
  3-7: split; [reflexivity | discriminate].           (* TFinish and the failing turns end the loop uncut *)
  2: split; [reflexivity | intro X; reflexivity].     (* TBig: cut by the response cap, no error *)
  (* TEmit: cut by the batch limit, ended by a cancellation, or on to the next turn *)
  destruct (Nat.leb 2 (S count) || big); [split; [reflexivity|intro X; reflexivity]|].
  destruct (cancel_here c pos); [split; [reflexivity|intro X; reflexivity]|].
  specialize (IH (S pos) (S count) big NB). destruct (http_prod c r (S pos) (S count) big) as [[[f e] ct] p]. exact IH.
Qed.

Lemma existsb_skipn_false {A} (p : A -> bool) n l : existsb p l = false -> existsb p (skipn n l) = false.
Proof.
  revert l; induction n as [|n IH]; intros l H; [exact H|].
  destruct l as [|x r]; [reflexivity|]. cbn in *. apply orb_false_iff in H as [_ H]. apply IH. exact H.
Qed.

Lemma resp_err_http st x ss : resp_err (http_resp st x ss) = (400 <=? st)%N || x || existsb (existsb is_exc) ss.
Proof. unfold resp_err, http_resp. cbn. now rewrite orb_false_r. Qed.

Lemma http_prod_turn_good cl pos pre_frames big cd : existsb is_exc pre_frames = false ->
  good (negb (c_nogob cl || has_badschema (c_turns cl))) (http_prod_turn cl pos pre_frames big cd) true.
Proof.
  intro PF. unfold http_prod_turn. destruct cd.
  { constructor. intros _. rewrite resp_err_http. cbn. now rewrite PF. }
  pose proof (http_prod_exc (c_cancel cl) (skipn pos (c_turns cl)) pos 0 big) as H.
  destruct (http_prod (c_cancel cl) (skipn pos (c_turns cl)) pos 0 big) as [[[f e] c] p].
  destruct (c_nogob cl); cbn [orb negb]; [destruct c; constructor; discriminate|].
  destruct c; constructor; intro NB; apply negb_true_iff in NB;
    destruct (H (existsb_skipn_false _ _ _ NB)) as [H1 H2]; rewrite resp_err_http; cbn.
  - rewrite !existsb_app, PF, H1, (H2 eq_refl). reflexivity.
  - rewrite existsb_app, PF, H1. now rewrite orb_false_r.
Qed.

(* a pipe stream: the lockstep loop's output after the init handler's log *)
Lemma pipe_stream_good c (x : list fr * bool) b : existsb is_exc (fst x) = snd x ->
  good c (let (f, e) := x in handled e (pipe_resp [big_log b ++ f]) false 0) true.
Proof.
  destruct x as [f e]. cbn [fst snd]. intros <-. constructor. intros _. unfold resp_err. cbn.
  now rewrite existsb_app, big_log_no_exc, orb_false_r.
Qed.

(* below, a fate in closed form is [good] by its constructor; the error flag by evaluation *)
Lemma http_first_good k cl : c_http cl = true -> good (clean_call cl) (http_first k cl) (first_dispatched cl).
Proof.
  unfold clean_call, first_dispatched. intros ->. cbn [negb orb].
  unfold http_first, http_first_gen.
  (* refused before dispatch: by the authenticator or the content type, an unknown method, the version gate *)
  destruct (c_pre cl); cbn; try (rewrite andb_false_r; constructor).
  destruct (c_kind cl) eqn:K; cbn; [ | | | constructor].
  all: destruct (pv_ok (c_pv cl)); cbn; [|constructor].
  (* dispatched, over before the handler: parameters, sticky session *)
  all: destruct (c_badparams cl); [now constructor|]; destruct (c_sticky cl); [now constructor|].
  - (* unary *) destruct (c_init cl); now constructor.
  - (* producer *) destruct (c_init cl); [now apply http_prod_turn_good | now apply http_prod_turn_good | now constructor ..].
  - (* exchange *) destruct (c_nogob cl), (c_init cl); now constructor.
Qed.

Lemma pipe_first_good c k cl : c_http cl = false -> good c (pipe_first k cl) (first_dispatched cl).
Proof.
  unfold first_dispatched. intros ->. cbn [negb orb]. rewrite andb_true_r. unfold pipe_first.
  (* refused: an unknown method, the version gate; dispatched, over before the handler: parameters *)
  destruct (c_kind cl) eqn:K; cbn; [ | | | constructor].
  all: destruct (pv_ok (c_pv cl)); cbn; [|constructor].
  all: destruct (c_badparams cl); [now constructor|].
  1: { (* unary *) destruct (c_init cl); now constructor. }
  (* producer, exchange: the init handler fails, or its log is followed by the lockstep loop's frames *)
  all: destruct (c_init cl); [apply (pipe_stream_good _ _ false) | apply (pipe_stream_good _ _ true) | now constructor ..];
    (destruct (cancel_handler (c_cancel cl)); [reflexivity | apply pipe_loop_exc]).
Qed.

Lemma first_fate_good k cl : good (clean_call cl) (first_fate k cl) (first_dispatched cl).
Proof. unfold first_fate. destruct (c_http cl) eqn:H; [apply http_first_good | apply pipe_first_good]; exact H. Qed.

Lemma exch_turn_good cl pos :
  good (negb (c_nogob cl || has_badschema (c_turns cl))) (http_exch_turn cl pos) true.
Proof.
  unfold http_exch_turn. destruct (nth pos (c_turns cl) TEmit) eqn:E; constructor; intro C; try reflexivity.
  (* TBadSchema: a turn of the script, and not the default *)
  apply negb_true_iff, orb_false_iff in C as [_ NB]. destruct (Nat.lt_ge_cases pos (length (c_turns cl))) as [L|L].
  - pose proof (nth_In (c_turns cl) TEmit L) as Hin. rewrite E in Hin.
    unfold has_badschema in NB. rewrite <- not_true_iff_false in NB. destruct NB.
    apply existsb_exists. exists TBadSchema. split; [exact Hin|reflexivity].
  - rewrite nth_overflow in E by exact L. discriminate.
Qed.

Lemma conts_from_cons c cl pos j0 it rest :
  good c (cont_turn cl pos) true ->
  exists g tl, conts_from cl pos j0 (it :: rest) = (j0, g) :: tl
    /\ good c g (item_dispatched it)
    /\ (tl = [] \/ exists pos', tl = conts_from cl pos' (S j0) rest).
Proof.
  intro G. destruct it; cbn [conts_from]; eexists _, _; (split; [reflexivity|]).
  - (* ITick: the turn; the stream goes on iff it hands out a token *)
    split; [exact G|]. destruct (f_tok (cont_turn cl pos)); eauto.
  - (* ICancel ends the stream *) split; [now constructor | now left].
  - (* IBadToken is refused, the position stays *) split; [now constructor | eauto].
  - (* ISticky fails before the handler, the position stays *) split; [now constructor | eauto].
Qed.

Lemma conts_from_ok cl : c_http cl = true -> is_stream (c_kind cl) = true ->
  forall ins pos j0 j f, In (j, f) (conts_from cl pos j0 ins) ->
  exists it, nth_error ins (j - j0) = Some it /\ j0 <= j /\ good (clean_call cl) f (item_dispatched it).
Proof.
  intros H ST. unfold clean_call. rewrite H, ST. cbn [negb orb andb].
  assert (forall pos, good (negb (c_nogob cl || has_badschema (c_turns cl))) (cont_turn cl pos) true) as CT.
  { intro pos. unfold cont_turn. destruct (is_prod (c_kind cl)); [now apply http_prod_turn_good | apply exch_turn_good]. }
  induction ins as [|it rest IH]; intros pos j0 j f Hin; [contradiction|].
  destruct (conts_from_cons _ cl pos j0 it rest (CT pos)) as (g & tl & E & D & T).
  rewrite E in Hin. destruct Hin as [Hin|Hin].
  - injection Hin as <- <-. exists it. rewrite Nat.sub_diag. auto.
  - destruct T as [->|[pos' ->]]; [contradiction|]. destruct (IH _ _ _ _ Hin) as (it0 & Hnth & L & R).
    exists it0. replace (j - j0) with (S (j - S j0)) by lia. split; [exact Hnth|]. split; [lia|exact R].
Qed.

Lemma conts_of_ok k cl j f : In (j, f) (conts_of k cl) ->
  exists it, nth_error (c_inputs cl) j = Some it /\ good (clean_call cl) f (item_dispatched it).
Proof.
  intro Hin. unfold conts_of in Hin.
  destruct (c_http cl) eqn:H; [|contradiction]. destruct (is_stream (c_kind cl)) eqn:ST; [|contradiction].
  destruct (f_tok (first_fate k cl)); [|contradiction]. cbn in Hin.
  destruct (conts_from_ok cl H ST _ _ _ _ _ Hin) as (it & NI & _ & D). rewrite Nat.sub_0_r in NI. eauto.
Qed.

Lemma started_iff_dispatched k cl :
  f_disp (first_fate k cl) = first_dispatched cl
  /\ (forall j f, In (j, f) (conts_of k cl) ->
      exists it, nth_error (c_inputs cl) j = Some it /\ f_disp f = item_dispatched it).
Proof.
  split.
  - exact (proj2 (good_ok _ _ _ (first_fate_good k cl))).
  - intros j f Hin. destruct (conts_of_ok k cl j f Hin) as (it & Hnth & G). exists it. exact (conj Hnth (proj2 (good_ok _ _ _ G))).
Qed.

(* the model's [rq_dispatched], on a request of the skeleton *)
Definition srq_dispatched (calls : list call) (s : srq) : bool :=
  match nth_error calls (s_k s) with
  | Some cl =>
      match s_item s with
      | None => first_dispatched cl
      | Some j => match nth_error (c_inputs cl) j with Some it => item_dispatched it | None => false end
      end
  | None => false
  end.

Definition srq_ok (calls : list call) (s : srq) : Prop :=
  match s_part s, s_resp s with
  | PtNone, Some _ => srq_dispatched calls s = false
  | PtWhole e, Some r => srq_dispatched calls s = true /\ e = resp_err r
  | PtBegin, None => srq_dispatched calls s = true
  | PtEnd e, Some r => e = resp_err r
  | _, _ => False
  end.

(* a request that runs through in one piece *)
Lemma whole_srq_ok calls c f d s : good c f d -> c = true ->
  s_part s = whole_part f -> s_resp s = Some (f_resp f) -> srq_dispatched calls s = d -> srq_ok calls s.
Proof. intros [r|e r E|e r tok pos E] C P R D; unfold srq_ok; rewrite P, R; cbn; auto. Qed.

Lemma cont_srqs_ok calls k cl : nth_error calls k = Some cl -> clean_call cl = true ->
  Forall (srq_ok calls) (cont_srqs k cl).
Proof.
  intros Hnth C. unfold cont_srqs. apply Forall_forall. intros s Hin. apply in_map_iff in Hin as ([j f] & <- & Hin).
  destruct (conts_of_ok k cl j f Hin) as (it & NI & G).
  apply (whole_srq_ok _ _ _ _ _ G C); [reflexivity ..|]. unfold srq_dispatched. cbn. now rewrite Hnth, NI.
Qed.

(* only requests that reached the hook are ever suspended *)
Definition SkelInv (calls : list call) (st : sstate) : Prop :=
  forall k, In k (ss_run st) -> exists cl, nth_error calls k = Some cl /\ f_disp (first_fate k cl) = true.

Lemma SkelInv_init calls : SkelInv calls sinit.
Proof. intros k []. Qed.

Lemma mem_nat_In k l : mem_nat k l = true <-> In k l.
Proof. exact (existsb_eqb_In Nat.eqb Nat.eqb_eq k l). Qed.
Lemma In_rm x k l : In x (rm k l) -> In x l.
Proof.
  induction l as [|y r IH]; cbn; [tauto|]. destruct (Nat.eqb k y); [tauto|]. cbn. intros [E|Hin]; [now left|right; auto].
Qed.

Lemma sstep_inv calls st o : SkelInv calls st -> SkelInv calls (fst (sstep calls st o)).
Proof.
  intro R. destruct o as [k|k]; cbn; destruct (nth_error calls k) as [cl|] eqn:Hnth; try exact R.
  - destruct (mem_nat k (ss_run st) || mem_nat k (ss_done st)); [exact R|].
    destruct (f_disp (first_fate k cl) && f_gate (first_fate k cl)) eqn:G; cbn; [|exact R].
    intros j [E|Hin]; [subst j; exists cl; split; [exact Hnth|]; apply andb_true_iff in G; tauto|apply R, Hin].
  - destruct (mem_nat k (ss_run st)); [|exact R]. cbn. intros j Hin. apply R. eapply In_rm. exact Hin.
Qed.

Lemma sstep_ok calls st o : forallb clean_call calls = true -> SkelInv calls st ->
  Forall (srq_ok calls) (snd (sstep calls st o)).
Proof.
  intros CL R. destruct o as [k|k]; cbn; destruct (nth_error calls k) as [cl|] eqn:Hnth; try constructor.
  all: pose proof (forallb_nth _ _ _ _ CL Hnth) as C; pose proof (first_fate_good k cl) as FG.
  - destruct (mem_nat k (ss_run st) || mem_nat k (ss_done st)); [constructor|].
    destruct (f_disp (first_fate k cl) && f_gate (first_fate k cl)) eqn:G; cbn.
    + constructor; [|constructor]. unfold srq_ok, srq_dispatched. cbn. rewrite Hnth, <- (proj1 (started_iff_dispatched k cl)).
      apply andb_true_iff in G. tauto.
    + constructor; [|exact (cont_srqs_ok _ _ _ Hnth C)]. apply (whole_srq_ok _ _ _ _ _ FG C); [reflexivity ..|]. unfold srq_dispatched. cbn. now rewrite Hnth.
  - destruct (mem_nat k (ss_run st)) eqn:M; [|constructor]. cbn.
    constructor; [|exact (cont_srqs_ok _ _ _ Hnth C)]. unfold srq_ok. cbn.
    destruct (R k (proj1 (mem_nat_In _ _) M)) as (cl' & Hnth' & DF). rewrite Hnth in Hnth'. injection Hnth' as <-.
    exact (proj1 (good_ok _ _ _ FG) C DF).
Qed.

Lemma skel_ok calls sched : forallb clean_call calls = true -> forall st, SkelInv calls st ->
  Forall (Forall (srq_ok calls)) (snd (skel calls st sched)).
Proof.
  intro CL. induction sched as [|o r IH]; intros st R; cbn; [constructor|].
  pose proof (sstep_ok calls st o CL R) as Hstep. pose proof (sstep_inv calls st o R) as R1.
  destruct (sstep calls st o) as [st1 s]. cbn [fst snd] in *. specialize (IH st1 R1).
  destruct (skel calls st1 r) as [st2 ss]. cbn [snd] in *. constructor; assumption.
Qed.

Lemma seen_ok_saw (u : bool) out q : q_seen q = (if u then Some (cv_of out) else None) -> seen_ok (cv_of out) q = true.
Proof. unfold seen_ok. intros ->. destruct u; [apply Nat.eqb_refl|reflexivity]. Qed.

Lemma drq_shape hs h s calls : srq_ok calls s ->
  shape_ok calls (snd (drq hs h s)) = true /\ end_matches (snd (drq hs h s)) = true.
Proof.
  (* decide the request's part while the goal is small; shape_ok is opened on a record *)
  unfold srq_ok, srq_dispatched.
  destruct (s_part s) as [|e| |e] eqn:P; destruct (s_resp s) as [r|] eqn:R; try contradiction;
    unfold drq; rewrite P;
    [ | | | destruct (take_tok (s_k s) (h_tab h)) as [[[id out] rest]|]]; cbn [snd fst];
    unfold shape_ok, end_matches, rq_dispatched;
    cbn [q_phase q_begin q_evs q_resp q_k q_item]; rewrite R, ?hook_end_evs; unfold hook_start.
  - intros ->. split; reflexivity.
  - intros [-> ->].
    destruct (start_out hs (h_next h)) as [[tv cv]|] eqn:SO; cbn [app forallb andb].
    + rewrite Nat.eqb_refl, eqb_reflx. cbn [andb]. split; [|reflexivity].
      apply (seen_ok_saw (s_user s) (Some (tv, cv))). reflexivity.
    + split; [|reflexivity]. apply (seen_ok_saw (s_user s) None). reflexivity.
  - intros ->. split; reflexivity.
  - intros ->. destruct out as [[tv cv]|]; cbn [forallb andb].
    + rewrite Nat.eqb_refl, eqb_reflx. cbn [andb]. split; [|reflexivity].
      apply (seen_ok_saw (s_user s) (Some (tv, cv))). reflexivity.
    + split; [|reflexivity]. apply (seen_ok_saw (s_user s) None). reflexivity.
  - intros _. split; reflexivity.
Qed.

Lemma dseg_shape hs calls l : Forall (srq_ok calls) l -> forall h,
  forallb (shape_ok calls) (snd (dseg hs h l)) = true /\ forallb end_matches (snd (dseg hs h l)) = true.
Proof.
  induction 1 as [|s r Hs _ IH]; intro h; [split; reflexivity|].
  rewrite dseg_cons. cbn [snd forallb]. destruct (drq_shape hs h s calls Hs) as [-> ->]. apply IH.
Qed.

Lemma decorate_shape hs calls ll : Forall (Forall (srq_ok calls)) ll -> forall h,
  forallb (shape_ok calls) (concat (snd (decorate hs h ll))) = true
  /\ forallb end_matches (concat (snd (decorate hs h ll))) = true.
Proof.
  induction 1 as [|l r Hl _ IH]; intro h; [split; reflexivity|].
  rewrite decorate_cons. cbn [snd concat]. rewrite !forallb_app.
  destruct (dseg_shape hs calls l Hl h) as [-> ->]. apply IH.
Qed.

Lemma fr_eqb_eq a b : fr_eqb a b = true <-> a = b.
Proof.
  destruct a, b; cbn; split; intro H; try discriminate; try reflexivity.
  - apply Z.eqb_eq in H. now subst.
  - injection H as ->. apply Z.eqb_refl.
Qed.

Lemma resp_eqb_eq a b : resp_eqb a b = true <-> a = b.
Proof.
  destruct a as [s1 x1 p1 f1], b as [s2 x2 p2 f2]. unfold resp_eqb. cbn. split.
  - intro H. apply andb_true_iff in H as [H H4]. apply andb_true_iff in H as [H H3].
    apply andb_true_iff in H as [H1 H2]. apply N.eqb_eq in H1. apply eqb_prop in H2, H3.
    apply (list_eqb_eq _ (list_eqb_eq _ fr_eqb_eq)) in H4. now subst.
  - intro H. injection H as -> -> -> ->. rewrite N.eqb_refl, !eqb_reflx. cbn.
    apply (list_eqb_eq _ (list_eqb_eq _ fr_eqb_eq)). reflexivity.
Qed.

Lemma resps_eqb_refl l : list_eqb (list_eqb (opt_eqb resp_eqb)) l l = true.
Proof. apply (list_eqb_eq _ (list_eqb_eq _ (opt_eqb_eq _ resp_eqb_eq))). reflexivity. Qed.

Definition mk_call (http : bool) (k : mkind) (pv : pvflag) (nogob : bool) (ts : list tact) (ins : list citem) : call :=
  {| c_http := http; c_kind := k; c_pre := PreNone; c_pv := pv; c_badparams := false; c_sticky := false;
     c_init := OOk; c_nogob := nogob; c_turns := ts; c_inputs := ins; c_cancel := CNone |}.
Definition one_call (cl : call) : input := {| i_hooks := []; i_calls := [cl]; i_sched := [Begin 0; Finish 0] |}.

Definition w_gate := mk_call true KUnary PvBad false [] [].
Definition w_exch_nogob := mk_call true KExch PvOk true [] [ITick].
Definition w_prod_nogob := mk_call true KProd PvOk true [TEmit; TEmit; TEmit] [ITick].
Definition w_prod_badschema := mk_call true KProd PvOk false [TEmit; TBadSchema] [ITick].
Definition w_exch_badschema := mk_call true KExch PvOk false [TEmit; TBadSchema] [ITick; ITick].

(* what the pre-fix implementation produced for POST /unary with a mismatching version *)
Definition legacy_gate_obs : obs :=
  let r := http_resp 400 false [[FExc]] in
  {| o_run := [[{| q_k := 0; q_item := None; q_phase := PWhole; q_begin := None;
                  q_evs := [HStart 0 (Some (1, 0)); HEnd 1 true]; q_seen := None; q_resp := Some r |}]; []];
     o_ref := [[Some r]; []] |}.

(* the seeded regression (token dropped on the pipe when start returns a nil context):
   start 0 returns (nil ctx, token 1), the resumed half sees end with the nil token *)
Definition nilctx_hooks : list hbeh := [{| hb_sp := false; hb_ep := false; hb_ret := RNilCtx |}].
Definition nilctx_input : input :=
  {| i_hooks := nilctx_hooks; i_calls := [mk_call false KUnary PvOk false [] []]; i_sched := [Begin 0; Finish 0] |}.
Definition nilctx_dropped_obs : obs :=
  let r := pipe_resp [[FData 0]] in
  {| o_run := [[{| q_k := 0; q_item := None; q_phase := PBegin; q_begin := None;
                  q_evs := [HStart 0 (Some (1, 0))]; q_seen := None; q_resp := None |}];
               [{| q_k := 0; q_item := None; q_phase := PEnd; q_begin := Some (0, Some (1, 0));
                  q_evs := [HEnd 0 false]; q_seen := Some 0; q_resp := Some r |}]];
     o_ref := [[None]; [Some r]] |}.
Definition example_input : input :=
  {| i_hooks := [{| hb_sp := false; hb_ep := true; hb_ret := RNilCtx |}; {| hb_sp := true; hb_ep := false; hb_ret := RCtxTok |};
                 {| hb_sp := false; hb_ep := false; hb_ret := RDerived |}; {| hb_sp := false; hb_ep := false; hb_ret := RNilTok |}];
     i_calls := [mk_call false KUnary PvOk false [] [];
                 mk_call true KExch PvOk false [TEmit; TErr] [ITick; IBadToken; ITick; ITick]];
     i_sched := [Begin 0; Begin 1; Finish 0; Finish 1] |}.
(* the error flag in [http_prod]'s result *)
Definition prod_err (x : list fr * bool * bool * nat) : bool := snd (fst (fst x)).
