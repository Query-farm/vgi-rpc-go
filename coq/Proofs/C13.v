(* Proofs/C13.v — the AAD framing: a NUL-free domain followed by a NUL separator splits
   uniquely, so the identity bytes are injective on valid identities, and the prefixes separate
   {Call} from {Cursor, Sticky}.  Under an ideal AEAD a minted token therefore opens at a slot
   only under the associated data it was sealed with ([aead_open_env], [open_slot_payload]).
   Histories: [inv] ties the state's tokens to their provenances and, with [sess_ok], the
   registry to the sessions opened and torn down; [owned_inv] says every call id has one owner
   and every cache entry was stored under it. *)
From VR Require Import Model.C13 Lib.Lists.
Open Scope N_scope.

Lemma nul_free_cons c s : nul_free (c :: s) = true <-> c <> 0 /\ nul_free s = true.
Proof.
  unfold nul_free; cbn [forallb]. rewrite andb_true_iff, negb_true_iff, N.eqb_neq. tauto.
Qed.

Lemma split_at_nul a b x y :
  nul_free a = true -> nul_free b = true ->
  a ++ 0 :: x = b ++ 0 :: y -> a = b /\ x = y.
Proof.
  assert (F : forall s, nul_free s = true -> ~ In 0 s).
  { intros s H Hin. apply (proj1 (forallb_forall _ _) H) in Hin. discriminate Hin. }
  intros Ha Hb. apply app_sep_inj; auto.
Qed.

(* the constants are regenerated from the Go code: a change of framing there breaks these *)
Lemma anon_tail_head : exists t, aad_anon_tail = 0 :: t.
Proof. eexists. reflexivity. Qed.
Lemma auth_tag_is_1 : aad_auth_tag = [1].
Proof. reflexivity. Qed.
Lemma sep_is_nul : aad_sep = [0] /\ ck_sep = [0] /\ ck_join = [0] /\ pk_sep = [0].
Proof. repeat split; reflexivity. Qed.

Lemma ident_bytes_inj i1 i2 :
  valid_ident i1 = true -> valid_ident i2 = true ->
  ident_bytes i1 = ident_bytes i2 -> i1 = i2.
Proof.
  destruct anon_tail_head as [t Ht].
  destruct i1 as [|d1 p1], i2 as [|d2 p2]; cbn [valid_ident ident_bytes]; intros V1 V2 H.
  - reflexivity.
  - rewrite Ht, auth_tag_is_1 in H. cbn [app] in H. discriminate.
  - rewrite Ht, auth_tag_is_1 in H. cbn [app] in H. discriminate.
  - rewrite auth_tag_is_1 in H. destruct sep_is_nul as [Hs _]. rewrite Hs in H.
    cbn [app] in H. injection H as H.
    destruct (split_at_nul _ _ _ _ V1 V2 H) as [-> ->]. reflexivity.
Qed.

(* the call prefix and the cursor prefix (which is also the sticky one) differ at a byte
   both have, so neither AAD can continue the other *)
Lemma prefixes_separate k1 k2 x y :
  prefix_of k1 ++ x = prefix_of k2 ++ y -> aad_family k1 = aad_family k2.
Proof. destruct k1, k2; intros H; try reflexivity; discriminate H. Qed.

Lemma aad_family_prefix k1 k2 : aad_family k1 = aad_family k2 -> prefix_of k1 = prefix_of k2.
Proof. destruct k1, k2; intros F; try discriminate F; reflexivity. Qed.

Lemma token_aad_inj k1 k2 i1 i2 :
  valid_ident i1 = true -> valid_ident i2 = true ->
  token_aad k1 i1 = token_aad k2 i2 ->
  aad_family k1 = aad_family k2 /\ i1 = i2.
Proof.
  intros V1 V2 H. unfold token_aad in H.
  pose proof (prefixes_separate _ _ _ _ H) as F. split; [exact F|].
  rewrite (aad_family_prefix _ _ F) in H. apply app_inv_head in H.
  exact (ident_bytes_inj _ _ V1 V2 H).
Qed.

Lemma kind_eqb_eq a b : kind_eqb a b = true <-> a = b.
Proof. destruct a, b; cbn; split; intros H; try reflexivity; discriminate. Qed.

Lemma as_minted_separated k slot :
  version_of k = version_of slot -> aad_family k = aad_family slot -> k = slot.
Proof. destruct k, slot; intros V F; try reflexivity; discriminate V || discriminate F. Qed.

Lemma ident_eqb_eq a b : ident_eqb a b = true <-> a = b.
Proof.
  destruct a as [|d p], b as [|d' p']; cbn [ident_eqb]; split; intros H; try reflexivity; try discriminate.
  - apply andb_true_iff in H as [H1 H2]. apply beqb_eq in H1, H2. now subst.
  - inversion H; subst. now rewrite !beqb_refl.
Qed.

Lemma has_key_keys k es :
  has_key k (keys es) = true <-> exists e, In e es /\ cache_key (fst e) (snd e) = k.
Proof.
  unfold has_key, keys. rewrite existsb_beqb_In, in_map_iff. split; intros [e [A B]]; eauto.
Qed.

Lemma cache_key_callid c c' i i' :
  nul_free c = true -> nul_free c' = true -> cache_key c i = cache_key c' i' ->
  c = c' /\ cache_ident i = cache_ident i'.
Proof.
  unfold cache_key. destruct sep_is_nul as [_ [_ [-> _]]]. cbn [app].
  intros Hc Hc' H. exact (split_at_nul _ _ _ _ Hc Hc' H).
Qed.

(* the symbolic AEAD meets both premises *)
Lemma sym_open_seal n a p : sym_open a (sym_seal n a p) = Some p.
Proof. unfold sym_open, sym_seal. now rewrite beqb_refl. Qed.

Lemma sym_open_binds n a a' p p' : sym_open a' (sym_seal n a p) = Some p' -> a' = a.
Proof.
  unfold sym_open, sym_seal. destruct (beqb a' a) eqn:E; [|discriminate].
  intros _. now apply beqb_eq.
Qed.

Section Generic.
  Variable CT : Type.
  Variable seal : N -> bytes -> payload -> CT.
  Variable open : bytes -> CT -> option payload.
  Hypothesis open_seal : forall n a p, open a (seal n a p) = Some p.
  Hypothesis open_binds : forall n a a' p p', open a' (seal n a p) = Some p' -> a' = a.

  Notation mint := (mint CT seal).
  Notation aead_open := (aead_open CT open).
  Notation open_slot := (open_slot CT open).
  Notation continue_dec := (continue_dec CT open).
  Notation resolve_dec := (resolve_dec CT open).
  Notation resume_dec := (resume_dec CT open).
  Notation teardown_dec := (teardown_dec CT open).
  Notation env := (env CT).

  Lemma open_sealed a n a' p : open a (seal n a' p) = if beqb a a' then Some p else None.
  Proof.
    destruct (beqb a a') eqn:E.
    - apply beqb_eq in E. subst. apply open_seal.
    - destruct (open a (seal n a' p)) eqn:Hopen; [|reflexivity].
      apply open_binds in Hopen. subst. rewrite beqb_refl in E. discriminate.
  Qed.

  (* envelope + AEAD layer on a minted token, either presentation: the version byte is
     looked at only when the token comes as minted, the associated data always *)
  Lemma aead_open_env re slot j k i n id :
    aead_open slot j (env re slot (mint k i n id))
    = if (re || (version_of k =? version_of slot)) && beqb (token_aad slot j) (token_aad k i)
      then Some {| pl_kind := k; pl_id := id |} else None.
  Proof.
    destruct re; cbn [env orb]; unfold C13.aead_open, C13.reenvelope, C13.mint; cbn [t_ver t_ct];
      rewrite ?N.eqb_refl, open_sealed; [reflexivity|]. now destruct (_ =? _).
  Qed.

  Lemma open_slot_payload re slot j k i n id x :
    open_slot slot j (env re slot (mint k i n id)) = Some x ->
    k = slot /\ x = id /\ token_aad slot j = token_aad k i.
  Proof.
    unfold C13.open_slot. rewrite aead_open_env.
    destruct (_ && beqb _ _) eqn:E; [|discriminate]. cbn [pl_kind pl_id].
    destruct (kind_eqb k slot) eqn:K; [|discriminate]. intros [= <-].
    apply andb_true_iff in E as [_ E]. apply beqb_eq in E. apply kind_eqb_eq in K. auto.
  Qed.

  (* correctness of the AEAD alone makes an identity's own token open *)
  Lemma open_slot_own re slot j n id : open_slot slot j (env re slot (mint slot j n id)) = Some id.
  Proof.
    unfold C13.open_slot.
    assert (A : aead_open slot j (env re slot (mint slot j n id)) = Some {| pl_kind := slot; pl_id := id |}).
    { destruct re; cbn [env]; unfold C13.aead_open, C13.reenvelope, C13.mint; cbn [t_ver t_ct];
        now rewrite N.eqb_refl, open_seal. }
    rewrite A. cbn [pl_kind pl_id]. now rewrite (proj2 (kind_eqb_eq slot slot) eq_refl).
  Qed.

  Lemma open_slot_iff re slot j k i n id x :
    valid_ident i = true -> valid_ident j = true ->
    open_slot slot j (env re slot (mint k i n id)) = Some x <-> (k = slot /\ i = j /\ x = id).
  Proof.
    intros Vi Vj. split.
    - intros Hopen. apply open_slot_payload in Hopen as [-> [-> E]].
      destruct (token_aad_inj _ _ _ _ Vj Vi E) as [_ ->]. auto.
    - intros [-> [-> ->]]. apply open_slot_own.
  Qed.

  Lemma continue_some cache j tc tk c p :
    continue_dec cache j tc tk = Some (c, p) -> open_slot Cursor j tc = Some c.
  Proof.
    unfold C13.continue_dec. destruct (open_slot Cursor j tc) as [x|]; [|discriminate].
    destruct (resolve_dec cache j x tk); [|discriminate]. now intros [= -> _].
  Qed.

  Lemma continue_echo cache j re re' n m c :
    continue_dec cache j (env re Cursor (mint Cursor j n c)) (Some (env re' Call (mint Call j m c)))
    = Some (c, negb (has_key (cache_key c j) cache)).
  Proof.
    unfold C13.continue_dec, C13.resolve_dec. rewrite open_slot_own.
    destruct (has_key (cache_key c j) cache); [reflexivity|].
    now rewrite open_slot_own, beqb_refl.
  Qed.

  Lemma resume_own_accepts reg j re n sid :
    In (sid, principal_key j) reg -> resume_dec reg j (env re Sticky (mint Sticky j n sid)) = true.
  Proof.
    intros Hin. unfold C13.resume_dec. rewrite open_slot_own.
    apply existsb_exists. exists (sid, principal_key j). split; [exact Hin|].
    cbn [fst snd]. now rewrite !beqb_refl.
  Qed.

  Lemma resume_is_teardown reg j t : resume_dec reg j t = is_some (teardown_dec reg j t).
  Proof.
    unfold C13.resume_dec, C13.teardown_dec. destruct (open_slot Sticky j t); [|reflexivity].
    destruct (existsb _ reg); reflexivity.
  Qed.

  Lemma teardown_some reg j re k i n sid x :
    teardown_dec reg j (env re Sticky (mint k i n sid)) = Some x ->
    k = Sticky /\ x = sid /\ token_aad Sticky j = token_aad k i /\ exists e, In e reg /\ fst e = sid.
  Proof.
    unfold C13.teardown_dec.
    destruct (open_slot Sticky j (env re Sticky (mint k i n sid))) as [y|] eqn:Hopen; [|discriminate].
    apply open_slot_payload in Hopen as [-> [-> E]].
    destruct (existsb _ reg) eqn:X; [|discriminate]. intros [= <-].
    apply existsb_exists in X as [e [He Hb]]. apply andb_true_iff in Hb as [Hb _]. apply beqb_eq in Hb.
    repeat split; [exact E|]. exists e. split; assumption.
  Qed.

  Lemma teardown_own reg j re n sid :
    In (sid, principal_key j) reg -> teardown_dec reg j (env re Sticky (mint Sticky j n sid)) = Some sid.
  Proof.
    intros Hin. pose proof (resume_own_accepts reg j re n sid Hin) as R.
    unfold C13.resume_dec, C13.teardown_dec in *. rewrite open_slot_own in *. now rewrite R.
  Qed.

  Variable ids : list raw_ident.

  Notation step := (step CT seal open ids).
  Notation run := (run CT seal open ids).
  Notation deref := (deref CT).

  Lemma sessid_inj m m' : sessid m = sessid m' -> m = m'.
  Proof. unfold sessid. intros H. inversion H. lia. Qed.

  Lemma has_key_cons k x l : has_key k (x :: l) = beqb k x || has_key k l.
  Proof. reflexivity. Qed.

  Record sess_ok (reg : list (bytes * bytes)) (ptoks : list prov) (ns : nat) (dead : list bytes) : Prop := {
    so_live : forall i sid, In (Sticky, i, sid) ptoks -> has_key sid dead = false -> In (sid, principal_key i) reg;
    so_dead : forall sid, has_key sid dead = true -> forall e, In e reg -> fst e <> sid;
    so_below : forall sid, has_key sid dead = true \/ (exists e, In e reg /\ fst e = sid) ->
               exists m, (m < ns)%nat /\ sid = sessid m }.

  Lemma sess_ok_more reg ptoks ns dead ps :
    (forall i sid, ~ In (Sticky, i, sid) ps) -> sess_ok reg ptoks ns dead -> sess_ok reg (ptoks ++ ps) ns dead.
  Proof.
    intros Hps [Hl Hd Hb]. constructor; auto.
    intros i sid Hin. apply in_app_or in Hin as [Hin|Hin]; [auto | now destruct (Hps i sid)].
  Qed.

  Lemma sess_ok_open reg ptoks ns dead i :
    sess_ok reg ptoks ns dead ->
    sess_ok ((sessid ns, principal_key i) :: reg) (ptoks ++ [(Sticky, i, sessid ns)]) (S ns) dead.
  Proof.
    intros [Hl Hd Hb]. constructor.
    - intros i' sid Hin D. apply in_app_or in Hin as [Hin|[[= <- <-]|[]]]; [right; auto | now left].
    - (* the new id was never torn down: a dead id is below ns *)
      intros sid D e [<-|He]; [|eauto]. cbn [fst]. intros <-.
      destruct (Hb _ (or_introl D)) as [m [Hm E]]. apply sessid_inj in E. lia.
    - intros sid [D|[e [[<-|He] <-]]].
      + destruct (Hb sid (or_introl D)) as [m [Hm E]]. exists m. split; [lia|exact E].
      + exists ns. split; [lia|reflexivity].
      + destruct (Hb (fst e)) as [m [Hm E]]; [eauto|]. exists m. split; [lia|exact E].
  Qed.

  (* sessionRegistry.close(sid) *)
  Lemma sess_ok_teardown reg ptoks ns dead sid :
    (exists e, In e reg /\ fst e = sid) -> sess_ok reg ptoks ns dead ->
    sess_ok (filter (fun e => negb (beqb (fst e) sid)) reg) ptoks ns (sid :: dead).
  Proof.
    intros Hin [Hl Hd Hb]. constructor.
    - intros i' sid' Hin' D. rewrite has_key_cons in D. apply orb_false_iff in D as [D1 D2].
      apply filter_In. split; [auto|]. cbn [fst]. now rewrite D1.
    - intros sid' D e He Hf. apply filter_In in He as [He Hn].
      rewrite has_key_cons in D. apply orb_true_iff in D as [D|D].
      + apply beqb_eq in D. subst sid'. rewrite Hf, beqb_refl in Hn. discriminate.
      + exact (Hd sid' D e He Hf).
    - intros sid' [D|[e [He Hf]]].
      + rewrite has_key_cons in D. apply orb_true_iff in D as [D|D]; [|auto].
        apply beqb_eq in D. subst sid'. auto.
      + apply filter_In in He as [He _]. eauto.
  Qed.

  Definition tok_prov (t : token CT) (p : prov) : Prop :=
    let '(k, i, id) := p in exists n, t = mint k i n id.

  Record inv (s : st CT) (ptoks : list prov) (plast : option prov) (dead : list bytes) : Prop := {
    inv_toks : Forall2 tok_prov (s_toks CT s) ptoks;
    inv_last : match s_last CT s, plast with
               | Some t, Some p => tok_prov t p /\ fst (fst p) = Cursor
               | None, None => True
               | _, _ => False
               end;
    inv_sess : sess_ok (s_reg CT s) ptoks (s_nsess CT s) dead }.

  Lemma deref_cases s ptoks plast dead slot r :
    inv s ptoks plast dead ->
    match pderef ptoks plast r with
    | Some (k, i, id) => exists n re, deref s slot r = Some (env re slot (mint k i n id))
    | None => deref s slot r = None
    end.
  Proof.
    intros Hinv. destruct r as [|id re|re]; cbn [pderef C13.deref].
    - reflexivity.
    - pose proof (Forall2_nth _ _ _ (inv_toks _ _ _ _ Hinv) id) as H.
      destruct (nth_error (s_toks CT s) id) as [t|], (nth_error ptoks id) as [[[k i] x]|]; try contradiction; auto.
      destruct H as [n ->]. exists n, re. reflexivity.
    - pose proof (inv_last _ _ _ _ Hinv) as H.
      destruct (s_last CT s) as [t|], plast as [[[k i] x]|]; try contradiction; auto.
      destruct H as [[n ->] _]. exists n, re. reflexivity.
  Qed.

  Lemma pderef_sticky_in ptoks plast r i sid s dead :
    inv s ptoks plast dead -> pderef ptoks plast r = Some (Sticky, i, sid) -> In (Sticky, i, sid) ptoks.
  Proof.
    intros Hinv. destruct r as [|id re|re]; cbn [pderef]; intros H.
    - discriminate.
    - eapply nth_error_In; eauto.
    - pose proof (inv_last _ _ _ _ Hinv) as L. rewrite H in L.
      destruct (s_last CT s); [|contradiction]. destruct L as [_ L]. discriminate L.
  Qed.

  Lemma safe_own slot j i x :
    token_aad slot j = token_aad slot i -> safe slot j (Some (slot, i, x)) true = true.
  Proof.
    intros E. cbn [safe]. unfold both_valid.
    destruct (valid_ident i) eqn:Vi, (valid_ident j) eqn:Vj; cbn [andb]; auto.
    destruct (token_aad_inj _ _ _ _ Vj Vi E) as [_ ->].
    now rewrite (proj2 (kind_eqb_eq slot slot) eq_refl), (proj2 (ident_eqb_eq i i) eq_refl).
  Qed.

  (* the decision on a session token presented by [j], on either route (a resume accepts iff a
     teardown would, [resume_is_teardown]): [sticky_spec] holds of it, and an accepted teardown
     closes a registered session, the one whose id the token carries *)
  Lemma sticky_ok s ptoks plast dead tok j :
    inv s ptoks plast dead ->
    let p := pderef ptoks plast tok in
    match match deref s Sticky tok with Some t => teardown_dec (s_reg CT s) j t | None => None end with
    | Some x => sticky_spec j p dead true = true /\ (exists k i, p = Some (k, i, x))
                /\ exists e, In e (s_reg CT s) /\ fst e = x
    | None => sticky_spec j p dead false = true
    end.
  Proof.
    intros Hinv p. subst p. pose proof (deref_cases _ _ _ _ Sticky tok Hinv) as Dt.
    destruct (pderef ptoks plast tok) as [[[k i] sid]|] eqn:Pt; [|now rewrite Dt].
    destruct Dt as [n [re ->]]. unfold sticky_spec.
    destruct (teardown_dec (s_reg CT s) j (env re Sticky (mint k i n sid))) as [x|] eqn:T.
    - apply teardown_some in T as [-> [-> [E [e [He Hf]]]]].
      split; [|split; [exists Sticky, i; reflexivity | exists e; split; assumption]].
      rewrite (safe_own _ _ _ _ E). cbn [andb].
      destruct (has_key sid dead) eqn:D; [destruct (so_dead _ _ _ _ (inv_sess _ _ _ _ Hinv) sid D e He Hf)|].
      now destruct (ident_eqb i j).
    - cbn [safe andb]. destruct k; auto.
      destruct (has_key sid dead) eqn:D; [reflexivity|].
      destruct (ident_eqb i j) eqn:E; auto. apply ident_eqb_eq in E. subst i.
      rewrite teardown_own in T; [discriminate|].
      apply (so_live _ _ _ _ (inv_sess _ _ _ _ Hinv)); auto. eapply pderef_sticky_in; eauto.
  Qed.

  Lemma spec_run_holds ops : forall s ptoks plast dead,
    inv s ptoks plast dead ->
    spec_run ids ops (run s ops) ptoks (s_ncalls CT s) (s_nsess CT s) plast dead = true.
  Proof.
    induction ops as [|o ops IH]; intros s ptoks plast dead Hinv; [reflexivity|].
    cbn [C13.run]. destruct (step s o) as [s' b] eqn:St. specialize (IH s').
    destruct o as [who|who| |who cur call|who idx call|who tok|who tok]; cbn [C13.step] in St.
    - (* OInit *)
      injection St as <- <-. cbn [spec_run andb]. apply IH. destruct Hinv as [It Il Iso].
      constructor; cbn [s_nsess s_toks s_last s_reg]; auto.
      + apply Forall2_app; [exact It|]. repeat constructor; cbn; eexists; reflexivity.
      + apply sess_ok_more; [|exact Iso]. intros i sid [H|[H|[]]]; discriminate.
    - (* OOpen *)
      injection St as <- <-. cbn [spec_run andb]. apply IH. destruct Hinv as [It Il Iso].
      constructor; cbn [s_nsess s_toks s_last s_reg]; auto.
      + apply Forall2_app; [exact It|]. repeat constructor; cbn; eexists; reflexivity.
      + apply sess_ok_open, Iso.
    - (* OReset *)
      injection St as <- <-. cbn [spec_run andb]. apply IH. destruct Hinv. constructor; auto.
    - (* OContinue *)
      cbn [spec_run].
      pose proof (deref_cases _ _ _ _ Cursor cur Hinv) as Dc.
      pose proof (deref_cases _ _ _ _ Call call Hinv) as Dk.
      set (j := idof ids who) in *.
      destruct (pderef ptoks plast cur) as [[[k i] c]|] eqn:Pc.
      2:{ rewrite Dc in St. injection St as <- <-. apply IH, Hinv. }
      destruct Dc as [n [re Dc]]. rewrite Dc in St.
      destruct (continue_dec (s_cache CT s) j (env re Cursor (mint k i n c)) (deref s Call call))
        as [[c' p]|] eqn:CD; injection St as <- <-.
      + (* accepted: the cursor slot opened, so the token is a cursor sealed under j's AAD *)
        apply continue_some in CD.
        apply open_slot_payload in CD as [-> [-> E]].
        apply andb_true_iff; split; [apply andb_true_iff; split; [apply safe_own, E|]|].
        { destruct (pderef ptoks plast call) as [[[[] ?] ?]|]; auto. destruct (_ && _); auto. }
        apply IH. destruct Hinv as [It Il Iso]. constructor; cbn [s_nsess s_toks s_last s_reg]; auto.
        split; [eexists; reflexivity | reflexivity].
      + (* refused: then it was not the presenter's own cursor with the echoed call token *)
        cbn [safe andb]. apply andb_true_iff; split; [|apply IH, Hinv].
        destruct k; auto.
        destruct (pderef ptoks plast call) as [[[[] i'] c0]|] eqn:Pk; auto.
        destruct (ident_eqb i j && ident_eqb i' j && beqb c c0) eqn:E; auto. exfalso.
        apply andb_true_iff in E as [E E3]. apply andb_true_iff in E as [E1 E2].
        apply ident_eqb_eq in E1, E2. apply beqb_eq in E3. subst i i' c0.
        destruct Dk as [m [re' Dk]]. rewrite Dk in CD.
        rewrite continue_echo in CD. discriminate CD.
    - (* OResolveRaw *)
      cbn [spec_run].
      destruct (resolve_dec (s_cache CT s) (idof ids who) (callid idx) (deref s Call call)) as [p|];
        injection St as <- <-; apply IH; [|exact Hinv].
      destruct Hinv. constructor; auto.
    - (* OResume *)
      cbn [spec_run]. pose proof (sticky_ok _ _ _ _ tok (idof ids who) Hinv) as SS. cbv zeta in SS.
      destruct (deref s Sticky tok) as [t|]; injection St as <- <-.
      + rewrite resume_is_teardown.
        destruct (teardown_dec (s_reg CT s) (idof ids who) t); [destruct SS as [SS _]|];
          cbn [is_some]; rewrite SS; apply IH, Hinv.
      + rewrite SS. apply IH, Hinv.
    - (* OTeardown *)
      cbn [spec_run]. pose proof (sticky_ok _ _ _ _ tok (idof ids who) Hinv) as SS. cbv zeta in SS.
      destruct (deref s Sticky tok) as [t|]; [|injection St as <- <-; rewrite SS; apply IH, Hinv].
      destruct (teardown_dec (s_reg CT s) (idof ids who) t) as [x|]; injection St as <- <-.
      2:{ rewrite SS. apply IH, Hinv. }
      destruct SS as [SS [[k [i E]] Hin]]. rewrite SS, E. apply IH. destruct Hinv as [It Il Iso].
      constructor; cbn [s_nsess s_toks s_last s_reg]; auto. now apply sess_ok_teardown.
  Qed.

  Lemma inv0 : inv (st0 CT) [] None [].
  Proof.
    constructor; cbn; auto. constructor; [intros ? ? []|discriminate|intros ? [D|[? [[] _]]]; discriminate D].
  Qed.

  Hypothesis ids_valid : Forall (fun r => valid_ident (norm r) = true) ids.
  Notation exec := (exec CT seal open ids).

  Lemma idof_valid w : valid_ident (idof ids w) = true.
  Proof.
    unfold idof. destruct (nth_in_or_default w ids RNil) as [H | E]; [|rewrite E; reflexivity].
    rewrite Forall_forall in ids_valid. exact (ids_valid _ H).
  Qed.

  Lemma callid_inj m m' : callid m = callid m' -> m = m'.
  Proof. unfold callid. intros H. inversion H. lia. Qed.

  Lemma callid_nul_free m : nul_free (callid m) = true.
  Proof. unfold callid. apply nul_free_cons. split; [lia | reflexivity]. Qed.

  Definition owned (ow : list ident) (c : bytes) (i : ident) : Prop :=
    exists m, c = callid m /\ nth_error ow m = Some i.

  (* whoever opens the token at a cursor or call slot owns the id it carries *)
  Definition tok_ok (ow : list ident) (t : token CT) : Prop :=
    forall re slot j x, slot <> Sticky -> valid_ident j = true ->
    open_slot slot j (env re slot t) = Some x -> owned ow x j.

  Definition cache_owned (ow : list ident) (cache : list bytes) : Prop :=
    exists es, cache = keys es /\ forall e, In e es -> owned ow (fst e) (snd e).

  (* [ow] lists the owners of the whole history, [rest] those of the /init's still to come:
     ownership is read in [ow] from the start, so nothing changes when a call id is issued *)
  Record owned_inv (s : st CT) (ow rest : list ident) : Prop := {
    owned_n : exists pre, ow = pre ++ rest /\ s_ncalls CT s = length pre;
    owned_toks : forall t, In t (s_toks CT s) \/ s_last CT s = Some t -> tok_ok ow t;
    owned_cache : cache_owned ow (s_cache CT s) }.

  Lemma mint_ok ow k i n id :
    valid_ident i = true -> (k <> Sticky -> owned ow id i) -> tok_ok ow (mint k i n id).
  Proof.
    intros Vi Ho re slot j x Hs Vj Hopen.
    apply open_slot_payload in Hopen as [-> [-> E]].
    destruct (token_aad_inj _ _ _ _ Vj Vi E) as [_ ->]. auto.
  Qed.

  Lemma cache_owned_put ow cache c i :
    cache_owned ow cache -> owned ow c i -> cache_owned ow (put (cache_key c i) cache).
  Proof.
    intros [es [-> H]] Ho. unfold put. destruct (has_key _ _); [exists es; auto|].
    exists ((c, i) :: es). split; [reflexivity|]. intros e [<-|He]; auto.
  Qed.

  Lemma deref_src s slot r t :
    deref s slot r = Some t ->
    exists re t0, t = env re slot t0 /\ (In t0 (s_toks CT s) \/ s_last CT s = Some t0).
  Proof.
    destruct r as [|id re|re]; cbn [C13.deref]; intros H.
    - discriminate.
    - destruct (nth_error (s_toks CT s) id) as [t0|] eqn:E; [|discriminate].
      inversion H. exists re, t0. split; [reflexivity|]. left. eapply nth_error_In; eauto.
    - destruct (s_last CT s) as [t0|] eqn:E; [|discriminate].
      inversion H. exists re, t0. auto.
  Qed.

  Lemma opened_is_owned s ow rest slot r t j x :
    owned_inv s ow rest -> slot <> Sticky -> valid_ident j = true ->
    deref s slot r = Some t -> open_slot slot j t = Some x -> owned ow x j.
  Proof.
    intros [_ Jt _] Hs Vj D Hopen. apply deref_src in D as [re [t0 [-> Src]]].
    exact (Jt t0 Src re slot j x Hs Vj Hopen).
  Qed.

  Lemma step_owned_inv s ow rest o :
    owned_inv s ow (owners ids [o] ++ rest) -> owned_inv (fst (step s o)) ow rest.
  Proof.
    intros Js. pose proof Js as [Jn Jt Jc].
    destruct o as [who|who| |who cur call|who idx call|who tok|who tok];
      cbn [C13.step owners fst app] in *.
    - (* OInit: the new call id sits where [rest] begins *)
      set (i := idof ids who) in *. set (c := callid (s_ncalls CT s)).
      destruct Jn as [pre [-> Jn]].
      assert (Own : owned (pre ++ i :: rest) c i).
      { exists (s_ncalls CT s). split; [reflexivity|]. rewrite Jn, nth_error_app2, Nat.sub_diag; auto. }
      constructor; cbn [s_ncalls s_toks s_last s_cache].
      + exists (pre ++ [i]). rewrite <- app_assoc, app_length, Jn. split; [reflexivity | cbn; lia].
      + intros t [H|H]; auto.
        apply in_app_or in H as [H|[<-|[<-|[]]]]; auto; apply mint_ok; auto; apply idof_valid.
      + apply cache_owned_put; assumption.
    - (* OOpen *)
      constructor; cbn [s_ncalls s_toks s_last s_cache]; auto.
      intros t [H|H]; auto. apply in_app_or in H as [H|[<-|[]]]; auto.
      apply mint_ok; [apply idof_valid | congruence].
    - (* OReset *)
      constructor; cbn [s_ncalls s_toks s_last s_cache]; auto.
      exists []. split; [reflexivity|]. intros e [].
    - (* OContinue *)
      set (j := idof ids who).
      destruct (deref s Cursor cur) as [tc|] eqn:D; [|exact Js].
      destruct (continue_dec (s_cache CT s) j tc (deref s Call call)) as [[c p]|] eqn:CD; [|exact Js].
      assert (Hc : owned ow c j)
        by (apply continue_some in CD; eapply opened_is_owned; eauto using idof_valid; discriminate).
      constructor; cbn [s_ncalls s_toks s_last s_cache]; auto.
      + intros t [H|[= <-]]; auto. apply mint_ok; auto; apply idof_valid.
      + destruct p; [apply cache_owned_put; assumption | exact Jc].
    - (* OResolveRaw *)
      set (j := idof ids who).
      destruct (resolve_dec (s_cache CT s) j (callid idx) (deref s Call call)) as [p|] eqn:RD;
        [|exact Js].
      constructor; cbn [s_ncalls s_toks s_last s_cache]; auto.
      destruct p; [|exact Jc]. apply cache_owned_put; [exact Jc|].
      (* the miss path stored it: the call token in the slot opened for j as this call's *)
      unfold C13.resolve_dec in RD.
      destruct (has_key (cache_key (callid idx) j) (s_cache CT s)); [discriminate|].
      destruct (deref s Call call) as [tk|] eqn:D; [|discriminate].
      destruct (open_slot Call j tk) as [x|] eqn:Hopen; [|discriminate].
      destruct (beqb x (callid idx)) eqn:B; [|discriminate]. apply beqb_eq in B. subst x.
      eapply opened_is_owned; eauto using idof_valid; discriminate.
    - (* OResume *)
      destruct (deref s Sticky tok); exact Js.
    - (* OTeardown: the registry changes, tokens and cache do not *)
      destruct (deref s Sticky tok) as [t|]; [|exact Js].
      destruct (teardown_dec (s_reg CT s) (idof ids who) t); [|exact Js]. constructor; auto.
  Qed.

  Lemma exec_owned_inv ops : forall s ow, owned_inv s ow (owners ids ops) -> owned_inv (exec s ops) ow [].
  Proof.
    induction ops as [|o ops IH]; intros s ow Js; cbn [C13.exec]; [exact Js|].
    apply IH, step_owned_inv. destruct o; exact Js.
  Qed.

  Lemma owned_inv0 ow : owned_inv (st0 CT) ow ow.
  Proof.
    constructor; cbn.
    - now exists [].
    - intros t [[]|H]; discriminate.
    - exists []. split; [reflexivity|]. intros e [].
  Qed.

  (* the n-th call id belongs to the identity of the n-th /init: a total owner function *)
  Definition owner_of (ops : list op) (c : bytes) : ident :=
    match c with
    | [b] => nth (N.to_nat (b - 1)) (owners ids ops) Anon
    | _ => Anon
    end.

  Lemma owner_of_valid ops c : valid_ident (owner_of ops c) = true.
  Proof.
    unfold owner_of. destruct c as [|b [|? ?]]; try reflexivity.
    destruct (nth_in_or_default (N.to_nat (b - 1)) (owners ids ops) Anon) as [H | E]; [|rewrite E; reflexivity].
    revert H. generalize (nth (N.to_nat (b - 1)) (owners ids ops) Anon). intros i.
    induction ops as [|o ops IH]; cbn [owners]; [intros []|].
    destruct o; cbn [In]; auto. intros [<-|H]; [apply idof_valid | auto].
  Qed.
End Generic.
