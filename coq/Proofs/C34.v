(* The table is a chain of disjoint non-empty regions between the header and the end of the
   segment ([chain], [Inv]).  Under it the wrapping 64-bit operations of the model are the
   exact ones, so [alloc] is first fit over the gaps ([alloc_from_spec]) and [free] removes
   the region that starts at the offset ([free_eq_spec]); every step keeps it ([step_spec]). *)
From VR Require Import Model.C34 Lib.Strs Lib.Lists Lib.Ints.
From Coq Require Import ZifyBool Permutation.
Open Scope N_scope.

(* every region starts at or after the end of its predecessor (the first one at
   or after [lo]), is non-empty, and the last one ends at or before [hi] *)
Fixpoint chain (lo hi : N) (t : tbl) : Prop :=
  match t with
  | [] => lo <= hi
  | (o, l) :: r => lo <= o /\ 0 < l /\ chain (o + l) hi r
  end.

Definition Inv (size : N) (t : tbl) : Prop :=
  chain HDR size t /\ N.of_nat (length t) <= MAXA /\ size < W.

Lemma chain_b_iff lo hi t : chain_b lo hi t = true <-> chain lo hi t.
Proof.
  revert lo; induction t as [|[o l] r IH]; intro lo; cbn [chain_b chain].
  - lia.
  - rewrite !andb_true_iff, IH, N.leb_le, N.ltb_lt. tauto.
Qed.

Lemma inv_b_iff size t : inv_b size t = true <-> Inv size t.
Proof. unfold inv_b, Inv. rewrite !andb_true_iff, chain_b_iff, N.leb_le, N.ltb_lt. tauto. Qed.

Lemma chain_le lo hi t : chain lo hi t -> lo <= hi.
Proof.
  revert lo; induction t as [|[o l] r IH]; intro lo; cbn [chain]; [lia|].
  intros (H1 & H2 & H3). apply IH in H3. lia.
Qed.

Lemma chain_mono lo lo' hi t : lo' <= lo -> chain lo hi t -> chain lo' hi t.
Proof. destruct t as [|[o l] r]; cbn [chain]; intuition lia. Qed.

Definition inside (lo hi : N) (e : N * N) : Prop := lo <= fst e /\ 0 < snd e /\ fst e + snd e <= hi.
Definition before (a b : N * N) : Prop := fst a + snd a <= fst b.

Lemma chain_facts lo hi t :
  chain lo hi t -> Forall (inside lo hi) t /\ ForallOrdPairs before t.
Proof.
  revert lo; induction t as [|[o l] r IH]; intro lo; cbn [chain].
  - intros _. split; constructor.
  - intros (H1 & H2 & H3). pose proof (chain_le _ _ _ H3) as Hle.
    destruct (IH _ H3) as [Hin Hord]. split.
    + constructor; [unfold inside; cbn [fst snd]; lia|].
      eapply Forall_impl; [|exact Hin]. intros e He. unfold inside in *. lia.
    + constructor; [|exact Hord].
      eapply Forall_impl; [|exact Hin]. intros e He. unfold inside, before in *. cbn [fst snd]. lia.
Qed.

Lemma sub64_exact a b : b <= a -> sub64 a b = a - b.
Proof. intro H. unfold sub64. destruct (b <=? a) eqn:E; lia. Qed.

Lemma add64_exact a b : a + b < W -> add64 a b = a + b.
Proof. intro H. unfold add64. cbv zeta. destruct (a + b <? W) eqn:E; lia. Qed.

Lemma alloc_from_spec size sz : size < W -> 0 < sz -> forall t prev,
  chain prev size t ->
  alloc_from size sz prev t =
    match first_gap_ge sz (gaps_from prev size t) with
    | Some g => Some (fst g, insert_sorted (fst g, sz) t)
    | None => None
    end
  /\ (forall off t', alloc_from size sz prev t = Some (off, t') -> prev <= off /\ chain prev size t').
Proof.
  intros Hsize Hsz. unfold first_gap_ge.
  induction t as [|[o l] r IH]; intros prev Hc; cbn [chain] in Hc;
    cbn [alloc_from gaps_from find snd fst].
  - rewrite (sub64_exact _ _ Hc). destruct (sz <=? size - prev) eqn:E; (split; [reflexivity|]); intros off t' H; inversion H; subst.
    cbn [chain]. lia.
  - destruct Hc as (H1 & H2 & H3). pose proof (chain_le _ _ _ H3) as Hle.
    (* under the invariant the wrapping operations are the exact ones *)
    rewrite (sub64_exact _ _ H1), add64_exact by lia. destruct (sz <=? o - prev) eqn:E.
    + cbn [fst insert_sorted]. assert (Hlt : (prev <? o) = true) by lia. rewrite Hlt.
      split; [reflexivity|]. intros off t' H; inversion H; subst. cbn [chain]. repeat split; try assumption; lia.
    + destruct (IH _ H3) as [IHe IHc]. rewrite IHe in *.
      destruct (find (fun x : N * N => sz <=? snd x) (gaps_from (o + l) size r)) as [g|]; [|split; [reflexivity|discriminate]].
      destruct (IHc _ _ eq_refl) as [Hg1 Hg2].
      cbn [insert_sorted fst]. assert (Hlt : (fst g <? o) = false) by lia. rewrite Hlt.
      split; [reflexivity|]. intros off t' H; inversion H; subst. cbn [chain]. repeat split; try assumption; lia.
Qed.

Lemma alloc_eq_spec size n t : Inv size t -> alloc size n t = spec_alloc size n t.
Proof.
  intros (Hc & Hl & Hs). unfold alloc, spec_alloc.
  destruct (n <=? 0)%Z eqn:En; [reflexivity|].
  destruct (MAXA <=? N.of_nat (length t)) eqn:Em; [reflexivity|].
  unfold gaps. apply (alloc_from_spec size (Z.to_N n)); [exact Hs | lia | exact Hc].
Qed.

Lemma alloc_from_offs size sz : forall t prev off t',
  alloc_from size sz prev t = Some (off, t') -> Permutation (map fst t') (off :: map fst t).
Proof.
  induction t as [|[o l] r IH]; intros prev off t' H; cbn [alloc_from] in H.
  - destruct (sz <=? sub64 size prev); inversion H; subst. apply Permutation_refl.
  - destruct (sz <=? sub64 o prev); [inversion H; subst; apply Permutation_refl|].
    destruct (alloc_from size sz (add64 o l) r) as [[off' r']|] eqn:E; inversion H; subst.
    cbn [map fst]. rewrite (IH _ _ _ E). apply perm_swap.
Qed.

Lemma alloc_offs size n t off t' :
  alloc size n t = Some (off, t') -> Permutation (map fst t') (off :: map fst t).
Proof.
  unfold alloc. destruct (n <=? 0)%Z; [discriminate|].
  destruct (MAXA <=? N.of_nat (length t)); [discriminate | apply alloc_from_offs].
Qed.

Lemma alloc_inv size n t off t' : Inv size t -> alloc size n t = Some (off, t') -> Inv size t'.
Proof.
  intros (Hc & Hl & Hs) Ha.
  pose proof (Permutation_length (alloc_offs _ _ _ _ _ Ha)) as L. cbn [length] in L. rewrite !map_length in L.
  unfold alloc in Ha. destruct (n <=? 0)%Z eqn:En; [discriminate|].
  destruct (MAXA <=? N.of_nat (length t)) eqn:Em; [discriminate|].
  split; [|split; [lia|exact Hs]].
  assert (Hn : 0 < Z.to_N n) by lia. apply (proj2 (alloc_from_spec size (Z.to_N n) Hs Hn t HDR Hc) _ _ Ha).
Qed.

Lemma canfit_from_alloc size sz t : forall prev,
  canfit_from size sz prev t = match alloc_from size sz prev t with Some _ => true | None => false end.
Proof.
  induction t as [|[o l] r IH]; intro prev; cbn [canfit_from alloc_from].
  - destruct (sz <=? sub64 size prev); reflexivity.
  - destruct (sz <=? sub64 o prev); [reflexivity|]. rewrite IH.
    destruct (alloc_from size sz (add64 o l) r) as [[? ?]|]; reflexivity.
Qed.

Lemma canfit_alloc size n t :
  canfit size n t = match alloc size n t with Some _ => true | None => false end.
Proof.
  unfold canfit, alloc. destruct (n <=? 0)%Z; [reflexivity|].
  destruct (MAXA <=? N.of_nat (length t)); [reflexivity|]. apply canfit_from_alloc.
Qed.

Lemma starts_at_lt off e : off < fst e -> starts_at off e = false.
Proof. unfold starts_at. lia. Qed.

Lemma filter_keep_all off r :
  Forall (fun e : N * N => off < fst e) r -> filter (fun e => negb (starts_at off e)) r = r.
Proof.
  induction r as [|x r IH]; intro H; cbn [filter]; [reflexivity|].
  inversion H as [|? ? Hx Hr]; subst. rewrite (starts_at_lt _ _ Hx). cbn [negb]. now rewrite IH.
Qed.

Lemma existsb_none off r :
  Forall (fun e : N * N => off < fst e) r -> existsb (starts_at off) r = false.
Proof.
  induction r as [|x r IH]; intro H; cbn [existsb]; [reflexivity|].
  inversion H as [|? ? Hx Hr]; subst. rewrite (starts_at_lt _ _ Hx). cbn [orb]. now apply IH.
Qed.

Lemma free_eq_spec off hi t : forall lo, chain lo hi t -> free off t = spec_free off t.
Proof.
  unfold spec_free. induction t as [|[o l] r IH]; intros lo Hc; cbn [free existsb filter].
  - reflexivity.
  - cbn [chain] in Hc. destruct Hc as (H1 & H2 & H3).
    unfold starts_at at 1 3. cbn [fst].
    destruct (o =? off) eqn:E; cbn [orb negb].
    + assert (Hall : Forall (fun e : N * N => off < fst e) r).
      { destruct (chain_facts _ _ _ H3) as [Hin _]. eapply Forall_impl; [|exact Hin].
        intros e He. unfold inside in He. lia. }
      rewrite filter_keep_all by exact Hall. reflexivity.
    + rewrite (IH _ H3). destruct (existsb (starts_at off) r); reflexivity.
Qed.

Lemma free_chain off hi t : forall lo t', chain lo hi t -> free off t = Some t' ->
  chain lo hi t' /\ length t = S (length t').
Proof.
  induction t as [|[o l] r IH]; intros lo t' Hc Hf; cbn [free] in Hf; [discriminate|].
  cbn [chain] in Hc. destruct Hc as (H1 & H2 & H3).
  destruct (o =? off).
  - inversion Hf; subst t'. split; [|reflexivity]. eapply chain_mono; [|exact H3]. lia.
  - destruct (free off r) as [r'|] eqn:Fr; [|discriminate]. inversion Hf; subst t'.
    destruct (IH _ _ H3 eq_refl) as [Hc' Hl]. cbn [chain length]. repeat split; try assumption. lia.
Qed.

Lemma free_inv size off t t' : Inv size t -> free off t = Some t' -> Inv size t'.
Proof.
  intros (Hc & Hl & Hs) Hf. destruct (free_chain _ _ _ _ _ Hc Hf) as [Hc' Hlen].
  split; [exact Hc'|]. split; [lia | exact Hs].
Qed.

Lemma free_offs off : forall t, In off (map fst t) ->
  exists t', free off t = Some t' /\ Permutation (map fst t) (off :: map fst t').
Proof.
  induction t as [|[o l] r IH]; intro H; [destruct H|]. cbn [free].
  destruct (N.eqb_spec o off) as [->|Ne]; [exists r; split; reflexivity|].
  destruct H as [H|H]; [cbn [fst] in H; congruence|]. destruct (IH H) as (r' & -> & P).
  exists ((o, l) :: r'). split; [reflexivity|]. cbn [map fst]. rewrite P. apply perm_swap.
Qed.

Lemma inv_nil size : HDR <= size -> size < W -> Inv size [].
Proof. intros H1 H2. split; [exact H1|]. split; [|exact H2]. cbn [length]. lia. Qed.

Lemma step_spec size t o : Inv size t ->
  step size t o = spec_step size t o /\ Inv size (snd (step size t o)).
Proof.
  intro HI. destruct o as [n|est total|off|]; cbn [step spec_step].
  - rewrite <- (alloc_eq_spec _ _ _ HI). split; [reflexivity|].
    destruct (alloc size n t) as [[off t']|] eqn:Ea; cbn [snd]; [|exact HI].
    eapply alloc_inv; eassumption.
  - rewrite canfit_alloc, <- !(alloc_eq_spec _ _ _ HI).
    destruct (alloc size est t) as [[? ?]|]; [|split; [reflexivity | exact HI]].
    split; [reflexivity|].
    destruct (alloc size total t) as [[off t']|] eqn:Ea; cbn [snd]; [|exact HI].
    eapply alloc_inv; eassumption.
  - pose proof HI as (Hc & _). rewrite <- (free_eq_spec off _ _ _ Hc). split; [reflexivity|].
    destruct (free off t) as [t'|] eqn:Ef; cbn [snd]; [|exact HI].
    eapply free_inv; eassumption.
  - split; [reflexivity|]. cbn [snd]. apply inv_nil; [exact (chain_le _ _ _ (proj1 HI))|apply HI].
Qed.

Lemma run_inv_from size ops : forall t, Inv size t ->
  Inv size (fold_left (fun t o => snd (step size t o)) ops t).
Proof. apply fold_left_preserves. intros t o HI. now apply step_spec. Qed.

Lemma unle_le k : forall v, v < 256 ^ N.of_nat k -> unle (le k v) = v.
Proof. exact (gunle_gle_small 256 ltac:(discriminate) k). Qed.

Lemma unle_le4 v : v < 4294967296 -> unle (le 4 v) = v.
Proof. exact (unle_le 4 v). Qed.
Lemma unle_le8 v : v < W -> unle (le 8 v) = v.
Proof. exact (unle_le 8 v). Qed.

(* the field that stands after [pre]; offsets and widths below are lengths of closed
   lists, so stating an instance at the documented numbers is checked by conversion *)
Lemma slice_mid (pre f post : bytes) : slice (length pre) (length f) (pre ++ f ++ post) = f.
Proof. unfold slice. rewrite (drop_app_len pre (f ++ post) : skipn _ _ = _). apply (take_app_len f post). Qed.

(* the layout constants recovered from the compiled code are the documented ones *)
Lemma layout_constants :
  shm_magic = [86; 71; 73; 83] /\ VERSION = 1 /\ HDR = 65536 /\ MAXA = 4094 /\
  OFF_MAGIC = 0%nat /\ OFF_VER = 4%nat /\ OFF_DS = 8%nat /\ OFF_COUNT = 16%nat /\
  OFF_ENTRIES = 24%nat /\ ENTRY = 16%nat /\ LEN_OFF = 8%nat /\
  shm_fixed_size = Z.of_nat OFF_ENTRIES /\ shm_entry_size = Z.of_nat ENTRY /\
  (shm_fixed_size + shm_entry_size * shm_max_allocs <= shm_header_size)%Z.
Proof. repeat split; vm_compute; congruence. Qed.

Lemma read_entries_enc junk t :
  Forall (fun e : N * N => fst e < W /\ snd e < W) t ->
  read_entries (length t) (flat_map enc_entry t ++ junk) = t.
Proof.
  induction t as [|[o l] r IH]; intro H; cbn [length read_entries flat_map]; [reflexivity|].
  inversion H as [|? ? [Ho Hl] Hr]; subst. cbn [fst snd] in Ho, Hl.
  destruct layout_constants as (_ & _ & _ & _ & _ & _ & _ & _ & _ & EE & EL & _). rewrite EE, EL.
  change (enc_entry (o, l)) with (le 8 o ++ le 8 l). rewrite <- !app_assoc.
  rewrite (slice_mid [] (le 8 o) _ : slice 0 8 (le 8 o ++ _) = _).
  rewrite (slice_mid (le 8 o) (le 8 l) _ : slice 8 8 (le 8 o ++ le 8 l ++ _) = _).
  rewrite (drop_app_len (le 8 o ++ le 8 l) (flat_map enc_entry r ++ junk)
           : skipn 16 (le 8 o ++ le 8 l ++ flat_map enc_entry r ++ junk) = _).
  rewrite !unle_le8 by assumption. f_equal. apply IH; exact Hr.
Qed.

Lemma decode_encode_header size t junk : Inv size t ->
  decode_header (encode_header size t ++ junk) = Some (size, t).
Proof.
  intros (Hc & Hl & Hs). pose proof (chain_le _ _ _ Hc) as Hsz.
  destruct layout_constants as (EM & EV & EH & EA & E0 & E1 & E2 & E3 & E4 & _).
  unfold decode_header, encode_header. rewrite E0, E1, E2, E3, E4, EM. rewrite <- !app_assoc.
  set (M := [86; 71; 73; 83]). set (V := le 4 VERSION). set (D := le 8 (size - HDR)).
  set (C := le 4 (N.of_nat (length t))). set (R := le 4 0).
  rewrite (slice_mid [] M _ : slice 0 (length M) (M ++ _) = _), beqb_refl.
  rewrite (slice_mid M V _ : slice 4 4 (M ++ V ++ _) = _).
  rewrite (slice_mid (M ++ V ++ D) C _ : slice 16 4 (M ++ V ++ D ++ C ++ _) = _).
  rewrite (slice_mid (M ++ V) D _ : slice 8 8 (M ++ V ++ D ++ _) = _).
  rewrite (drop_app_len (M ++ V ++ D ++ C ++ R) (flat_map enc_entry t ++ junk)
           : skipn 24 (M ++ V ++ D ++ C ++ R ++ flat_map enc_entry t ++ junk) = _).
  subst V D C. cbn [negb].
  rewrite !unle_le4, unle_le8 by lia. rewrite N.eqb_refl. cbn [negb].
  assert (Hm : (MAXA <? N.of_nat (length t)) = false) by lia. rewrite Hm.
  rewrite Nat2N.id. f_equal. f_equal; [lia|].
  apply read_entries_enc.
  destruct (chain_facts _ _ _ Hc) as [Hin _]. eapply Forall_impl; [|exact Hin].
  intros e He. unfold inside in He. lia.
Qed.

Lemma entry_eqb_refl e : entry_eqb e e = true.
Proof. unfold entry_eqb. now rewrite !N.eqb_refl. Qed.
Lemma tbl_eqb_refl t : tbl_eqb t t = true.
Proof. apply list_eqb_refl, entry_eqb_refl. Qed.
Lemma res_eqb_refl r : res_eqb r r = true.
Proof.
  destruct r as [x|x|b| |x|]; cbn [res_eqb]; try reflexivity; try apply N.eqb_refl.
  - apply opt_eqb_refl, N.eqb_refl.
  - apply opt_eqb_refl. intros [a z]. cbn [fst snd]. now rewrite N.eqb_refl, Z.eqb_refl.
  - now destruct b.
Qed.

Lemma snap_ok_model size t : Inv size t -> snap_ok size t (snapshot size t) = true.
Proof.
  intro HI. unfold snap_ok, snapshot. cbn [fst snd].
  rewrite tbl_eqb_refl. apply inv_b_iff in HI as Hb. rewrite Hb.
  rewrite <- (app_nil_r (encode_header size t)), decode_encode_header by exact HI.
  now rewrite N.eqb_refl, tbl_eqb_refl.
Qed.

Lemma run_obs_spec size : forall ops t, Inv size t ->
  spec_steps size t ops (fst (run_obs size t ops)) = Some (snd (run_obs size t ops))
  /\ Inv size (snd (run_obs size t ops)).
Proof.
  induction ops as [|[sn o] ops IH]; intros t HI; cbn [run_obs spec_steps fst snd].
  - split; [reflexivity | exact HI].
  - destruct (step_spec size t o HI) as [Es HI'].
    rewrite <- Es. destruct (step size t o) as [r t'] eqn:St. cbn [snd] in HI'.
    destruct (IH t' HI') as [IH1 IH2].
    destruct (run_obs size t' ops) as [os tf] eqn:Ro. cbn [fst snd] in *.
    rewrite res_eqb_refl.
    assert (Ho : osnap_ok size sn t' (if sn then Some (snapshot size t') else None) = true).
    { destruct sn; cbn [osnap_ok]; [exact (snap_ok_model _ _ HI') | reflexivity]. }
    rewrite Ho. cbn [andb]. split; assumption.
Qed.
