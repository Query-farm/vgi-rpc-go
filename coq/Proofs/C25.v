(* Proofs/C25.v — the proxy-proof gate and its nonce cache. The replay argument
   follows an admitted nonce through the cache ([holds]: where it sits and how
   many entries stand behind it) over the steps in between; the lemmas are
   stated for requests with two clock readings (verification, cache), of which
   the gate's one reading is the case [norm]. *)
From VR Require Import Model.C25 Lib.Lists.
Open Scope N_scope.
(* [cbn] leaves the arithmetic folded: no proof below needs it unfolded, and unfolding it on the
   64-bit literals is dear to check *)
Local Arguments N.eqb : simpl never.
Local Arguments Z.div : simpl never.
Local Arguments Z.leb : simpl never.

Lemma wrap64_id z : (-9223372036854775808 <= z < 9223372036854775808)%Z -> wrap64 z = z.
Proof. intro H. unfold wrap64. rewrite Z.mod_small by lia. lia. Qed.

(* proofReplayTTL covers the whole two-sided window, plus the second in which it ends *)
Lemma ttl_is skew : (0 <= skew <= max_skew)%Z -> ttl_ns skew = ((2 * skew + 1) * ns_per_s)%Z.
Proof.
  unfold max_skew, ttl_ns, c25_ttl_base_ns, c25_ttl_step_ns, ns_per_s. intro H.
  rewrite wrap64_id by lia. lia.
Qed.

Lemma tokch_free c s : is_tokch c = false -> forallb is_tokch s = true -> ~ In c s.
Proof. intros Hc H Hin. rewrite forallb_forall in H. apply H in Hin. congruence. Qed.
Lemma digits_tokch s : forallb is_digit s = true -> forallb is_tokch s = true.
Proof. apply forallb_imp. unfold is_tokch, is_alnum. now intros x ->. Qed.

Lemma charset_len p lo hi s :
  forallb p s && len_in lo hi s = true -> forallb p s = true /\ (lo <= length s <= hi)%nat.
Proof.
  unfold len_in. intro H. apply andb_true_iff in H as [H L]. apply andb_true_iff in L as [L1 L2].
  apply Nat.leb_le in L1, L2. auto.
Qed.

Lemma fields_ok_inv f : fields_ok f = true ->
  (forallb is_tokch (f_kid f) = true /\ (1 <= length (f_kid f) <= 64)%nat)
  /\ (forallb is_digit (f_ts f) = true /\ (1 <= length (f_ts f) <= 20)%nat)
  /\ (forallb is_tokch (f_nonce f) = true /\ (22 <= length (f_nonce f) <= 22)%nat)
  /\ (forallb is_tokch (f_mac f) = true /\ (43 <= length (f_mac f) <= 43)%nat).
Proof.
  unfold fields_ok. intro H. do 3 (apply andb_true_iff in H as [H ?]).
  split; [|split; [|split]]; apply charset_len; assumption.
Qed.

(* NUL, the dot and the comma are outside every field's charset *)
Lemma fields_free c f : is_tokch c = false -> fields_ok f = true ->
  ~ In c (f_kid f) /\ ~ In c (f_ts f) /\ ~ In c (f_nonce f) /\ ~ In c (f_mac f).
Proof.
  intros Hc H. apply fields_ok_inv in H as [[Hk _] [[Ht _] [[Hn _] [Hm _]]]].
  auto using tokch_free, digits_tokch.
Qed.

Definition nul_free (s : bytes) : bool := forallb (fun c => negb (c =? 0)) s.

Lemma nul_free_notin s : nul_free s = true -> ~ In 0 s.
Proof. unfold nul_free. rewrite forallb_forall. intros H Hin. apply H in Hin. discriminate Hin. Qed.

Lemma canonical_inj k t n o k' t' n' o' :
  ~ In 0 k -> ~ In 0 t -> ~ In 0 n -> ~ In 0 k' -> ~ In 0 t' -> ~ In 0 n' ->
  canonical k t n o = canonical k' t' n' o' -> k = k' /\ t = t' /\ n = n' /\ o = o'.
Proof.
  intros Hk Ht Hn Hk' Ht' Hn' E. unfold canonical in E.
  apply app_inv_head in E. inversion E as [E1]. clear E.
  apply app_sep_inj in E1 as [-> E2]; auto.
  apply app_sep_inj in E2 as [-> E3]; auto.
  apply app_sep_inj in E3 as [-> ->]; auto.
Qed.

Lemma wire_length f : fields_ok f = true -> (length (wire f) <= 155)%nat.
Proof.
  intro H. apply fields_ok_inv in H as [[_ Hk] [[_ Ht] [[_ Hn] [_ Hm]]]].
  unfold wire. cbn [join]. repeat rewrite app_length. cbn [length].
  change (length c25_version) with 2%nat. lia.
Qed.

Lemma split_wire f : fields_ok f = true ->
  split_on dot (wire f) = [c25_version; f_kid f; f_ts f; f_nonce f; f_mac f].
Proof.
  intro H. destruct (fields_free dot f eq_refl H) as (Hk & Ht & Hn & Hm).
  unfold wire. apply split_join; [discriminate|]. repeat constructor; try reflexivity; now apply mem_false_iff.
Qed.

Lemma parse_wire_iff tok f : parse tok = Some f <-> tok = wire f /\ fields_ok f = true.
Proof.
  split.
  - unfold parse. destruct (Z.of_nat (length tok) >? c25_max_header_len)%Z; [discriminate|].
    destruct (split_on dot tok) as [|v [|k [|t [|n [|m [|]]]]]] eqn:Esplit; try discriminate.
    destruct (beqb v c25_version && fields_ok _) eqn:E; [|discriminate].
    intro H. inversion H; subst f. apply andb_true_iff in E as [Ev Ef]. apply beqb_eq in Ev. subst v.
    split; [|exact Ef]. unfold wire. cbn [f_kid f_ts f_nonce f_mac]. rewrite <- Esplit. symmetry. apply join_split.
  - intros [-> Hf]. unfold parse. pose proof (wire_length f Hf) as L.
    replace (Z.of_nat (length (wire f)) >? c25_max_header_len)%Z with false
      by (unfold c25_max_header_len; lia).
    rewrite split_wire by exact Hf. rewrite beqb_refl. destruct f; cbn in *. now rewrite Hf.
Qed.

Lemma wire_shape f : fields_ok f = true -> wire f <> [] /\ mem 44 (wire f) = false.
Proof.
  intro H. destruct (fields_free 44 f eq_refl H) as (Hk & Ht & Hn & Hm).
  unfold wire. cbn [join]. split; [discriminate|].
  apply mem_false_iff in Hk, Ht, Hn, Hm. rewrite !mem_app, Hk, Ht, Hn, Hm. reflexivity.
Qed.

Lemma digits_val_nonneg s : (0 <= digits_val s)%Z.
Proof.
  unfold digits_val. enough (G : forall acc, (0 <= acc)%Z ->
    (0 <= fold_left (fun acc c => (acc * 10 + Z.of_N (c - 48))%Z) s acc)%Z) by (apply G; lia).
  induction s as [|x s IH]; intros acc Ha; cbn [fold_left]; [exact Ha | apply IH; lia].
Qed.

Lemma sane_req_inv r : sane_req r = true -> (0 <= unix_s (r_tv r) < 4611686018427387904)%Z.
Proof.
  unfold sane_req, max_ns, unix_s, ns_per_s. intro H. split.
  - apply Z.div_pos; lia.
  - apply Z.div_lt_upper_bound; lia.
Qed.

Lemma window_iff skew now ts :
  (0 <= now < 4611686018427387904)%Z -> (0 <= ts <= max_int64)%Z ->
  (window_check skew now ts = WOk <-> (Z.abs (now - ts) <= skew)%Z).
Proof.
  intros Hn Ht. unfold window_check, max_int64 in *. cbv zeta.
  rewrite (wrap64_id (now - ts)) by lia. rewrite wrap64_id by lia.
  destruct (now - ts >? skew)%Z eqn:A; [split; [discriminate | lia]|].
  destruct (- (now - ts) >? skew)%Z eqn:B; [split; [discriminate | lia]|]. split; [lia | reflexivity].
Qed.

Lemma unix_s_floor t : (unix_s t * ns_per_s <= t < (unix_s t + 1) * ns_per_s)%Z.
Proof.
  unfold unix_s, ns_per_s. pose proof (Z.mul_div_le t 1000000000 ltac:(lia)).
  pose proof (Z.mul_succ_div_gt t 1000000000 ltac:(lia)). lia.
Qed.

Lemma window_end skew t ts :
  (Z.abs (unix_s t - ts) <= skew)%Z -> (t < (ts + skew + 1) * ns_per_s)%Z.
Proof. intro H. pose proof (unix_s_floor t). unfold ns_per_s in *. lia. Qed.

Lemma ttl_reaches skew t t' ts :
  (0 <= skew <= max_skew)%Z -> (Z.abs (unix_s t - ts) <= skew)%Z -> (t <= t')%Z ->
  ((ts + skew + 1) * ns_per_s <= t' + ttl_ns skew)%Z.
Proof.
  intros Hs H Ht. rewrite ttl_is by exact Hs. pose proof (unix_s_floor t). unfold ns_per_s in *. lia.
Qed.

Lemma nondecr_cons a b l : nondecr (a :: b :: l) = true <-> (a <= b)%Z /\ nondecr (b :: l) = true.
Proof.
  change (nondecr (a :: b :: l)) with ((a <=? b)%Z && nondecr (b :: l)).
  rewrite andb_true_iff, Z.leb_le. reflexivity.
Qed.
Lemma nondecr_tail a l : nondecr (a :: l) = true -> nondecr l = true.
Proof. destruct l as [|b t]; [reflexivity|]. intro H. apply nondecr_cons in H. apply H. Qed.
Lemma nondecr_le l : forall a, nondecr (a :: l) = true -> forall x, In x l -> (a <= x)%Z.
Proof.
  induction l as [|b t IH]; intros a H x Hin; [destruct Hin|].
  apply nondecr_cons in H as [Hab Ht]. destruct Hin as [->|Hin]; [lia|].
  specialize (IH b Ht x Hin). lia.
Qed.
Lemma nondecr_app_l a b : nondecr (a ++ b) = true -> nondecr a = true.
Proof.
  induction a as [|x a IH]; [reflexivity|]. destruct a as [|y a]; [reflexivity|]. cbn [app]. intro H.
  apply nondecr_cons in H as [Hxy H]. apply nondecr_cons. split; [exact Hxy | apply IH, H].
Qed.
Lemma nondecr_app_r a b : nondecr (a ++ b) = true -> nondecr b = true.
Proof. induction a as [|x a IH]; [auto|]. intro H. apply IH. eapply nondecr_tail. exact H. Qed.

Lemma sweep_length now l : (length (sweep now l) <= length l)%nat.
Proof. induction l as [|[n e] l IH]; cbn [sweep]; [lia|]. destruct (e <=? now)%Z; cbn [length]; lia. Qed.
Lemma evict_length cap l : (1 <= cap)%Z -> (Z.of_nat (length (evict cap l)) <= cap - 1)%Z.
Proof. intro H. unfold evict. rewrite skipn_length. lia. Qed.
Lemma eff_cap_pos c : (1 <= eff_cap c)%Z.
Proof. unfold eff_cap. assert (0 < c25_default_capacity)%Z by reflexivity. destruct (c_cap c <=? 0)%Z eqn:E; lia. Qed.

(* [holds n e k st]: the entry (n, e) is in the cache with at most k entries behind it *)
Definition holds (n : bytes) (e k : Z) (st : cache) : Prop :=
  exists pre post, st = pre ++ (n, e) :: post /\ (Z.of_nat (length post) <= k)%Z.

Lemma holds_weaken n e k k' st : (k <= k')%Z -> holds n e k st -> holds n e k' st.
Proof. intros H (pre & post & -> & L). exists pre, post. split; [reflexivity | lia]. Qed.
Lemma sweep_holds now n e k st : (now < e)%Z -> holds n e k st -> holds n e k (sweep now st).
Proof.
  intros Hn (pre & post & -> & L). induction pre as [|[n' e'] pre IH]; cbn [app sweep].
  - replace (e <=? now)%Z with false by lia. exists [], post. auto.
  - destruct (e' <=? now)%Z; [exact IH|]. exists ((n', e') :: pre), post. auto.
Qed.
Lemma holds_seen n e k st : holds n e k st -> seen n st = true.
Proof.
  intros (pre & post & -> & _). unfold seen. rewrite existsb_app. cbn. rewrite beqb_refl. cbn. apply orb_true_r.
Qed.
Lemma evict_append_holds n e k cap st x :
  (k + 2 <= cap)%Z -> holds n e k st -> holds n e (k + 1) (evict cap st ++ [x]).
Proof.
  intros Hc (pre & post & -> & L). unfold evict.
  set (m := Z.to_nat (Z.of_nat (length (pre ++ (n, e) :: post)) + 1 - cap)).
  assert (Hm : (m <= length pre)%nat).
  { subst m. rewrite app_length. cbn [length]. lia. }
  rewrite skipn_app. replace (m - length pre)%nat with 0%nat by lia. cbn [skipn].
  exists (skipn m pre), (post ++ [x]). split; [now rewrite <- app_assoc|].
  rewrite app_length. cbn [length]. lia.
Qed.

Lemma same_proof_inv tok hd f : same_proof [tok] hd = true -> parse tok = Some f ->
  exists tok' f', hd = [tok'] /\ parse tok' = Some f'
    /\ f_kid f' = f_kid f /\ f_ts f' = f_ts f /\ f_nonce f' = f_nonce f /\ b64dec (f_mac f') = b64dec (f_mac f).
Proof.
  unfold same_proof. destruct hd as [|tb [|x hd]]; try discriminate. intros H Pp. rewrite Pp in H.
  destruct (parse tb) as [fb|] eqn:Pb; [|discriminate].
  apply andb_true_iff in H as [H Em]. apply andb_true_iff in H as [H En]. apply andb_true_iff in H as [Ek Et].
  apply beqb_eq in Ek, Et, En, Em. exists tb, fb. repeat split; auto.
Qed.
Lemma same_proof_refl tok f : parse tok = Some f -> same_proof [tok] [tok] = true.
Proof. unfold same_proof. intros ->. now rewrite !beqb_refl. Qed.

Lemma valid_ts_acceptable hm c now hd : valid_proof hm c now hd = true -> ts_acceptable c now hd = true.
Proof.
  unfold valid_proof, ts_acceptable. destruct hd as [|tok [|x hd]]; try discriminate.
  destruct (parse tok) as [f|]; [|discriminate]. destruct (lookup_kid _ _) as [[s l]|]; [|discriminate].
  intro H. apply andb_true_iff in H as [H _]. exact H.
Qed.

(* the timestamp judged is that of the proof, whatever its spelling *)
Lemma same_proof_ts c now tok f hd : parse tok = Some f -> same_proof [tok] hd = true ->
  ts_acceptable c now hd = true -> (Z.abs (now - digits_val (f_ts f)) <= c_skew c)%Z.
Proof.
  intros Pp Hh. destruct (same_proof_inv _ _ _ Hh Pp) as (tok' & f' & -> & Pp' & _ & <- & _).
  unfold ts_acceptable. rewrite Pp'. apply Z.leb_le.
Qed.

Section Gate.
  Variable hmac : bytes -> bytes -> bytes.
  Variable ttlf : Z -> Z.

  Definition pre_ok (c : config) (now_s : Z) (tok : bytes) (f : fields) (secret label : bytes) : Prop :=
    parse tok = Some f /\ lookup_kid (f_kid f) (c_secrets c) = Some (secret, label)
    /\ (digits_val (f_ts f) <= max_int64)%Z
    /\ window_check (c_skew c) now_s (digits_val (f_ts f)) = WOk
    /\ b64dec (f_mac f) = hmac secret (canonical (f_kid f) (f_ts f) (f_nonce f) (c_origin c)).

  Lemma precheck_inr c now tok f label :
    precheck hmac c now tok = inr (f, label) <-> exists secret, pre_ok c now tok f secret label.
  Proof.
    unfold precheck, pre_ok. split.
    - destruct (parse tok) as [f0|]; [|discriminate].
      destruct (lookup_kid (f_kid f0) (c_secrets c)) as [[s l]|] eqn:L; [|discriminate].
      destruct (digits_val (f_ts f0) >? max_int64)%Z eqn:Ets; [discriminate|].
      destruct (window_check _ _ _) eqn:W; try discriminate.
      destruct (beqb _ _) eqn:M; [|discriminate]. intro H. inversion H; subst.
      apply beqb_eq in M. exists s. repeat split; auto. unfold max_int64 in *. lia.
    - intros [s (-> & -> & Hts & -> & M)].
      replace (digits_val (f_ts f) >? max_int64)%Z with false by lia.
      rewrite M, beqb_refl. reflexivity.
  Qed.

  Lemma verify_ok_inv c st r l k : fst (verify_request hmac ttlf c st r) = VOk l k ->
    exists tok f secret, r_hdrs r = [tok] /\ pre_ok c (unix_s (r_tv r)) tok f secret l /\ k = f_kid f
      /\ ((c_nocache c = true /\ snd (verify_request hmac ttlf c st r) = st)
          \/ (c_nocache c = false /\ seen (f_nonce f) (sweep (r_tc r) st) = false
              /\ snd (verify_request hmac ttlf c st r)
                 = evict (eff_cap c) (sweep (r_tc r) st) ++ [(f_nonce f, (r_tc r + ttlf (c_skew c))%Z)])).
  Proof.
    unfold verify_request. destruct (r_hdrs r) as [|[|x v0] [|y rest]]; try discriminate.
    cbn [negb orb]. destruct (mem 44 (x :: v0)); [discriminate|]. unfold verify_token.
    destruct (precheck hmac c (unix_s (r_tv r)) (x :: v0)) as [reason|[f label]] eqn:P; [discriminate|].
    apply precheck_inr in P as [secret P]. intro H. exists (x :: v0), f, secret.
    destruct (c_nocache c).
    - injection H as <- <-. repeat (split; [auto|]). left. auto.
    - unfold check_and_add in *. destruct (seen _ _); [discriminate|]. injection H as <- <-.
      repeat (split; [auto|]). right. auto.
  Qed.

  (* of HMAC only: under the kid's secret, the foreign message and this worker's own do not collide *)
  Lemma noncolliding_foreign_proof_refused c st r tok f secret label k0 t0 n0 o0 :
    (hmac secret (canonical k0 t0 n0 o0)
     = hmac secret (canonical (f_kid f) (f_ts f) (f_nonce f) (c_origin c)) ->
     canonical k0 t0 n0 o0 = canonical (f_kid f) (f_ts f) (f_nonce f) (c_origin c)) ->
    r_hdrs r = [tok] -> parse tok = Some f ->
    lookup_kid (f_kid f) (c_secrets c) = Some (secret, label) ->
    nul_free k0 = true -> nul_free t0 = true -> nul_free n0 = true ->
    b64dec (f_mac f) = hmac secret (canonical k0 t0 n0 o0) ->
    (k0, t0, n0, o0) <> (f_kid f, f_ts f, f_nonce f, c_origin c) ->
    exists reason, fst (verify_request hmac ttlf c st r) = VErr reason.
  Proof.
    intros Hnc Hh Pp Pl Hk Ht Hn Hm Hne.
    destruct (fst (verify_request hmac ttlf c st r)) as [l k|reason] eqn:V; [exfalso | eauto].
    apply verify_ok_inv in V as (tok' & f' & secret' & Hh' & (Pp' & Pl' & _ & _ & Pm') & _).
    rewrite Hh in Hh'. injection Hh' as <-. rewrite Pp in Pp'. injection Pp' as <-.
    rewrite Pl in Pl'. injection Pl' as <- _. rewrite Hm in Pm'. apply Hnc in Pm'.
    apply parse_wire_iff in Pp as [_ Hf]. destruct (fields_free 0 f eq_refl Hf) as (? & ? & ? & _).
    apply canonical_inj in Pm' as (-> & -> & -> & ->); auto using nul_free_notin.
  Qed.

  Lemma verify_state c st r :
    let vr := verify_request hmac ttlf c st r in
    snd vr = st \/ snd vr = sweep (r_tc r) st
    \/ exists l k x, fst vr = VOk l k /\ snd vr = evict (eff_cap c) (sweep (r_tc r) st) ++ [x].
  Proof.
    unfold verify_request. destruct (r_hdrs r) as [|[|x v0] [|y rest]]; auto.
    cbn [negb orb]. destruct (mem 44 (x :: v0)); auto. unfold verify_token.
    destruct (precheck _ _ _ _) as [reason|[f label]]; auto. destruct (c_nocache c); auto.
    unfold check_and_add. destruct (seen _ _); cbn [fst snd]; [right; left; reflexivity | right; right; eauto].
  Qed.

  Lemma step_eq c st r :
    step hmac ttlf c st r
    = let vr := verify_request hmac ttlf c st r in ((fst vr, gate_out c (fst vr) r), snd vr).
  Proof. unfold step. now destruct (verify_request hmac ttlf c st r). Qed.

  Definition accepts (c : config) (st : cache) (r : req) : Prop :=
    exists tok f secret label,
      r_hdrs r = [tok] /\ tok = wire f /\ fields_ok f = true
      /\ lookup_kid (f_kid f) (c_secrets c) = Some (secret, label)
      /\ (Z.abs (unix_s (r_tv r) - digits_val (f_ts f)) <= c_skew c)%Z
      /\ b64dec (f_mac f) = hmac secret (canonical (f_kid f) (f_ts f) (f_nonce f) (c_origin c))
      /\ (c_nocache c = true \/ seen (f_nonce f) (sweep (r_tc r) st) = false).

  Lemma check_and_add_fresh ttl cap now n l :
    fst (check_and_add ttl cap now n l) = negb (seen n (sweep now l)).
  Proof. unfold check_and_add. destruct (seen n (sweep now l)); reflexivity. Qed.

  Lemma verify_ok_iff c st r :
    sane_req r = true -> (c_skew c <= max_skew)%Z ->
    ((exists l k, fst (verify_request hmac ttlf c st r) = VOk l k) <-> accepts c st r).
  Proof.
    intros Hs Hk. pose proof (sane_req_inv r Hs) as Hn. split.
    - intros (l & k & H).
      apply verify_ok_inv in H as (tok & f & secret & Hh & (Pp & Pl & Pt & Pw & Pm) & _ & D).
      apply parse_wire_iff in Pp as [-> Hf].
      apply window_iff in Pw; [|exact Hn | split; [apply digits_val_nonneg | exact Pt]].
      exists (wire f), f, secret, l. repeat split; auto.
      destruct D as [[Nc _]|(_ & Sn & _)]; auto.
    - intros (tok & f & secret & label & Hh & -> & Hf & Hl & Hw & Hm & Hc).
      assert (P : precheck hmac c (unix_s (r_tv r)) (wire f) = inr (f, label)).
      { apply precheck_inr. exists secret. pose proof (digits_val_nonneg (f_ts f)).
        assert (digits_val (f_ts f) <= max_int64)%Z by (unfold max_int64, max_skew in *; lia).
        repeat split; auto; [apply parse_wire_iff; auto | apply window_iff; auto; lia]. }
      destruct (wire_shape f Hf) as [Hne Hcm].
      unfold verify_request. rewrite Hh. destruct (wire f) as [|x w] eqn:W; [congruence|].
      cbn [negb orb]. rewrite Hcm. unfold verify_token. rewrite P.
      destruct (c_nocache c) eqn:Nc; [cbn; eauto|].
      destruct Hc as [Hc|Hc]; [discriminate|].
      pose proof (check_and_add_fresh (ttlf (c_skew c)) (eff_cap c) (r_tc r) (f_nonce f) st) as F.
      rewrite Hc in F. destruct (check_and_add _ _ _ _ _) as [[|] st'']; cbn in *; [eauto | discriminate].
  Qed.

  Definition inner_called (o : out) : bool :=
    match o with ORefused _ b => b | OInnerErr _ => true | OPass b _ _ _ _ => b end.

  Lemma run_forall c (P : req -> vres * out -> Prop) :
    (forall st r, P r (fst (step hmac ttlf c st r))) ->
    forall h st, Forall2 P h (run hmac ttlf c st h).
  Proof.
    intros H h. induction h as [|r h IH]; intro st; cbn [run]; [constructor|].
    specialize (H st r). destruct (step hmac ttlf c st r) as [vo st']. constructor; [exact H | apply IH].
  Qed.

  Lemma step_length c st r : (Z.of_nat (length st) <= eff_cap c)%Z ->
    (Z.of_nat (length (snd (step hmac ttlf c st r))) <= eff_cap c)%Z.
  Proof.
    intro H. rewrite step_eq. cbn [snd]. pose proof (sweep_length (r_tc r) st).
    destruct (verify_state c st r) as [->|[->|(l & k & x & _ & ->)]]; [exact H | lia |].
    rewrite app_length. cbn [length]. pose proof (evict_length (eff_cap c) (sweep (r_tc r) st) (eff_cap_pos c)). lia.
  Qed.
  Lemma exec_length c h : forall st, (Z.of_nat (length st) <= eff_cap c)%Z ->
    (Z.of_nat (length (exec hmac ttlf c st h)) <= eff_cap c)%Z.
  Proof. induction h as [|r h IH]; intros st H; cbn [exec]; [exact H|]. apply IH. now apply step_length. Qed.

  Lemma step_holds c st r n e k :
    (r_tc r < e)%Z -> holds n e k st ->
    let '((v, _), st') := step hmac ttlf c st r in
    match v with
    | VOk _ _ => (k + 2 <= eff_cap c)%Z -> holds n e (k + 1) st'
    | VErr _ => holds n e k st'
    end.
  Proof.
    intros Ht H. rewrite step_eq. cbn [fst snd].
    destruct (verify_state c st r) as [E|[E|(l & k' & x & Ev & E)]]; rewrite E;
      [| apply (sweep_holds _ _ _ _ _ Ht) in H |].
    1,2: destruct (fst (verify_request hmac ttlf c st r)); [intros _; eapply holds_weaken; [|exact H]; lia | exact H].
    rewrite Ev. intro Hc. apply evict_append_holds; [exact Hc | apply sweep_holds; assumption].
  Qed.

  Lemma step_replay_refused c st r e k tok f :
    c_nocache c = false -> (r_tc r < e)%Z -> holds (f_nonce f) e k st ->
    parse tok = Some f -> same_proof [tok] (r_hdrs r) = true ->
    exists reason, fst (fst (step hmac ttlf c st r)) = VErr reason.
  Proof.
    intros Nc Ht H Pp Hs. destruct (same_proof_inv _ _ _ Hs Pp) as (tok' & f' & Hh & Pp' & _ & _ & Hn & _).
    rewrite step_eq. cbn [fst].
    destruct (fst (verify_request hmac ttlf c st r)) as [l k0|reason] eqn:V; [exfalso | eauto].
    apply verify_ok_inv in V as (tok2 & f2 & secret & Hh2 & (Pp2 & _) & _ & [[Nc' _]|(_ & Sn & _)]); [congruence|].
    rewrite Hh in Hh2. injection Hh2 as <-. rewrite Pp' in Pp2. injection Pp2 as <-.
    rewrite Hn, (holds_seen _ e k _ (sweep_holds (r_tc r) _ e k st Ht H)) in Sn. discriminate.
  Qed.

  Lemma step_admit c st r l k :
    c_nocache c = false -> sane_req r = true -> fst (fst (step hmac ttlf c st r)) = VOk l k ->
    exists tok f, r_hdrs r = [tok] /\ parse tok = Some f
      /\ (Z.abs (unix_s (r_tv r) - digits_val (f_ts f)) <= c_skew c)%Z
      /\ holds (f_nonce f) (r_tc r + ttlf (c_skew c)) 0 (snd (step hmac ttlf c st r)).
  Proof.
    intros Nc Sr Hok. rewrite step_eq in *. cbn [fst snd] in *.
    apply verify_ok_inv in Hok as (tok & f & secret & Hh & (Pp & _ & Pt & Pw & _) & _ & [[Nc' _]|(_ & _ & ->)]);
      [congruence|].
    apply window_iff in Pw; [|apply sane_req_inv, Sr | split; [apply digits_val_nonneg | exact Pt]].
    exists tok, f. repeat split; auto. eexists _, []. split; reflexivity.
  Qed.
End Gate.

Lemma gate_passes_iff_two_readings hmac ttlf c st r :
  c_mode c = MRequire -> sane_req r = true -> (c_skew c <= max_skew)%Z ->
  (is_refusal (snd (fst (step hmac ttlf c st r))) = false <-> accepts hmac c st r).
Proof.
  intros M Sr Hk. rewrite <- (verify_ok_iff hmac ttlf c st r Sr Hk).
  rewrite step_eq. cbn [fst snd].
  unfold gate_out. rewrite M. destruct (fst (verify_request hmac ttlf c st r)) as [l k|reason].
  - split; [eauto|]. intros _. destruct (c_inner_nil c); [reflexivity|]. destruct (r_inner r); reflexivity.
  - cbn. split; [discriminate|]. intros (l & k & H). discriminate.
Qed.

Lemma count_ok_nonneg tr : (0 <= count_ok tr)%Z.
Proof. induction tr as [|[[l k|r] o] tr IH]; cbn [count_ok]; lia. Qed.

Lemma run_mid hmac ttlf c n e : forall mid st k,
  holds n e k st -> Forall (fun r => (r_tc r < e)%Z) mid ->
  (k + count_ok (run hmac ttlf c st mid) + 1 <= eff_cap c)%Z ->
  holds n e (k + count_ok (run hmac ttlf c st mid)) (exec hmac ttlf c st mid).
Proof.
  induction mid as [|r mid IH]; intros st k H F C; cbn [run exec count_ok] in *.
  - apply (holds_weaken n e k (k + 0)%Z st); [lia | exact H].
  - inversion F as [|? ? Hr Fm]; subst.
    pose proof (step_holds hmac ttlf c st r n e k Hr H) as Hstep.
    destruct (step hmac ttlf c st r) as [[v o] st'] eqn:E. cbn [snd].
    pose proof (count_ok_nonneg (run hmac ttlf c st' mid)) as Hcnt.
    destruct v as [l kk|reason]; cbn [count_ok] in *.
    + assert (H' : holds n e (k + 1) st') by (apply Hstep; lia).
      apply (holds_weaken n e (k + 1 + count_ok (run hmac ttlf c st' mid))%Z); [lia|].
      apply IH; [exact H' | exact Fm | lia].
    + apply IH; [exact Hstep | exact Fm | lia].
Qed.

Lemma reads_app a b : reads (a ++ b) = reads a ++ reads b.
Proof. induction a as [|r a IH]; cbn; [reflexivity | now rewrite IH]. Qed.

Lemma mid_bound rj rest : forall m,
  nondecr (reads (m ++ rj :: rest)) = true -> Forall (fun r => (r_tc r <= r_tc rj)%Z) m.
Proof.
  induction m as [|r m IH]; intro H; [constructor|]. cbn [app reads] in H. constructor.
  - apply nondecr_tail in H. eapply nondecr_le; [exact H|]. rewrite reads_app. apply in_or_app. cbn. auto.
  - apply IH. now apply nondecr_tail, nondecr_tail in H.
Qed.

(* The admission of ri leaves its nonce last in the cache, expiring at e = r_tc ri + TTL. While the
   timestamp is acceptable the clock is before e (window_end, ttl_reaches: this is what the TTL
   of 2*skew+1 seconds is for), so neither the sweep nor, with fewer than capacity admissions in
   between, the trimming removes it (run_mid), and rj is refused (step_replay_refused).
   Two clock readings per request: it is enough that the replay's two fall in one second
   (the one-reading gate is [norm]: r_tc = r_tv). *)
Lemma no_replay_two_readings hmac c st ri mid rj rest l k :
  c_nocache c = false -> (0 <= c_skew c <= max_skew)%Z ->
  monotone (ri :: mid ++ rj :: rest) = true -> sane_req ri = true -> same_second rj = true ->
  fst (fst (step hmac ttl_ns c st ri)) = VOk l k ->
  same_proof (r_hdrs ri) (r_hdrs rj) = true ->
  ts_acceptable c (unix_s (r_tv rj)) (r_hdrs rj) = true ->
  let st_i := snd (step hmac ttl_ns c st ri) in
  (count_ok (run hmac ttl_ns c st_i mid) < eff_cap c)%Z ->
  exists reason, fst (fst (step hmac ttl_ns c (exec hmac ttl_ns c st_i mid) rj)) = VErr reason.
Proof.
  intros Nc Hs Hmono Si Ssec Hok Hh Hacc st_i Hcnt. subst st_i.
  destruct (step_admit hmac ttl_ns c st ri l k Nc Si Hok) as (tok & f & Hhi & Pp & Hw & H0).
  rewrite Hhi in Hh. pose proof (same_proof_ts c _ tok f _ Pp Hh Hacc) as Hwj.
  apply Z.eqb_eq in Ssec. rewrite Ssec in Hwj.
  unfold monotone in Hmono. cbn [reads] in Hmono. apply nondecr_cons in Hmono as [Hvc Hmono].
  apply nondecr_tail in Hmono.
  set (e := (r_tc ri + ttl_ns (c_skew c))%Z) in *.
  assert (Hj : (r_tc rj < e)%Z).
  { eapply Z.lt_le_trans; [apply window_end, Hwj | apply ttl_reaches with (t := r_tv ri); assumption]. }
  assert (Fm : Forall (fun r => (r_tc r < e)%Z) mid).
  { eapply Forall_impl; [|apply (mid_bound rj rest mid Hmono)]. intros a Ha. exact (Z.le_lt_trans _ _ _ Ha Hj). }
  eapply step_replay_refused; [exact Nc | exact Hj | | exact Pp | exact Hh].
  apply run_mid; [exact H0 | exact Fm | clear - Hcnt; lia].
Qed.

Lemma answer_eqb_refl a : answer_eqb a a = true.
Proof. unfold answer_eqb. rewrite !beqb_refl, Z.eqb_refl. reflexivity. Qed.

Lemma admitted_true_vok c v r : admitted (c_mode c) (gate_out c v r) = Some true -> exists l k, v = VOk l k.
Proof.
  destruct v as [l k|reason]; [eauto|]. unfold gate_out.
  destruct (c_mode c), (c_inner_nil c), (r_inner r); cbn; discriminate.
Qed.
Lemma vok_maybe c l k r : maybe_admitted (c_mode c) (gate_out c (VOk l k) r) = true.
Proof. unfold gate_out, maybe_admitted. destruct (c_mode c), (c_inner_nil c), (r_inner r); reflexivity. Qed.

Lemma count_ok_le_maybe hmac ttlf c : forall h st,
  (count_ok (run hmac ttlf c st h) <= count_maybe (c_mode c) (map snd (run hmac ttlf c st h)))%Z.
Proof.
  induction h as [|r h IH]; intro st; [reflexivity|]. cbn [run]. rewrite step_eq. cbn [fst snd map count_maybe].
  specialize (IH (snd (verify_request hmac ttlf c st r))).
  destruct (fst (verify_request hmac ttlf c st r)) as [l k|reason]; cbn [count_ok];
    [rewrite vok_maybe | destruct (maybe_admitted _ _)]; lia.
Qed.

(* [replay_scan] says of every later request [rj], with [mid] in between, what the replay theorem says *)
Lemma scan_intro hmac c hd : forall rt st k,
  (forall mid rj rest, rt = mid ++ rj :: rest ->
     same_proof hd (r_hdrs rj) = true -> valid_proof hmac c (unix_s (r_tv rj)) (r_hdrs rj) = true ->
     (k + count_maybe (c_mode c) (map snd (run hmac ttl_ns c st mid)) < eff_cap c)%Z ->
     admitted (c_mode c) (snd (fst (step hmac ttl_ns c (exec hmac ttl_ns c st mid) rj))) <> Some true) ->
  replay_scan hmac c hd k rt (map snd (run hmac ttl_ns c st rt)) = true.
Proof.
  induction rt as [|r rt IH]; intros st k H; [reflexivity|].
  cbn [run]. pose proof (H [] r rt eq_refl) as H0. cbn [run exec map count_maybe] in H0.
  destruct (step hmac ttl_ns c st r) as [[v o] st'] eqn:Estep. cbn [map snd fst replay_scan] in *.
  apply andb_true_iff. split.
  - destruct (same_proof _ _ && valid_proof _ _ _ _ && (k <? eff_cap c)%Z) eqn:C; [|reflexivity].
    apply andb_true_iff in C as [C Ck]. apply andb_true_iff in C as [Ch Cv]. apply Z.ltb_lt in Ck.
    specialize (H0 Ch Cv ltac:(clear - Ck; lia)). destruct (admitted (c_mode c) o) as [[|]|]; congruence.
  - apply IH. intros mid rj rest -> Hs Hv Hk.
    specialize (H (r :: mid) rj rest eq_refl Hs Hv). cbn [run exec] in H. rewrite Estep in H.
    cbn [map snd count_maybe] in H. apply H. clear - Hk. destruct (maybe_admitted _ _); lia.
Qed.

Lemma replay_ok_model hmac c :
  c_nocache c = false -> (0 <= c_skew c <= max_skew)%Z ->
  forall rs st, nondecr (reads rs) = true -> forallb sane_req rs = true -> forallb same_second rs = true ->
  replay_ok hmac c rs (map snd (run hmac ttl_ns c st rs)) = true.
Proof.
  intros Nc Hs. induction rs as [|r rs IH]; intros st Hm Hsane Hsec; [reflexivity|].
  cbn [run]. pose proof (no_replay_two_readings hmac c st r) as Nr.
  assert (So : snd (fst (step hmac ttl_ns c st r)) = gate_out c (fst (fst (step hmac ttl_ns c st r))) r)
    by now rewrite step_eq.
  destruct (step hmac ttl_ns c st r) as [[v o] st']. cbn [fst snd] in *. cbn [map snd replay_ok].
  cbn [forallb] in Hsane, Hsec.
  apply andb_true_iff in Hsane as [Hs1 Hsane]. apply andb_true_iff in Hsec as [_ Hsec].
  apply andb_true_iff. split;
    [|apply IH; [cbn [reads] in Hm; now apply nondecr_tail, nondecr_tail in Hm | exact Hsane | exact Hsec]].
  destruct (admitted (c_mode c) o) as [[|]|] eqn:A; try reflexivity.
  subst o. apply admitted_true_vok in A as (l & kk & ->).
  apply scan_intro. intros mid rj rest -> Hsp Hv Hk.
  rewrite forallb_app in Hsec. apply andb_true_iff in Hsec as [_ Hsec]. cbn [forallb] in Hsec.
  apply andb_true_iff in Hsec as [Hsj _].
  assert (Hc : (count_ok (run hmac ttl_ns c st' mid) < eff_cap c)%Z).
  { pose proof (count_ok_le_maybe hmac ttl_ns c mid st'). clear - Hk H. lia. }
  destruct (Nr mid rj rest l kk Nc Hs Hm Hs1 Hsj eq_refl Hsp (valid_ts_acceptable _ _ _ _ Hv) Hc) as [reason Hr].
  rewrite step_eq. cbn [fst snd]. rewrite step_eq in Hr. cbn [fst] in Hr. rewrite Hr. intro A. apply admitted_true_vok in A as (? & ? & A). discriminate.
Qed.

Lemma req_ok_model hmac c st r : req_ok hmac c r (snd (fst (step hmac ttl_ns c st r))) = true.
Proof.
  rewrite step_eq. cbn [fst snd].
  destruct (fst (verify_request hmac ttl_ns c st r)) as [l k|reason] eqn:V.
  - apply verify_ok_inv in V as (tok & f & secret & Hh & (Pp & Pl & Pt & Pw & Pm) & _).
    assert (Vp : sane_req r = true -> valid_proof hmac c (unix_s (r_tv r)) (r_hdrs r) = true).
    { intro Sr. apply window_iff in Pw; [|apply sane_req_inv, Sr | split; [apply digits_val_nonneg | exact Pt]].
      unfold valid_proof. rewrite Hh, Pp, Pl, Pm, beqb_refl, andb_true_r. apply Z.leb_le, Pw. }
    (* whatever the mode and inner, the out is a pass or inner's error with the right called flag;
       where [admitted] says true, [Vp] supplies the valid proof *)
    unfold req_ok, gate_out.
    destruct (c_mode c), (c_inner_nil c), (r_inner r); cbn; destruct (sane_req r); cbn; auto.
  - unfold req_ok, gate_out.
    destruct (c_mode c), (c_inner_nil c), (r_inner r); cbn; rewrite ?answer_eqb_refl; reflexivity.
Qed.

Lemma all2_req_ok hmac c : forall h st, all2 (req_ok hmac c) h (map snd (run hmac ttl_ns c st h)) = true.
Proof.
  induction h as [|r h IH]; intro st; [reflexivity|]. cbn [run].
  pose proof (req_ok_model hmac c st r) as R.
  destruct (step hmac ttl_ns c st r) as [[v o] st'] eqn:Estep. cbn [fst snd] in R. cbn [map snd all2].
  rewrite R. apply IH.
Qed.

Lemma ctor_ok_skew c : ctor_ok c = true -> (0 < c_skew c)%Z.
Proof. unfold ctor_ok. intro H. apply andb_true_iff in H as [_ H]. lia. Qed.

Lemma norm_same_second h : forallb same_second (map norm h) = true.
Proof. induction h as [|r h IH]; cbn; [reflexivity|]. rewrite IH. unfold same_second. cbn. lia. Qed.

(* every reading of a one-reading history occurs twice in [reads] *)
Lemma nondecr_reads_norm h : forall a, nondecr (a :: map r_tv h) = true -> nondecr (a :: reads (map norm h)) = true.
Proof.
  induction h as [|r h IH]; intros a H; [reflexivity|].
  cbn [map reads norm r_tv r_tc] in *. apply nondecr_cons in H as [Ha H].
  apply nondecr_cons. split; [exact Ha|]. apply nondecr_cons. split; [apply Z.le_refl | apply IH, H].
Qed.
Lemma monotone1_norm h : monotone1 h = true -> monotone (map norm h) = true.
Proof.
  unfold monotone1, monotone. destruct h as [|r h]; [reflexivity|]. intro H.
  apply (nondecr_tail (r_tv r)), nondecr_reads_norm. cbn [map] in *.
  apply nondecr_cons. split; [apply Z.le_refl | exact H].
Qed.

(* [P] is whatever else a witness reads off the same outputs [o]: stated beside the replay
   clause it is evaluated with it, and the run behind [o] once *)
Lemma spec_ok_replay_fails i o (P : Prop) :
  o_ctor o = true -> c_nocache (i_cfg i) = false ->
  monotone (map norm (i_hist i)) && forallb sane_req (map norm (i_hist i))
    && (c_skew (i_cfg i) <=? max_skew)%Z = true ->
  P /\ replay_ok (hm_lookup (i_hm i)) (i_cfg i) (map norm (i_hist i)) (o_outs o) = false ->
  P /\ spec_ok i o = false.
Proof. unfold spec_ok. intros -> -> -> [p ->]. split; [exact p | apply andb_false_r]. Qed.
