(* Every cache entry of every reachable instance satisfies
   expiresAt = created(call) + cache_ttl(tokenTTL)  ([inst_ok]);
   so a hit at [now] implies the call token passes checkTokenAge at [now] ([hit_fresh]) — exactly
   what the miss path checks — and the two paths decide alike for a client that echoes its call token.
   Every run of the model satisfies the decidable property ([spec_run_holds]); lifetime and
   transparency are read off that property alone ([spec_run_nth], [spec_run_transparent]). *)
From Coq Require Import ZArith List Bool Lia.
From VR Require Import Model.C15 Lib.Lists.
Import ListNotations.
Open Scope Z_scope.

Lemma find_key_In k l e : find_key k l = Some e -> In (k, e) l.
Proof.
  induction l as [|[k' e'] t IH]; cbn [find_key]; [discriminate|].
  destruct (k' =? k)%nat eqn:E.
  - intros [= <-]. apply Nat.eqb_eq in E. subst. now left.
  - intros H. right. auto.
Qed.

Lemma Forall_remove_key {P : nat * Z -> Prop} k l : Forall P l -> Forall P (remove_key k l).
Proof. apply incl_Forall, incl_filter. Qed.

Lemma Forall_set_nth {A} (P : A -> Prop) n x l : Forall P l -> P x -> Forall P (set_nth n x l).
Proof.
  revert n. induction l as [|a l IH]; intros [|n] H Hx; cbn [set_nth]; auto;
    inversion H; subst; constructor; auto.
Qed.

Lemma map_set_nth {A B} (f : A -> B) n x l : map f (set_nth n x l) = set_nth n (f x) (map f l).
Proof.
  revert n. induction l as [|a l IH]; intros [|n]; cbn [set_nth map]; auto. now rewrite IH.
Qed.

Lemma outcome_eqb_eq a b : outcome_eqb a b = true -> a = b.
Proof. destruct a as [|[]|], b as [|[]|]; cbn; congruence. Qed.
Lemma outcome_eqb_refl a : outcome_eqb a a = true.
Proof. destruct a as [|[]|]; reflexivity. Qed.

Section Spec.
  Variable created : nat -> Z.

  Lemma cont_ok_echo t now cur call o :
    cont_ok created t now cur call o = true ->
    echo cur call = true -> sane t now cur = true -> o = decide created t now cur call.
  Proof.
    unfold cont_ok. intros H He Hs. rewrite He, Hs in H. cbn [negb orb] in H.
    rewrite andb_false_r, orb_false_r in H. apply andb_prop in H. destruct H as [H _].
    now apply outcome_eqb_eq.
  Qed.

  Lemma cont_ok_cases t now cur call o :
    cont_ok created t now cur call o = true -> o = decide created t now cur call \/ o = Acc.
  Proof.
    unfold cont_ok. intros H. apply andb_prop in H. destruct H as [H _].
    apply orb_prop in H. destruct H as [H|H].
    - left. now apply outcome_eqb_eq.
    - right. apply andb_prop in H. destruct H as [H _]. now apply outcome_eqb_eq.
  Qed.

  (* a request whose cursor or own call token is too old gets the cache-free decision, a refusal *)
  Lemma cont_ok_expired t now k cc call o :
    cont_ok created t now (k, cc) call o = true ->
    0 < t \/ cc < now -> t < now - cc \/ t < now - created k ->
    exists c, o = Ref c /\ decide created t now (k, cc) call = Ref c.
  Proof.
    intros H Hs He. pose proof (cont_ok_cases _ _ _ _ _ H) as D.
    unfold cont_ok, sane, age_ok in H. cbn [fst snd] in H. apply andb_prop in H as [_ H].
    assert (C : ((0 <? t) || (cc <? now)) && (negb (negb (t <? now - cc)) || negb (negb (t <? now - created k))) = true) by lia.
    rewrite C in H. destruct o; try discriminate. destruct D as [D|D]; [eauto | discriminate].
  Qed.

  Lemma spec_run_nth ops : forall ts o n p t,
    spec_run created ts ops o = true ->
    nth_error ops n = Some p -> nth_error (ttl_trace ts ops) n = Some (Some t) ->
    exists out dump, nth_error o n = Some (out, dump)
                     /\ op_ok created t p out = true /\ dump_ok created (ref_ttl t p) dump = true.
  Proof.
    induction ops as [|q r IH]; intros ts o n p t H Hn Ht.
    - destruct n; discriminate Hn.
    - destruct o as [|[out dump] o']; cbn [spec_run] in H; [discriminate H|].
      apply andb_prop in H as [H Hr]. cbn [ttl_trace] in Ht.
      destruct n as [|n]; cbn [nth_error] in Hn, Ht |- *.
      + injection Hn as ->. injection Ht as Ht. rewrite Ht in H. apply andb_prop in H as [H1 H2].
        exists out, dump. auto.
      + exact (IH _ _ _ _ _ Hr Hn Ht).
  Qed.

  Lemma spec_run_transparent ops : forall ts o,
    spec_run created ts ops o = true ->
    echoes_call_token ops = true -> sane_clock ts ops = true ->
    map fst o = ref_run created ts ops.
  Proof.
    induction ops as [|p r IH]; intros ts o H He Hs.
    - destruct o; [reflexivity | discriminate H].
    - destruct o as [|[out dump] o']; cbn [spec_run] in H; [discriminate H|].
      unfold echoes_call_token in He. cbn [forallb] in He. apply andb_prop in He as [Hep Her].
      unfold sane_clock in Hs. cbn [ttl_trace forallb2] in Hs. apply andb_prop in Hs as [Hsp Hsr].
      apply andb_prop in H as [Hop H]. cbn [map ref_run fst]. f_equal; [|apply IH; auto].
      unfold ref_step. destruct (nth_error ts (target p mod length ts)%nat) as [t|];
        apply andb_prop in Hop as [Hop _]; cbn [fst].
      + (* only a continuation has an outcome to compare *)
        destruct p as [i d|i n|i k|now i cur call]; cbn [op_ok ref_out] in *.
        1-3: now apply outcome_eqb_eq.
        apply cont_ok_echo; auto.
      + now apply outcome_eqb_eq.
  Qed.
End Spec.

Section Inv.
  Variable fb dcap : Z.
  Variable created : nat -> Z.

  Definition ent_ok (ct : Z) (e : nat * Z) : Prop := snd e = created (fst e) + ct.
  Definition inst_ok (s : inst) : Prop :=
    cttl s = cache_ttl fb (ttl s) /\ Forall (ent_ok (cttl s)) (ents s).
  Definition st_ok (st : list inst) : Prop := Forall inst_ok st.

  Lemma mk_ok t n : inst_ok (mk fb t n).
  Proof. split; cbn; auto. Qed.

  Lemma cache_ttl_pos t : 0 < t -> cache_ttl fb t = t.
  Proof. unfold cache_ttl. destruct (t <=? 0) eqn:A; lia. Qed.

  Lemma get_ok now k s hit s' :
    inst_ok s -> get now k s = (hit, s') ->
    inst_ok s' /\ ttl s' = ttl s /\ (hit = true -> now <= created k + cache_ttl fb (ttl s)).
  Proof.
    intros [Hc Hf]. unfold get.
    destruct (cap s <=? 0). { intros [= <- <-]. repeat split; auto. discriminate. }
    destruct (find_key k (ents s)) as [e|] eqn:F.
    2:{ intros [= <- <-]. repeat split; auto. discriminate. }
    destruct (e <? now) eqn:L; intros [= <- <-].
    - repeat split; cbn; auto.
      + now apply Forall_remove_key.
      + discriminate.
    - assert (E : ent_ok (cttl s) (k, e)).
      { rewrite Forall_forall in Hf. now apply Hf, find_key_In. }
      repeat split; cbn; auto.
      + constructor; auto. now apply Forall_remove_key.
      + intros _. rewrite <- Hc. unfold ent_ok in E. cbn [fst snd] in E. lia.
  Qed.

  Lemma put_ok now k s :
    inst_ok s ->
    inst_ok (put false now k (created k) s) /\ ttl (put false now k (created k) s) = ttl s.
  Proof.
    intros [Hc Hf]. unfold put.
    destruct (cap s <=? 0). { repeat split; auto. }
    assert (E : ent_ok (cttl s) (k, created k + cttl s)) by reflexivity.
    destruct (find_key k (ents s)); (split; [split|]); cbn; auto.
    - constructor; auto. now apply Forall_remove_key.
    - apply Forall_firstn. constructor; auto.
  Qed.

  (* the cache-free decision always satisfies the per-op property: where the own call token
     is too old, [decide] refuses, whatever call token is presented *)
  Lemma cont_ok_decide t now cur call :
    cont_ok created t now cur call (decide created t now cur call) = true.
  Proof.
    destruct cur as [k cc]. unfold cont_ok. rewrite outcome_eqb_refl. cbn [orb andb fst snd].
    destruct (sane t now (k, cc) && _) eqn:E; [|reflexivity]. unfold decide.
    destruct (age_ok t now cc) eqn:A1; cbn [negb]; [|reflexivity].
    destruct call as [|k'|]; try reflexivity.
    destruct (age_ok t now (created k')) eqn:A2; cbn [negb]; [|reflexivity].
    destruct (k' =? k)%nat eqn:Ek; cbn [negb]; [|reflexivity].
    apply Nat.eqb_eq in Ek. subst k'. rewrite A2, andb_false_r in E. discriminate.
  Qed.

  Lemma hit_fresh t now k cc :
    age_ok t now cc = true -> sane t now (k, cc) = true -> now <= created k + cache_ttl fb t ->
    age_ok t now (created k) = true.
  Proof. unfold age_ok, sane, cache_ttl. cbn [snd]. intros A Hsane H. destruct (t <=? 0) eqn:P; lia. Qed.

  Lemma cont_ok_hit t now k cc call :
    age_ok t now cc = true -> now <= created k + cache_ttl fb t ->
    cont_ok created t now (k, cc) call Acc = true.
  Proof.
    intros A1 H. unfold cont_ok. change (outcome_eqb Acc Acc) with true.
    cbn [fst snd andb]. rewrite A1. cbn [negb orb].
    destruct (sane t now (k, cc)) eqn:Hsane; cbn [negb andb]; [|now rewrite !orb_true_r].
    rewrite (hit_fresh t now k cc A1 Hsane H), orb_false_r. cbn [negb]. rewrite andb_true_r.
    (* echoing its call token, the request is accepted by [decide] too *)
    destruct call as [|k'|]; cbn [decide echo fst negb]; try apply orb_true_r.
    destruct (k' =? k)%nat eqn:Ek; cbn [negb]; [|apply orb_true_r].
    apply Nat.eqb_eq in Ek. subst k'. now rewrite A1, (hit_fresh t now k cc A1 Hsane H).
  Qed.

  Lemma cont_out now k cc call s :
    fst (cont false created now (k, cc) call s)
    = if age_ok (ttl s) now cc && fst (get now k s) then Acc else decide created (ttl s) now (k, cc) call.
  Proof.
    unfold cont, decide. destruct (age_ok (ttl s) now cc); cbn [negb andb]; [|reflexivity].
    destruct (get now k s) as [[] s1]; cbn [fst]; [reflexivity|].
    destruct call as [|k'|]; try reflexivity.
    destruct (age_ok (ttl s) now (created k')); cbn [negb]; [|reflexivity].
    now destruct (k' =? k)%nat.
  Qed.

  Lemma cont_sound now cur call s :
    inst_ok s ->
    let r := cont false created now cur call s in
    inst_ok (snd r) /\ ttl (snd r) = ttl s /\ cont_ok created (ttl s) now cur call (fst r) = true.
  Proof.
    intros Hok. destruct cur as [k cc]. cbv zeta. rewrite cont_out.
    destruct (get now k s) as [hit s1] eqn:G.
    destruct (get_ok _ _ _ _ _ Hok G) as (Hok1 & Ht1 & Hhit). cbn [fst].
    assert (Hs : let s' := snd (cont false created now (k, cc) call s) in inst_ok s' /\ ttl s' = ttl s).
    { unfold cont. rewrite G. destruct (age_ok (ttl s) now cc); cbn [negb snd]; auto.
      destruct hit; cbn [snd]; auto. destruct call as [|k'|]; cbn [snd]; auto.
      destruct (age_ok (ttl s) now (created k')); cbn [negb snd]; auto.
      destruct (k' =? k)%nat eqn:Ek; cbn [negb snd]; auto.
      apply Nat.eqb_eq in Ek. subst k'. destruct (put_ok now k s1 Hok1). split; congruence. }
    split; [apply Hs|]. split; [apply Hs|].
    destruct (age_ok (ttl s) now cc && hit) eqn:H; [|apply cont_ok_decide].
    apply andb_prop in H as [A ->]. now apply cont_ok_hit; auto.
  Qed.

  Lemma istep_sound s p o s' :
    inst_ok s -> istep false fb dcap created s p = (o, s') ->
    inst_ok s' /\ ttl s' = ref_ttl (ttl s) p /\ op_ok created (ttl s) p o = true.
  Proof.
    intros Hok. destruct p as [i d|i n|i k|now i cur call]; cbn [istep ref_ttl op_ok].
    - intros [= <- <-]. split; [apply mk_ok|split; reflexivity].
    - intros [= <- <-]. split; [apply mk_ok|split; reflexivity].
    - intros [= <- <-]. destruct (put_ok (created k) k s Hok) as [H1 H2].
      split; [exact H1|split; [exact H2|reflexivity]].
    - intros E. pose proof (cont_sound now cur call s Hok) as H. cbv zeta in H. now rewrite E in H.
  Qed.

  Lemma dump_ok_inv s : inst_ok s -> dump_ok created (ttl s) (ents s) = true.
  Proof.
    intros [Hc Hf]. unfold dump_ok. apply forallb_forall. intros e Hin.
    rewrite Forall_forall in Hf. destruct (0 <? ttl s) eqn:P; [|reflexivity]. cbn [negb orb].
    rewrite (Hf e Hin), Hc, cache_ttl_pos by lia. apply Z.leb_refl.
  Qed.

  Lemma step_sound st p :
    st_ok st ->
    let r := step false fb dcap created st p in
    st_ok (snd r)
    /\ map ttl (snd r) = ref_ttls (map ttl st) p
    /\ match nth_error (map ttl st) (target p mod length (map ttl st))%nat with
       | None => fst r = (Done, [])
       | Some t => op_ok created t p (fst (fst r)) = true
                   /\ dump_ok created (ref_ttl t p) (snd (fst r)) = true
       end.
  Proof.
    intros Hst r. subst r. unfold step, ref_ttls. rewrite map_length, nth_error_map.
    destruct (nth_error st (target p mod length st)%nat) as [s|] eqn:Hnth; cbn [option_map].
    2:{ cbn. auto. }
    assert (Hs : inst_ok s). { eapply Forall_forall; eauto. eapply nth_error_In; eauto. }
    destruct (istep false fb dcap created s p) as [o s'] eqn:Hstep.
    destruct (istep_sound _ _ _ _ Hs Hstep) as (Hs' & Ht & Hop). cbn [fst snd].
    repeat split; auto.
    - now apply Forall_set_nth.
    - rewrite map_set_nth. now rewrite Ht.
    - rewrite <- Ht. now apply dump_ok_inv.
  Qed.

  Lemma start_ok cfgs : st_ok (start fb cfgs).
  Proof.
    unfold st_ok, start. apply Forall_forall. intros s Hin. apply in_map_iff in Hin.
    destruct Hin as (c & <- & _). apply mk_ok.
  Qed.
  Lemma start_ttls cfgs : map ttl (start fb cfgs) = map fst cfgs.
  Proof. unfold start. rewrite map_map. reflexivity. Qed.

  Lemma exec_ok ops : forall st, st_ok st -> st_ok (exec false fb dcap created st ops).
  Proof.
    induction ops as [|p r IH]; intros st Hst; cbn [exec]; auto.
    apply IH. now apply step_sound.
  Qed.

  Lemma spec_run_holds ops : forall st, st_ok st ->
    spec_run created (map ttl st) ops (run false fb dcap created st ops) = true.
  Proof.
    induction ops as [|p r IH]; intros st Hst; cbn [run spec_run]; auto.
    destruct (step_sound st p Hst) as (Hst' & Hts & Hop).
    destruct (fst (step false fb dcap created st p)) as [o dump] eqn:F.
    rewrite <- Hts, IH by auto. rewrite andb_true_r.
    destruct (nth_error (map ttl st) (target p mod length (map ttl st))%nat).
    - cbn [fst snd] in Hop. destruct Hop as [-> ->]. reflexivity.
    - injection Hop as -> ->. reflexivity.
  Qed.

  (* a continuation whose cursor or own call token is too old, wherever it lands and whatever the
     caches hold: its outcome is the cache-free decision, and that is a refusal *)
  Lemma run_expired cfgs hist n now i k cc call t :
    nth_error hist n = Some (Cont now i (k, cc) call) ->
    nth_error (ttl_trace (map fst cfgs) hist) n = Some (Some t) ->
    0 < t \/ cc < now -> t < now - cc \/ t < now - created k ->
    exists c dump, decide created t now (k, cc) call = Ref c /\
      nth_error (run false fb dcap created (start fb cfgs) hist) n = Some (Ref c, dump).
  Proof.
    intros Hn Ht Hs He. rewrite <- start_ttls in Ht.
    destruct (spec_run_nth created hist _ _ _ _ _ (spec_run_holds hist _ (start_ok cfgs)) Hn Ht)
      as (o & dump & Hr & Hop & _).
    destruct (cont_ok_expired _ _ _ _ _ _ _ Hop Hs He) as (c & -> & Hd). eauto.
  Qed.

  Lemma transparent ops : forall st, st_ok st ->
    echoes_call_token ops = true -> sane_clock (map ttl st) ops = true ->
    map fst (run false fb dcap created st ops) = ref_run created (map ttl st) ops.
  Proof.
    intros st Hst. apply spec_run_transparent, spec_run_holds, Hst.
  Qed.
End Inv.

(* one ttl, no SetTokenTTL in the history: the form of DESIGN.md, Appendix A *)
Definition no_setttl (h : list op) : bool :=
  forallb (fun o => match o with SetTTL _ _ => false | _ => true end) h.

Lemma set_nth_same {A} n (x : A) l : nth_error l n = Some x -> set_nth n x l = l.
Proof.
  revert n. induction l as [|a l IH]; intros [|n]; cbn; try discriminate; auto.
  - now intros [= ->].
  - intros H. now rewrite IH.
Qed.

Lemma ref_ttls_same ts p : no_setttl [p] = true -> ref_ttls ts p = ts.
Proof.
  unfold ref_ttls. destruct (nth_error ts (target p mod length ts)%nat) eqn:Hnth; [|reflexivity].
  destruct p; try discriminate; intros _; apply set_nth_same, Hnth.
Qed.

Lemma ref_run_uniform created t m ops :
  (0 < m)%nat -> no_setttl ops = true ->
  ref_run created (repeat t m) ops = map (ref_out created t) ops.
Proof.
  intros Hm. induction ops as [|p r IH]; intros Hn; cbn [ref_run map]; auto.
  cbn [no_setttl forallb] in Hn. apply andb_prop in Hn. destruct Hn as [Hp Hr].
  rewrite ref_ttls_same, IH by (cbn; now rewrite ?Hp). f_equal.
  unfold ref_step. rewrite nth_error_repeat; [reflexivity|].
  rewrite repeat_length. apply Nat.mod_upper_bound. lia.
Qed.

Lemma sane_uniform t ts ops :
  0 < t -> Forall (fun x => x = t) ts -> no_setttl ops = true -> sane_clock ts ops = true.
Proof.
  intros Ht Hts. induction ops as [|p r IH]; intros Hn; auto.
  cbn [no_setttl forallb] in Hn. apply andb_prop in Hn. destruct Hn as [Hp Hr].
  unfold sane_clock. cbn [ttl_trace forallb2]. rewrite ref_ttls_same by (cbn; now rewrite Hp).
  apply andb_true_intro. split; [|apply IH, Hr].
  destruct (nth_error ts (target p mod length ts)%nat) as [x|] eqn:Hnth; auto.
  rewrite Forall_forall in Hts. rewrite (Hts x (nth_error_In _ _ Hnth)).
  destruct p; cbn; auto. unfold sane. lia.
Qed.

Lemma map_fst_pair (t : Z) (caps : list Z) : map fst (map (fun c => (t, c)) caps) = repeat t (length caps).
Proof. induction caps; cbn; congruence. Qed.
