(* The pool of codec writers under arbitrary interleavings of overlapping responses
   (model in Model/C17.v, section "pool").
   [step_frame]: [PInv] survives any step after which the stepping response references a
   writer that no other live response references; [frame] is its instance for a holder that
   touches only its own writer and sink. [stepped] lists what a schedule item does to a state
   satisfying [PInv] (nothing, Get, a step on the own writer, Put); the model's step is one of
   these ([pstep_stepped]), each keeps [PInv] ([stepped_inv]), and the program counters and
   recorded oracles are read off the same list ([stepped_obs]). *)
From VR Require Import Model.C17 Lib.Lists.
Local Open Scope nat_scope.

Section Pool.
Variable bodies : list (list N).

(* the program of response r: Get, Reset, one Write per chunk, codec Close, Unpin, Put *)
Definition plen (r : nat) : nat := length (body_of bodies r) + 5.
(* r references a writer it may still touch: its Get is done, its program is not *)
Definition live (s : pst) (r : nat) : Prop := 1 <= p_pc s r /\ p_pc s r < plen r.

Definition wr_at (s : pst) (r w : nat) : Prop :=
  let bd := body_of bodies r in
  (p_pc s r = 1 -> p_wr s w = idle) /\
  (2 <= p_pc s r <= length bd + 2 ->
     p_wr s w = {| w_dst := Some r; w_stream := rev (firstn (p_pc s r - 2) bd) |}) /\
  (p_pc s r = length bd + 3 -> p_wr s w = {| w_dst := Some r; w_stream := [] |}) /\
  (p_pc s r = length bd + 4 -> p_wr s w = idle).

Definition sink_at (s : pst) (r : nat) : Prop :=
  let bd := body_of bodies r in
  (p_pc s r <= length bd + 2 -> p_sink s r = []) /\
  (length bd + 3 <= p_pc s r -> p_sink s r = [Complete bd]).

(* the same two predicates with the program counter as an argument: wr_at s r w and sink_at s r
   are convertible to wr_ok r (p_pc s r) (p_wr s w) and sink_ok r (p_pc s r) (p_sink s r) *)
Definition wr_ok (r pc : nat) (v : wst) : Prop :=
  let bd := body_of bodies r in
  (pc = 1 -> v = idle) /\
  (2 <= pc <= length bd + 2 -> v = {| w_dst := Some r; w_stream := rev (firstn (pc - 2) bd) |}) /\
  (pc = length bd + 3 -> v = {| w_dst := Some r; w_stream := [] |}) /\
  (pc = length bd + 4 -> v = idle).
Definition sink_ok (r pc : nat) (sk : list seg) : Prop :=
  let bd := body_of bodies r in
  (pc <= length bd + 2 -> sk = []) /\ (length bd + 3 <= pc -> sk = [Complete bd]).

Record PInv (s : pst) : Prop := {
  i_pool : forall w, In w (p_pool s) -> w < p_fresh s /\ p_wr s w = idle;
  i_fresh : forall w, p_fresh s <= w -> p_wr s w = idle;
  i_some : forall r w, p_hold s r = Some w -> 1 <= p_pc s r /\ w < p_fresh s;
  i_ex : forall r, 1 <= p_pc s r -> exists w, p_hold s r = Some w;
  i_xpool : forall r w, live s r -> p_hold s r = Some w -> ~ In w (p_pool s);
  i_excl : forall r1 r2 w, live s r1 -> live s r2 ->
             p_hold s r1 = Some w -> p_hold s r2 = Some w -> r1 = r2;
  i_wr : forall r w, p_hold s r = Some w -> wr_at s r w;
  i_sink : forall r, sink_at s r }.

Lemma init_inv : PInv p_init.
Proof.
  constructor; cbn.
  - intros w [].
  - reflexivity.
  - discriminate.
  - intros r H. lia.
  - intros r w [H _]. cbn in H. lia.
  - intros r1 r2 w [H _]. cbn in H. lia.
  - discriminate.
  - intros r. unfold sink_at. cbn. split; [reflexivity | lia].
Qed.

Lemma upd_same {A} (f : nat -> A) k v : upd f k v k = v.
Proof. exact (fupd_same Nat.eqb Nat.eqb_eq f k v). Qed.
Lemma upd_other {A} (f : nat -> A) k v x : x <> k -> upd f k v x = f x.
Proof. exact (fupd_other Nat.eqb Nat.eqb_eq f k v x). Qed.
Lemma set_pc_same s r : set_pc s r r = S (p_pc s r).
Proof. apply upd_same. Qed.
Lemma set_pc_other s r r' : r' <> r -> set_pc s r r' = p_pc s r'.
Proof. apply upd_other. Qed.

(* the position pc in the program of a response with n chunks, and the operation there in
   the code's order (ord = true) *)
Variant op_case (n pc : nat) : option pop -> Prop :=
| oc_get : pc = 0 -> op_case n pc (Some OGet)
| oc_reset : pc = 1 -> op_case n pc (Some OReset)
| oc_write : 2 <= pc <= n + 1 -> op_case n pc (Some (OWrite (pc - 2)))
| oc_close : pc = n + 2 -> op_case n pc (Some OClose)
| oc_unpin : pc = n + 3 -> op_case n pc (Some OUnpin)
| oc_put : pc = n + 4 -> op_case n pc (Some OPut)
| oc_end : n + 5 <= pc -> op_case n pc None.

Lemma op_at_case n pc : op_case n pc (op_at true n pc).
Proof.
  unfold op_at.
  destruct (Nat.eqb_spec pc 0); [now constructor|].
  destruct (Nat.eqb_spec pc 1); [now constructor|].
  destruct (Nat.leb_spec pc (n + 1)); [constructor; lia|].
  destruct (Nat.eqb_spec pc (n + 2)); [now constructor|].
  destruct (Nat.eqb_spec pc (n + 3)); [now constructor|].
  destruct (Nat.eqb_spec pc (n + 4)); [now constructor|].
  constructor. lia.
Qed.

(* one step of response r0, after which it references w0: nobody else moves, no other
   live response references w0, and w0 is pooled only if the step ends r0's program *)
Lemma step_frame s s' r0 w0 :
  PInv s -> p_pc s r0 < plen r0 ->
  p_pc s' r0 = S (p_pc s r0) -> (forall r, r <> r0 -> p_pc s' r = p_pc s r) ->
  p_hold s' r0 = Some w0 -> (forall r, r <> r0 -> p_hold s' r = p_hold s r) ->
  (forall r, r <> r0 -> live s r -> p_hold s r <> Some w0) ->
  p_fresh s <= p_fresh s' -> w0 < p_fresh s' ->
  (forall x, In x (p_pool s') ->
     In x (p_pool s) /\ x <> w0 \/ x = w0 /\ p_pc s' r0 = plen r0 /\ p_wr s' w0 = idle) ->
  (forall w, w <> w0 -> p_wr s' w = p_wr s w) ->
  (forall r, r <> r0 -> p_sink s' r = p_sink s r) ->
  wr_at s' r0 w0 -> sink_at s' r0 ->
  PInv s'.
Proof.
  intros Hinv Hlt Epc0 Epc Eh0 Eh Hfree Hf Hw0 Hpool Ewr Esink Hwr Hsk.
  assert (Lv : forall r, r <> r0 -> live s' r -> live s r).
  { intros r Hn. unfold live. now rewrite (Epc r Hn). }
  constructor.
  - intros x Hx. destruct (Hpool x Hx) as [[Hx' Hn]|[-> [_ Hi]]]; [|now split].
    destruct (i_pool s Hinv x Hx'). split; [lia | now rewrite Ewr].
  - intros w Hw. rewrite Ewr by lia. apply (i_fresh s Hinv). lia.
  - intros r w Hr. destruct (Nat.eq_dec r r0) as [->|Hn].
    + rewrite Eh0 in Hr. injection Hr as <-. split; [lia | assumption].
    + rewrite (Eh r Hn) in Hr. rewrite (Epc r Hn). destruct (i_some s Hinv r w Hr). split; [assumption | lia].
  - intros r Hr. destruct (Nat.eq_dec r r0) as [->|Hn]; [now exists w0|].
    rewrite (Eh r Hn). apply (i_ex s Hinv). now rewrite <- (Epc r Hn).
  - intros r w Hl Hr Hi. destruct (Nat.eq_dec r r0) as [->|Hn].
    + rewrite Eh0 in Hr. injection Hr as <-. destruct Hl as [_ Hl].
      destruct (Hpool w0 Hi) as [[_ H]|[_ [H _]]]; [now apply H | lia].
    + rewrite (Eh r Hn) in Hr. destruct (Hpool w Hi) as [[Hi' _]|[-> _]].
      * exact (i_xpool s Hinv r w (Lv r Hn Hl) Hr Hi').
      * exact (Hfree r Hn (Lv r Hn Hl) Hr).
  - intros r1 r2 w H1 H2 E1 E2.
    destruct (Nat.eq_dec r1 r0) as [->|Hn1], (Nat.eq_dec r2 r0) as [->|Hn2]; try reflexivity.
    + rewrite Eh0 in E1. injection E1 as <-. rewrite (Eh r2 Hn2) in E2. now destruct (Hfree r2 Hn2 (Lv r2 Hn2 H2)).
    + rewrite Eh0 in E2. injection E2 as <-. rewrite (Eh r1 Hn1) in E1. now destruct (Hfree r1 Hn1 (Lv r1 Hn1 H1)).
    + rewrite (Eh r1 Hn1) in E1. rewrite (Eh r2 Hn2) in E2.
      exact (i_excl s Hinv r1 r2 w (Lv _ Hn1 H1) (Lv _ Hn2 H2) E1 E2).
  - intros r w Hr. destruct (Nat.eq_dec r r0) as [->|Hn].
    + rewrite Eh0 in Hr. now injection Hr as <-.
    + rewrite (Eh r Hn) in Hr. pose proof (i_wr s Hinv r w Hr) as W. unfold wr_at in *. rewrite (Epc r Hn).
      destruct (Nat.eq_dec w w0) as [->|Hd]; [|now rewrite (Ewr w Hd)].
      (* r has left w0 behind: its program is over *)
      assert (plen r <= p_pc s r).
      { destruct (le_lt_dec (plen r) (p_pc s r)) as [|Hl]; [assumption|].
        destruct (Hfree r Hn); [split; [apply (i_some s Hinv r w0 Hr) | assumption] | assumption]. }
      unfold plen in *. repeat split; intros; lia.
  - intros r. destruct (Nat.eq_dec r r0) as [->|Hn]; [assumption|].
    pose proof (i_sink s Hinv r) as K. unfold sink_at in *. now rewrite (Epc r Hn), (Esink r Hn).
Qed.

(* a step of live response r0 that touches only its own writer w0, its own sink and
   its own program counter *)
Lemma frame s s' r0 w0 :
  PInv s -> p_hold s r0 = Some w0 -> 1 <= p_pc s r0 -> S (p_pc s r0) < plen r0 ->
  p_pool s' = p_pool s -> p_hold s' = p_hold s -> p_fresh s' = p_fresh s ->
  p_pc s' r0 = S (p_pc s r0) -> (forall r, r <> r0 -> p_pc s' r = p_pc s r) ->
  (forall w, w <> w0 -> p_wr s' w = p_wr s w) ->
  (forall r, r <> r0 -> p_sink s' r = p_sink s r) ->
  wr_at s' r0 w0 -> sink_at s' r0 ->
  PInv s'.
Proof.
  intros Hinv Hh Hpc1 Hpc2 Epool Ehold Efresh Epc0 Epc Ewr Esink Hwr Hsk.
  assert (L0 : live s r0) by (unfold live; lia).
  apply (step_frame s s' r0 w0); try assumption; rewrite ?Ehold, ?Efresh, ?Epool; try assumption.
  - lia.
  - reflexivity.
  - intros r Hn Hl Hr. exact (Hn (i_excl s Hinv r r0 w0 Hl L0 Hr Hh)).
  - reflexivity.
  - apply (i_some s Hinv r0 w0 Hh).
  - intros x Hx. left. split; [assumption|]. intros ->. exact (i_xpool s Hinv r0 w0 L0 Hh Hx).
Qed.

Lemma remn_In w x l : In x (remn w l) <-> In x l /\ x <> w.
Proof.
  unfold remn. rewrite filter_In, negb_true_iff, Nat.eqb_neq. tauto.
Qed.

Lemma pick_writer_some s pick w :
  pick_writer s pick = Some w -> exists r', pick = Some r' /\ p_hold s r' = Some w /\ In w (p_pool s).
Proof.
  unfold pick_writer. destruct pick as [r'|]; [|discriminate].
  destruct (p_hold s r') as [w'|] eqn:E; [|discriminate].
  destruct (memn w' (p_pool s)) eqn:Em; [|discriminate].
  intros [= <-]. exists r'. repeat split; [assumption | now apply (existsb_eqb_In Nat.eqb Nat.eqb_eq)].
Qed.

Lemma rev_firstn_S (bd : list N) k : k < length bd ->
  rev (firstn (S k) bd) = nth k bd 0%N :: rev (firstn k bd).
Proof.
  revert k. induction bd as [|x bd IH]; intros k H; cbn in H; [lia|].
  destruct k as [|k]; [reflexivity|].
  change (firstn (S (S k)) (x :: bd)) with (x :: firstn (S k) bd).
  change (firstn (S k) (x :: bd)) with (x :: firstn k bd).
  cbn [rev nth]. rewrite IH by lia. reflexivity.
Qed.

(* only the codec Close, at pc = length + 2, changes what the sink must hold *)
Lemma sink_ok_step r pc sk : sink_ok r pc sk -> pc <> length (body_of bodies r) + 2 -> sink_ok r (S pc) sk.
Proof. intros [A B] H. split; intro; [apply A | apply B]; lia. Qed.

(* enc.Reset on a writer with no unfinished stream abandons nothing *)
Lemma reset_sink_quiet s w : w_stream (p_wr s w) = [] -> reset_sink s w = p_sink s.
Proof. unfold reset_sink. intros ->. now destruct (w_dst (p_wr s w)). Qed.

(* What a schedule item of response r0 does to a state satisfying PInv: nothing once the
   program is over; a Get (of a pooled writer or a new one, p the recorded oracle); a step on
   the holder's own writer and sink (Reset, Write, codec Close, Unpin); the Put. *)
Variant stepped (s : pst) (r0 : nat) : pst -> Prop :=
| st_over : plen r0 <= p_pc s r0 -> stepped s r0 s
| st_get w pool' f' p :
    p_pc s r0 = 0 -> p_wr s w = idle -> w < f' -> p_fresh s <= f' ->
    (forall x, In x pool' -> In x (p_pool s) /\ x <> w) ->
    (forall r, live s r -> p_hold s r <> Some w) ->
    match p with Some r' => plen r' <= p_pc s r' | None => True end ->
    stepped s r0 {| p_pool := pool'; p_wr := p_wr s; p_hold := upd (p_hold s) r0 (Some w);
                    p_sink := p_sink s; p_pc := set_pc s r0; p_fresh := f'; p_picks := p :: p_picks s |}
| st_own w0 v sk :
    p_hold s r0 = Some w0 -> 1 <= p_pc s r0 -> S (p_pc s r0) < plen r0 ->
    (forall r, r <> r0 -> sk r = p_sink s r) ->
    wr_ok r0 (S (p_pc s r0)) v -> sink_ok r0 (S (p_pc s r0)) (sk r0) ->
    stepped s r0 {| p_pool := p_pool s; p_wr := upd (p_wr s) w0 v; p_hold := p_hold s; p_sink := sk;
                    p_pc := set_pc s r0; p_fresh := p_fresh s; p_picks := p_picks s |}
| st_put w0 :
    p_hold s r0 = Some w0 -> p_pc s r0 = length (body_of bodies r0) + 4 ->
    stepped s r0 {| p_pool := w0 :: p_pool s; p_wr := p_wr s; p_hold := p_hold s; p_sink := p_sink s;
                    p_pc := set_pc s r0; p_fresh := p_fresh s; p_picks := p_picks s |}.

Lemma stepped_inv s r0 s' : PInv s -> stepped s r0 s' -> PInv s'.
Proof.
  intros Hinv [Hov|w pool' f' p Hpc Hwi Hwf Hf Hpool Hfree _|w0 v sk Hh H1 H2 Hsk Hwr Hsink|w0 Hh Hpc].
  - exact Hinv.
  - (* Get *)
    apply (step_frame s _ r0 w Hinv).
    + unfold plen. lia.
    + apply set_pc_same.
    + apply set_pc_other.
    + apply upd_same.
    + apply upd_other.
    + intros r _. apply Hfree.
    + exact Hf.
    + exact Hwf.
    + intros x Hx. left. now apply Hpool.
    + (* no writer and no sink changes *) reflexivity.
    + reflexivity.
    + unfold wr_at. cbn. rewrite set_pc_same, Hpc, Hwi. repeat split; intros; (reflexivity || lia).
    + unfold sink_at. cbn. rewrite set_pc_same. apply (sink_ok_step r0 _ _ (i_sink s Hinv r0)). lia.
  - (* a step on the own writer: pool, references and next id stay *)
    apply (frame s _ r0 w0 Hinv Hh H1 H2).
    + reflexivity.
    + reflexivity.
    + reflexivity.
    + apply set_pc_same.
    + apply set_pc_other.
    + apply upd_other.
    + exact Hsk.
    + unfold wr_at. cbn. now rewrite set_pc_same, upd_same.
    + unfold sink_at. cbn. now rewrite set_pc_same.
  - (* Put: the writer joins the pool as r0's program ends *)
    destruct (i_wr s Hinv r0 w0 Hh) as (_ & _ & _ & W4). specialize (W4 Hpc).
    assert (L0 : live s r0) by (unfold live, plen; lia).
    apply (step_frame s _ r0 w0 Hinv (proj2 L0)).
    + apply set_pc_same.
    + apply set_pc_other.
    + exact Hh.
    + reflexivity.
    + intros r Hn Hl Hr. exact (Hn (i_excl s Hinv r r0 w0 Hl L0 Hr Hh)).
    + apply le_n.
    + apply (i_some s Hinv r0 w0 Hh).
    + cbn. rewrite set_pc_same.
      intros x [<-|Hx]; [right; unfold plen; repeat split; [lia | assumption]|]. left. split; [assumption|].
      intros ->. exact (i_xpool s Hinv r0 w0 L0 Hh Hx).
    + (* no writer and no sink changes *) reflexivity.
    + reflexivity.
    + unfold wr_at. cbn. rewrite set_pc_same. repeat split; intros; lia.
    + unfold sink_at. cbn. rewrite set_pc_same. apply (sink_ok_step r0 _ _ (i_sink s Hinv r0)). lia.
Qed.

Lemma pooled_done s r w : PInv s -> In w (p_pool s) -> p_hold s r = Some w -> plen r <= p_pc s r.
Proof.
  intros Hinv Hi Hh. destruct (le_lt_dec (plen r) (p_pc s r)) as [|Hlt]; [assumption|].
  destruct (i_xpool s Hinv r w); try assumption. split; [apply (i_some s Hinv r w Hh) | assumption].
Qed.

Lemma pstep_stepped s r0 pick : PInv s -> stepped s r0 (pstep true bodies s (r0, pick)).
Proof.
  intro Hinv. unfold pstep.
  pose proof (i_sink s Hinv r0) as K. change (sink_ok r0 (p_pc s r0) (p_sink s r0)) in K.
  destruct (op_at_case (length (body_of bodies r0)) (p_pc s r0)) as [Hpc|Hpc|Hpc|Hpc|Hpc|Hpc|Hpc];
    [| | | | | |now apply st_over].
  1: { unfold apply_op. destruct (pick_writer s pick) as [w|] eqn:Ep.
       - apply pick_writer_some in Ep. destruct Ep as [r' [-> [Hr' Hin]]]. destruct (i_pool s Hinv w Hin) as [Hwf Hwi].
         apply st_get; try assumption; [lia | intros x Hx; now apply remn_In | |].
         + intros r Hl Hr. exact (i_xpool s Hinv r w Hl Hr Hin).
         + exact (pooled_done s r' w Hinv Hin Hr').
       - apply st_get; try assumption; [apply (i_fresh s Hinv); lia | lia | lia | | | exact I].
         + intros x Hx. split; [assumption|]. destruct (i_pool s Hinv x Hx). lia.
         + intros r _ Hr. destruct (i_some s Hinv r _ Hr). lia. }
  all: destruct (i_ex s Hinv r0) as [w0 Hh]; [lia|]; unfold apply_op; rewrite Hh;
       pose proof (i_wr s Hinv r0 w0 Hh) as W; change (wr_ok r0 (p_pc s r0) (p_wr s w0)) in W;
       destruct W as (W1 & W2 & W3 & W4).
  - (* Reset *)
    specialize (W1 Hpc). rewrite reset_sink_quiet by now rewrite W1.
    apply st_own; [exact Hh | lia | unfold plen; lia | reflexivity | |].
    + rewrite Hpc. repeat split; intros; (reflexivity || lia).
    + apply sink_ok_step; [assumption | lia].
  - (* Write *)
    specialize (W2 ltac:(lia)).
    apply st_own; [exact Hh | lia | unfold plen; lia | reflexivity | |].
    + rewrite W2. cbn [w_dst w_stream]. repeat split; intros; try lia. f_equal.
      replace (S (p_pc s r0) - 2) with (S (p_pc s r0 - 2)) by lia.
      rewrite rev_firstn_S; [reflexivity | lia].
    + apply sink_ok_step; [assumption | lia].
  - (* codec Close: the finished stream reaches the holder's own sink *)
    specialize (W2 ltac:(lia)). rewrite W2. cbn [w_dst w_stream].
    apply st_own; [exact Hh | lia | unfold plen; lia | intros r Hn; now apply upd_other | |].
    + rewrite Hpc. repeat split; intros; (reflexivity || lia).
    + rewrite upd_same, (proj1 K) by lia. rewrite rev_involutive, Hpc, Nat.add_sub, firstn_all.
      split; intros; [lia | reflexivity].
  - (* Unpin *)
    specialize (W3 Hpc). rewrite reset_sink_quiet by now rewrite W3.
    apply st_own; [exact Hh | lia | unfold plen; lia | reflexivity | |].
    + rewrite Hpc. repeat split; intros; (reflexivity || lia).
    + apply sink_ok_step; [assumption | lia].
  - now apply st_put.
Qed.

Lemma stepped_obs s r s' : stepped s r s' ->
  (forall r', r' <> r -> p_pc s' r' = p_pc s r') /\
  p_pc s' r = (if p_pc s r <? plen r then S (p_pc s r) else p_pc s r) /\
  (if p_pc s r =? 0
   then exists p, p_picks s' = p :: p_picks s /\
                  match p with Some r' => plen r' <= p_pc s r' | None => True end
   else p_picks s' = p_picks s).
Proof.
  assert (L : 5 <= plen r) by (unfold plen; lia).
  intros H. split.
  - (* only r's counter can move *)
    intros r' Hn. destruct H; [reflexivity | now apply set_pc_other..].
  - destruct H as [Hov|w pool' f' p Hpc _ _ _ _ _ Hp|w0 v sk _ H1 H2 _ _ _|w0 _ Hpc];
      cbn [p_pc p_picks]; rewrite ?set_pc_same.
    + (* program over *)
      rewrite (proj2 (Nat.ltb_ge _ _) Hov). destruct (Nat.eqb_spec (p_pc s r) 0); [lia | now split].
    + (* Get *)
      rewrite Hpc, (proj2 (Nat.ltb_lt _ _)) by lia. split; [reflexivity | now exists p].
    + (* own writer *)
      rewrite (proj2 (Nat.ltb_lt _ _)) by lia. destruct (Nat.eqb_spec (p_pc s r) 0); [lia | now split].
    + (* Put *)
      rewrite (proj2 (Nat.ltb_lt _ _)) by (unfold plen; lia). destruct (Nat.eqb_spec (p_pc s r) 0); [lia | now split].
Qed.

Lemma step_inv s rp : PInv s -> PInv (pstep true bodies s rp).
Proof. intro Hinv. destruct rp as [r pick]. exact (stepped_inv s r _ Hinv (pstep_stepped s r pick Hinv)). Qed.

Lemma prun_inv sched : PInv (prun true bodies sched).
Proof. exact (fold_left_preserves _ PInv step_inv sched p_init init_inv). Qed.

Lemma resp_ok_true sched r : resp_ok bodies (prun true bodies sched) r = true.
Proof.
  unfold resp_ok. destruct (i_sink _ (prun_inv sched) r) as [H2 H1].
  destruct (Nat.leb_spec (length (body_of bodies r) + 3) (p_pc (prun true bodies sched) r)).
  - rewrite H1 by assumption. cbn. now rewrite (list_eqb_refl _ N.eqb_refl).
  - rewrite H2 by lia. reflexivity.
Qed.

Lemma picks_legal_from sched : forall s cnt, PInv s ->
  (forall r, p_pc s r = Nat.min (cnt r) (plen r)) ->
  exists new, p_picks (fold_left (pstep true bodies) sched s) = rev new ++ p_picks s /\
              s_picks_legal bodies cnt (map fst sched) new = true.
Proof.
  induction sched as [|[r pick] t IH]; intros s cnt Hinv Hc; cbn [fold_left map fst s_picks_legal].
  - exists []. now split.
  - destruct (stepped_obs s r _ (pstep_stepped s r pick Hinv)) as (P1 & P2 & P3).
    (* the counters of the schedule and the program counters stay in step *)
    assert (Hc' : forall r', p_pc (pstep true bodies s (r, pick)) r' = Nat.min (upd cnt r (S (cnt r)) r') (plen r')).
    { intro r'. destruct (Nat.eq_dec r' r) as [->|Hn].
      - rewrite upd_same, P2, Hc. destruct (Nat.ltb_spec (Nat.min (cnt r) (plen r)) (plen r)); lia.
      - rewrite upd_other, P1 by assumption. apply Hc. }
    destruct (IH _ _ (step_inv s (r, pick) Hinv) Hc') as [new [E1 E2]].
    rewrite Hc in P3. assert (Hlen : 5 <= plen r) by (unfold plen; lia).
    destruct (Nat.eqb_spec (cnt r) 0) as [Hz|Hnz].
    + rewrite Hz in P3, E2. cbn [Nat.min Nat.eqb] in P3. destruct P3 as [p [Ep Hp]].
      exists (p :: new). split.
      * rewrite E1, Ep. cbn [rev]. now rewrite <- app_assoc.
      * rewrite E2, andb_true_r. destruct p as [r'|]; [|reflexivity].
        apply Nat.leb_le. fold (plen r'). rewrite Hc in Hp. lia.
    + exists new. split; [|assumption]. rewrite E1.
      destruct (Nat.eqb_spec (Nat.min (cnt r) (plen r)) 0); [lia | now rewrite P3].
Qed.

Lemma attach_fst rids : forall seen oracle, map fst (attach seen rids oracle) = rids.
Proof.
  induction rids as [|r t IH]; intros seen oracle; cbn [attach]; [reflexivity|].
  destruct (memn r seen); [cbn; now rewrite IH|].
  destruct oracle as [|o os]; cbn; now rewrite IH.
Qed.

Lemma model_picks_legal sched :
  s_picks_legal bodies (fun _ => 0) (map fst sched) (rev (p_picks (prun true bodies sched))) = true.
Proof.
  destruct (picks_legal_from sched p_init (fun _ => 0) init_inv) as [new [E1 E2]]; [intro r; reflexivity|].
  unfold prun. rewrite E1. cbn [p_picks p_init]. now rewrite app_nil_r, rev_involutive.
Qed.

End Pool.

(* a witness against the other order of the last two steps (Put, then Unpin) *)
Definition wit_bodies : list (list N) := [[7%N]; [9%N; 10%N]].
(* A = 0 runs Get Reset Write CodecClose Put; B = 1 gets A's writer, resets it, writes
   its first chunk; A's late Unpin; B writes on, closes, puts, unpins *)
Definition wit_sched : list (nat * option nat) :=
  [(0, None); (0, None); (0, None); (0, None); (0, None);
   (1, Some 0); (1, None); (1, None);
   (0, None);
   (1, None); (1, None); (1, None); (1, None)].

(* the same schedule under the code's order is harmless (the oracle is not honoured) *)
Lemma witness_fixed_ok :
  map (resp_ok wit_bodies (prun true wit_bodies wit_sched)) [0; 1] = [true; true].
Proof. vm_compute. reflexivity. Qed.
