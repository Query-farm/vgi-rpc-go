(* Props/C05.v — property C05: error envelopes carry a stable cross-language
   error type. *)
From VR Require Import Model.C05 Proofs.C05.

(* an RpcError VALUE is named by its own Type *)
Theorem rpc_error_named_by_its_type : forall ty m k, exc_type (GRpc ty m k) = ty.
Proof. reflexivity. Qed.

(* every other error is named from the closed set of wire names *)
Theorem exception_type_in_closed_set : forall e,
  (exists ty m k, e = GRpc ty m k) \/ In (exc_type e) wire_names.
Proof.
  destruct e; cbn [exc_type wire_names In]; try (right; tauto).
  left. now exists ty, msg, kind.
Qed.

(* no Go type name reaches the wire: type, kind and message are unchanged when
   every Go dynamic type name inside the error value is erased *)
Theorem no_go_type_name_on_wire : forall e,
  exc_type e = exc_type (erase e) /\ err_kind e = err_kind (erase e) /\ err_text e = err_text (erase e).
Proof.
  induction e as [ | | | | | | | | |p i [IH1 [IH2 IH3]]]; cbn; try (repeat split; reflexivity).
  repeat split; try reflexivity. now rewrite IH3.
Qed.

(* an error wrapped to ANY depth (including a wrapped RpcError) is a RuntimeError
   without kind, and its message is carried whole *)
Theorem wrapped_error_is_runtime_error : forall n p e,
  exc_type (wrapn (S n) p e) = exc_runtime_error /\ err_kind (wrapn (S n) p e) = [].
Proof. split; reflexivity. Qed.

Theorem wrapped_message_is_carried : forall n p e, err_text (wrapn n p e) = prefixes n p ++ err_text e.
Proof.
  intros n p e. induction n as [|n IH]; cbn [wrapn prefixes err_text app]; [reflexivity|].
  rewrite IH. now rewrite <- !app_assoc.
Qed.

Theorem panic_is_runtime_error_on_every_path : forall p shown,
  exc_type (effective p (Panicked shown)) = exc_runtime_error /\ err_kind (effective p (Panicked shown)) = [].
Proof. split; reflexivity. Qed.

Theorem error_kind_only_for_typed_errors : forall e,
  err_kind e <> [] ->
  (exists ty m k, e = GRpc ty m k /\ k <> []) \/
  match e with GNotImpl _ | GNotImplMsg _ | GProtoVer _ | GSessionLost _ | GDraining | GExtCap _ => True | _ => False end.
Proof.
  destruct e; cbn [err_kind]; intro H; try (right; exact I); try congruence.
  left. exists ty, msg, kind. split; [reflexivity | exact H].
Qed.

Theorem traceback_and_frames_iff_debug : forall i, o_tb (model i) = i_debug i /\ o_frames (model i) = i_debug i.
Proof. split; reflexivity. Qed.

Theorem spec_holds_on_model : forall i, spec_ok i (model i) = true.
Proof.
  intro i. unfold spec_ok, model. cbn [o_nexc o_type o_msg o_logmsg o_kind o_tb o_frames].
  rewrite !beqb_refl, !Bool.eqb_reflx, N.eqb_refl. rewrite !andb_true_r. cbn [andb].
  destruct (i_src i) as [e|shown]; cbn [effective expected_type].
  - destruct e; cbn [exc_type]; rewrite ?beqb_refl; cbn [andb]; try reflexivity;
      try (apply existsb_beqb_In; cbn [wire_names In]; tauto).
  - cbn [exc_type]. rewrite beqb_refl. cbn [andb]. apply existsb_beqb_In. cbn [wire_names In]. tauto.
Qed.

(* the pre-fix %T fallback violated the property *)
Theorem go_type_fallback_refuted :
  exists e, (forall ty m k, e <> GRpc ty m k) /\ ~ In (exc_type_legacy e) wire_names.
Proof. exact legacy_refuted. Qed.

Example nonvacuous :
  exc_type (wrapn 2 (str "ctx") (GRpc (str "ValueError") (str "bad") [])) = exc_runtime_error
  /\ err_text (wrapn 2 (str "ctx") (GRpc (str "ValueError") (str "bad") [])) = str "ctx: ctx: ValueError: bad"
  /\ exc_type (GCustom (str "*main.harnessCustomErr") (str "x")) = exc_runtime_error.
Proof. vm_compute. repeat split; reflexivity. Qed.
