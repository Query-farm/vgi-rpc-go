(* Props/C03.v — property C03: no client-supplied bytes can crash the server or
   abort an HTTP exchange.  The lemmas the proofs rest on are in Proofs/C03.v.

   Inputs are NOT bounded: the custom metadata of a request is an arbitrary list
   of arbitrary byte-string pairs, row counts are arbitrary N, wrapped request
   columns / ArrowSerializable payloads nest to any depth, tokens are arbitrary
   byte strings.  What is abstracted: Arrow IPC decoding of the body (its result
   — decode error / no batch / a batch — is part of the input; robustness of the
   arrow-go / flatbuffers / zstd decoders themselves is covered by the harness
   as a labelled test: partial), the AEAD/base64/gob/zstd steps of a token
   (oracles returning option), scripted handlers that return normally. *)
From Coq Require Import List NArith Bool ZArith Lia.
From VR Require Import Model.C03 Proofs.C03.
From VR Require Model.C10.
Import ListNotations.
Open Scope N_scope.

(* PREMISE of the dispatch theorems (named, explicit): decoding the request body
   with arrow-go does not kill the process.  It is NOT vacuous and it is NOT
   always true of the code as it stands: see decoder_fatal_current_finding. *)

(* no panic escapes any route, for every request whose body the decoder survives *)
Theorem dispatch_never_panics : forall i : input, decodes (i_body i) -> o_out (model i) <> OEscaped.
Proof. intros i D. apply run_no_escape; [apply current_safe | reflexivity | exact D]. Qed.

(* over HTTP every request gets a status line *)
Theorem http_always_answers : forall i : input,
  decodes (i_body i) -> is_http (i_route i) = true ->
  ((100 <=? o_status (model i)) && (o_status (model i) <? 600)) = true.
Proof. intros i D H. now apply http_good; [apply current_safe | | | ]. Qed.

(* on a pipe the request is answered or the connection is closed, and a
   connection that answered (with a result OR an error stream) serves the next
   request *)
Theorem pipe_answers_or_closes : forall i : input,
  decodes (i_body i) -> i_route i = Pipe ->
  o_next (model i) = i_follow i && negb (outcome_eqb (o_out (model i)) OClose).
Proof.
  intros i D R. pose proof (dispatch_never_panics i D) as NE. unfold model, run in *. rewrite R in *. cbn [o_next o_out] in *.
  destruct (pipe_one current (i_pv i) (i_body i) (i_ins i)); cbn; try reflexivity. congruence.
Qed.

(* the property in the decidable form that the correspondence check evaluates
   on the implementation holds of the model *)
Theorem spec_holds_on_model : forall i : input, decodes (i_body i) -> spec_ok i (model i) = true.
Proof.
  intros i D. unfold spec_ok. pose proof (dispatch_never_panics i D) as NE.
  destruct (is_http (i_route i)) eqn:H.
  - pose proof (http_always_answers i D H) as ST. destruct (o_out (model i)); try congruence; exact ST.
  - assert (R : i_route i = Pipe) by (destruct (i_route i); cbn in H; congruence).
    rewrite (pipe_answers_or_closes i D R).
    destruct (o_out (model i)); try congruence; cbn; destruct (i_follow i); reflexivity.
Qed.

(* parameter binding: with the recover at its boundary nothing escapes
   deserializeParams, for any batch nesting, target, row count *)
Theorem deserialize_never_panics : forall guard t rows c, deser true guard t rows c <> Panic.
Proof. exact deser_recover_np. Qed.

(* ... and for a plain parameter struct the guards inside the function already
   suffice without the recover, at every nesting depth of wrapped requests *)
Theorem deserialize_plain_guards_suffice : forall c rows, deser false true TInt rows c <> Panic.
Proof.
  fix IH 1. intros c rows.
  destruct c as [ | | | | p | p | | | ]; cbn [deser recov schema_eq andb]; try discriminate.
  - (* CX *) destruct (rows <? 1) eqn:E; [discriminate | rewrite (row0_pos _ E); discriminate].
  - (* CReq *) destruct (0 <? rows); [ | discriminate].
    destruct p as [ | | | | r' c']; try discriminate. apply IH.
Qed.

(* opening a state token: the length checks make every slice in range, for
   every token text and whatever base64 / AEAD / zstd / gob return *)
Theorem open_token_never_panics :
  forall (b64 : bytes -> option bytes) (aead_open : bytes -> bytes -> option bytes)
         (zstd_dec : bytes -> option bytes) (gob_dec : bytes -> option unit) version token,
  open_token b64 aead_open zstd_dec gob_dec true version token <> Panic.
Proof.
  intros b64 aead_open zstd_dec gob_dec version token.
  unfold open_token. destruct (b64 token) as [raw | ]; [ | discriminate]. cbn [andb].
  destruct (Nat.ltb (length raw) (Z.to_nat c03_token_min_len)) eqn:E; [discriminate | ].
  apply Nat.ltb_ge in E. destruct bounds as [B1 B2].
  apply bind_np; [apply index0_np; lia | intro v0]. destruct (negb (v0 =? version)); [discriminate | ].
  apply bind_np; [apply slice_np; lia | intro nonce]. apply bind_np; [apply slice_np; lia | intro ct].
  destruct (aead_open nonce ct) as [sealed | ]; [ | discriminate].
  apply bind_np; [apply unpack_np | intro plain]. destruct (gob_dec plain); discriminate.
Qed.

(* any set of repairs under which parameter binding cannot panic and tokens
   are bound to their method is enough *)
Theorem repairs_suffice : forall fx i,
  (forall t rows c, deser (f_recover fx) (f_rowguard fx) t rows c <> Panic) ->
  f_tokbind fx = true -> decodes (i_body i) -> o_out (run fx i) <> OEscaped.
Proof. exact run_no_escape. Qed.

(* finite sweep: 283812 request shapes (6 routes x 10 method classes x 9
   metadata extras x rows 0/1/2 x 29 schema / payload classes x 9 token
   classes ...) all satisfy the spec — the bounded statement of the design.
   Every body of the lattice decodes, so this is an instance of
   spec_holds_on_model. *)
Theorem lattice_sweep : forallb (fun i => spec_ok i (model i)) sweep = true /\ N.of_nat (length sweep) = 283812.
Proof.
  split; [ | exact sweep_size]. apply forallb_forall. intros i Hi.
  apply spec_holds_on_model, (proj1 (Forall_forall _ _) sweep_decodes i Hi).
Qed.
Corollary lattice_sweep_forall : forall i, In i sweep -> spec_ok i (model i) = true.
Proof. exact (proj1 (forallb_forall _ _) (proj1 lattice_sweep)). Qed.

(* the protocol-version gate parses the client's vgi_rpc.protocol_version outside
   every recover: for EVERY byte string that is not canonical MAJOR.MINOR.PATCH
   (empty components such as 1..0, lone dots, missing or extra components,
   non-ASCII digits, raw bytes, any length) every gated call — pipe unary /
   producer / exchange / dynamic, HTTP unary, HTTP stream init — is answered with
   the ProtocolVersionError and the pipe serves the next request; whatever
   metadata precedes the value *)
Theorem malformed_version_answered_everywhere : forall cv, C10.parse cv = None ->
  model (mkv Pipe [] (pv_req (str "u_int") cv)) = {| o_out := OErr pv_error_type; o_status := 0; o_errhdr := false; o_next := true |}
  /\ model (mkv Pipe [] (pv_req (str "p_only") cv)) = {| o_out := OErr pv_error_type; o_status := 0; o_errhdr := false; o_next := true |}
  /\ model (mkv Pipe [] (pv_req (str "e_only") cv)) = {| o_out := OErr pv_error_type; o_status := 0; o_errhdr := false; o_next := true |}
  /\ model (mkv Pipe [] (pv_req (str "dyn") cv)) = {| o_out := OErr pv_error_type; o_status := 0; o_errhdr := false; o_next := true |}
  /\ model (mkv HUnary (str "u_int") (pv_req (str "u_int") cv)) = hresp 400 pv_error_type
  /\ model (mkv HInit (str "p_only") (pv_req (str "p_only") cv)) = hresp 400 pv_error_type
  /\ model (mkv HInit (str "e_only") (pv_req (str "e_only") cv)) = hresp 400 pv_error_type
  /\ model (mkv HInit (str "dyn") (pv_req (str "dyn") cv)) = hresp 400 pv_error_type.
Proof.
  intros cv H. repeat split.
  1-4: apply pipe_refuses_version; (exact H || reflexivity).
  all: apply http_refuses_version; (exact H || reflexivity).
Qed.

Theorem malformed_version_refused_after_any_metadata : forall (m : list kv) cv,
  C10.parse cv = None -> pv_refused true (m ++ [(meta_protocol_version, cv)]) = true.
Proof. exact pv_refused_snoc. Qed.

Theorem version_never_parsed_when_ungated : forall cv,
  o_out (model (mkv Pipe [] (pv_req c03_method_describe cv))) = OOk
  /\ pv_refused false (std_meta (str "u_int") ++ [(meta_protocol_version, cv)]) = false.
Proof. intros cv. split; [cbv -[C10.parse]; reflexivity | reflexivity]. Qed.

(* the premise is met by the shapes a hand-written parser gets wrong *)
Example malformed_versions_nonvacuous :
  C10.parse (str "1..0") = None /\ C10.parse (str "..") = None /\ C10.parse [] = None
  /\ C10.parse (str "2.10.") = None /\ C10.parse (str "2.10.3") <> None.
Proof. vm_compute. repeat split; discriminate. Qed.

(* FINDING in the code as it stands (arrow-go v18 ipc reader, reached from
   ReadRequest / handleStreamExchange): a body for which the decoder requests
   memory the runtime cannot map kills the process on every route that reaches
   the decoder; the full-strength statement  forall i, o_out (model i) <> OEscaped
   is FALSE for the faithful model.  Concrete 456-byte input: corpus/C03.jsonl,
   tag finding-decoder-oom. *)
Theorem decoder_fatal_current_finding :
  o_out (model (mk Pipe [] BFatal TShort)) = OEscaped
  /\ o_out (model (mk HUnary (str "u_int") BFatal TShort)) = OEscaped
  /\ o_out (model (mk HInit (str "p_only") BFatal TShort)) = OEscaped
  /\ o_out (model (mk HExchange (str "e_only") BFatal TShort)) = OEscaped.
Proof. vm_compute. repeat split. Qed.

(* the unrepaired code violated the property *)

(* before a41386f: a zero-row batch let through by the vgi_rpc.location
   exemption had its row 0 read: pipe, HTTP unary, HTTP stream init (the pipe
   witness here; all three in Proofs.C03.legacy_zero_row) *)
Theorem zero_row_location_legacy_refuted :
  exists i, i_route i = Pipe /\ o_out (run pre_rowguard i) = OEscaped /\ o_out (model i) = OErr e_type.
Proof. exists w_zero_row. split; [reflexivity | split; [exact (proj1 legacy_zero_row) | exact (proj1 current_on_witnesses)]]. Qed.

(* before 17a92dc: an ArrowSerializable payload whose inner column has another
   type panicked in reflect on all four callers of deserializeParams *)
Theorem ser_mismatch_legacy_refuted :
  o_out (run pre_recover (w_ser_mismatch Pipe (str "u_ser"))) = OEscaped
  /\ o_out (run pre_recover (w_ser_mismatch Pipe (str "p_ser"))) = OEscaped
  /\ o_out (run pre_recover (w_ser_mismatch HUnary (str "u_ser"))) = OEscaped
  /\ o_out (run pre_recover (w_ser_mismatch HInit (str "p_ser"))) = OEscaped.
Proof. vm_compute. repeat split. Qed.

(* before e4cc5ac: a producer's token at an exchange route hit an unchecked
   type assertion *)
Theorem cross_method_token_legacy_refuted :
  o_out (run pre_tokbind w_cross_token) = OEscaped /\ model w_cross_token = hresp 400 e_runtime.
Proof. split; [vm_compute; reflexivity | exact (proj2 (proj2 current_on_witnesses))]. Qed.

(* without the length checks openToken slices out of range *)
Theorem open_token_unguarded_refuted :
  exists b64 aead zd gd v tok, open_token b64 aead zd gd false v tok = Panic.
Proof. exists (fun _ => Some [6]), (fun _ _ => None), (fun _ => None), (fun _ => None), 6, []. vm_compute. reflexivity. Qed.

(* non-vacuity: every outcome class is produced by some request, and the
   premises of repairs_suffice hold for the current code *)
Example nonvacuous :
  o_out (model (mk Pipe [] (BBatch (std_meta (str "u_int")) 1 CX) TShort)) = OOk
  /\ o_out (model (mk Pipe [] BGarbage TShort)) = OClose
  /\ o_out (model (mk Pipe [] (BBatch (std_meta (str "u_int")) 2 CX) TShort)) = OErr e_protocol
  /\ model (mk HExchange (str "e_only") (BBatch [(c03_meta_stream_state, tok_marker)] 1 CX) TOwn) = hok
  /\ model (mk HUnary (str "u_ser") (BBatch (std_meta (str "u_ser")) 1 (CP (PBatch 0 CA))) TShort) = hresp 400 e_type
  /\ (forall t rows c, deser (f_recover current) (f_rowguard current) t rows c <> Panic)
  /\ decodes (BBatch (std_meta (str "u_int")) 1 CX) /\ decodes BGarbage.
Proof.
  repeat apply conj.
  1-5: vm_compute; reflexivity.
  - exact current_safe.
  - discriminate.
  - discriminate.
Qed.
