(* Props/C20.v — property C20: every HTTP response carries consistent
   correlation and capability headers. Lemmas in Proofs/C20.v.

   Model: Model/C20.v. [serve_one c hook_ok q] is ServeHTTP on one request of
   class [q_kind q] against configuration [c]; [serve_seq c nfail qs] is a run
   of requests against one server whose serve-start hook fails for the first
   [nfail] of them. Header names are the compiled constants of Gen/Consts.v. *)
From VR Require Import Model.C20 Proofs.C20.

(* (a) X-Request-ID.  For ALL header value lists (arbitrary bytes, any length) and every minted id
   of newRequestID's shape: the resolved id is the caller's first value trimmed
   as Go's strings.TrimSpace does, when that is 1..128 bytes; otherwise it is
   the minted id: exactly 16 lower-case hex characters. *)
Theorem request_id_spec : forall vs mint,
  mint_shape mint = true ->
  let id := go_trim_space (hdr_get vs) in
  let r := resolve_request_id vs mint in
  ((1 <= length id <= 128)%nat /\ r = id)
  \/ (~ (1 <= length id <= 128)%nat /\ r = mint
      /\ length r = 16%nat /\ Forall (fun c => is_lhex c = true) r).
Proof.
  intros vs mint Hm. cbv zeta. rewrite resolve_spec.
  destruct (usable (go_trim_space (hdr_get vs))) eqn:E.
  - left. split; [now apply usable_iff | reflexivity].
  - right. split; [intro H; apply usable_iff in H; congruence|].
    split; [reflexivity|]. now apply mint_shape_iff.
Qed.

(* What trimmed means, for ALL byte strings: [go_trim_space s] is s with a
   maximal run of white-space runes (UTF-8 encodings of unicode.IsSpace,
   [space_tokens]) removed from each end and nothing else changed: s splits as
   spaces ++ result ++ spaces and the result neither starts nor ends with a
   white-space rune. Bytes >= 0x80 that do not form such a rune (invalid UTF-8,
   Latin-1 NBSP 0xA0, U+200B ...) are kept, as Go keeps them. *)
Theorem trim_space_is_maximal_trim : forall s, exists l r,
  s = l ++ go_trim_space s ++ r
  /\ made_of space_tokens l /\ made_of space_tokens r
  /\ (forall t, In t space_tokens -> has_prefix t (go_trim_space s) = false)
  /\ (forall t, In t space_tokens -> has_suffix t (go_trim_space s) = false).
Proof.
  intro s. unfold go_trim_space.
  destruct (trim_left_spec s) as [l [Hl [Hs Hp]]].
  destruct (trim_right_spec (go_trim_left s)) as [r [Hr [Hs' Hq]]].
  exists l, r. split; [now rewrite <- Hs'|]. repeat split; try assumption.
  intros t Ht. destruct (has_prefix t (go_trim_right (go_trim_left s))) eqn:E; [|reflexivity].
  apply (has_prefix_app_l _ _ r) in E. rewrite <- Hs' in E. rewrite (Hp t Ht) in E. discriminate.
Qed.

(* (b) Every exit path.  The i-th response of a run is ServeHTTP on the i-th request, with the
   serve-start hook having succeeded iff at least [nfail] requests preceded. *)
Theorem run_is_pointwise : forall c qs nf i q,
  nth_error qs i = Some q ->
  nth_error (serve_seq c nf qs) i = Some (serve_one c (Nat.leb nf i) q).
Proof.
  intro c. unfold serve_seq. induction qs as [|q0 qs IH]; intros nf i q H; [destruct i; discriminate|].
  destruct i as [|i]; cbn [nth_error] in H.
  - inversion H; subst. destruct nf; reflexivity.
  - destruct nf as [|n]; cbn [serve_seq_gen nth_error].
    + rewrite (IH O i q H). reflexivity.
    + rewrite (IH n i q H). reflexivity.
Qed.

(* Every exit (startup-hook 500, preflight 204, 413, mux 404/405, 401/503/500
   from authenticate, 415, 400, 403, 200 ...) of every configuration, whether or
   not the hook succeeded, carries X-Request-ID with the value of (a). *)
Theorem every_exit_has_request_id : forall c hook_ok q,
  In H_rid (r_std (serve_one c hook_ok q))
  /\ r_rid (serve_one c hook_ok q) = resolve_request_id (q_rid q) (q_mint q).
Proof.
  intros. destruct (serve_one_shape c hook_ok q) as (st & extra & echo & -> & _).
  split; [now left | reflexivity].
Qed.

(* Every response produced after the serve-start hook succeeded carries every
   capability header the configuration advertises; supported-encodings and
   externalization-enabled are among them for every configuration. *)
Theorem capabilities_after_hook : forall c q,
  incl (caps (tg c)) (r_std (serve_one c true q))
  /\ In H_supenc (caps (tg c)) /\ In H_ext_enabled (caps (tg c)).
Proof.
  intros. split; [|apply caps_always].
  destruct (serve_one_shape c true q) as (st & extra & echo & -> & _).
  intros h H. right. apply in_or_app. now left.
Qed.

(* The externalization capability is never absent after the hook succeeded, for
   every external-location configuration: none, a resolve-only config (present
   but without a Storage backend) or a Storage-backed one; its value says true
   exactly when a Storage backend is configured. ([c20_table_resolve] re-tabulates
   the compiled code under a resolve-only config, see compiled_lattice_points.) *)
Theorem externalization_capability_after_hook : forall c q,
  In H_ext_enabled (r_std (serve_one c true q))
  /\ r_ext (serve_one c true q) = (if is_storage (c_extmode c) then 2 else 1)%N.
Proof.
  intros. destruct (serve_one_shape c true q) as (st & extra & echo & -> & _).
  split; [right; apply in_or_app; left; apply caps_always | reflexivity].
Qed.

(* ... and the response to a request refused because the hook failed carries
   the correlation id and nothing else that is tracked. *)
Theorem hook_failure_exit : forall c q,
  r_status (serve_one c false q) = 500%N /\ r_std (serve_one c false q) = [H_rid]
  /\ r_expose (serve_one c false q) = None.
Proof. intros c q. unfold serve_one, serve_one_gen. cbn. auto. Qed.

(* Nothing outside [emittable] is ever put on a response, echo headers appear
   only with sticky sessions on and only for configured names: [emittable] is
   the right set for (c) to speak about. *)
Theorem responses_within_emittable : forall c hook_ok q,
  (forall h, In h (r_std (serve_one c hook_ok q)) -> In h (emittable (tg c)))
  /\ incl (r_echo (serve_one c hook_ok q)) (c_echo c)
  /\ (r_echo (serve_one c hook_ok q) <> [] -> c_sticky c = true).
Proof. intros. split; [apply serve_one_within | apply serve_one_echo]. Qed.

(* (c) CORS.  For EVERY configuration of the feature lattice (14 toggles: compression,
   external storage, max request/response/externalized bytes, upload-URL
   provider, max upload bytes, proxy-proof required, extra proxy auth headers,
   token introspection, sticky sessions, echo headers, OAuth metadata,
   authenticator; 2^14 = 16384 points) every correlation, capability,
   rejection or session header the configuration can emit is in the
   Access-Control-Expose-Headers list: each piece of [emittable] stands under
   the same toggle in [expose_std] or lies in its unconditional part. *)
Theorem expose_covers_emittable : forall t h,
  In h (emittable t) -> In h (expose_std t).
Proof. exact expose_covers. Qed.

Theorem lattice_is_complete :
  (forall t, In t all_toggles) /\ N.of_nat (length all_toggles) = 16384%N.
Proof. split; [exact all_toggles_complete | exact lattice_size]. Qed.

(* Echo headers, for ANY list of configured names (no bound): each
   VGI-Echo-<name> is in the rendered expose list. *)
Theorem echo_headers_exposed : forall t echo n,
  In n echo -> In (echo_name n) (names (expose_std t) echo).
Proof. intros t echo n. apply echo_exposed. Qed.

(* On the wire: with CORS enabled, every response after hook success carries
   the expose list, and every tracked header ON that response is in it. *)
Theorem cors_exposes_what_the_response_carries : forall c q,
  c_cors c = true ->
  r_expose (serve_one c true q) = Some (expose_std (tg c), c_echo c)
  /\ (forall h, In h (r_std (serve_one c true q)) -> In h (expose_std (tg c)))
  /\ incl (r_echo (serve_one c true q)) (c_echo c).
Proof.
  intros c q Hc. split; [|split].
  - destruct (serve_one_shape c true q) as (st & extra & echo & -> & _). cbn [r_expose andb]. now rewrite Hc.
  - apply serve_one_exposed.
  - apply serve_one_echo.
Qed.

(* The tie to the compiled code, re-checked at every build: at every tabulated
   lattice point (all configurations with at most two toggles on or at most two
   off) the masks produced by CALLING addCapabilityHeaders, writeUnauthorized,
   authenticate, writeArrow, compressResponseWriter.finish,
   writeStickyResponseHeaders, handleIntrospectToken and addCorsHeaders equal
   the model's [emittable] / [expose_std], and emitted-but-not-exposed is empty
   on the real masks themselves. Dropping a name from the expose list in Go
   breaks this theorem at make time. *)
Theorem compiled_lattice_points : forall r,
  In r (c20_table ++ c20_table_resolve) -> row_ok r = true /\ row_covered r = true.
Proof.
  intros r H. rewrite table_resolve_same in H.
  assert (Hr : row_ok r = true).
  { apply in_app_or in H. destruct H as [H | H]; exact (proj1 (forallb_forall _ _) table_rows_are_model r H). }
  split; [exact Hr | now apply row_ok_covered].
Qed.

(* The decidable form, evaluated on the implementation's observables. *)
Theorem spec_holds_on_model : forall i, oracle_ok i = true -> spec_ok i (model i) = true.
Proof.
  intro i. destruct i as [vs m | c nf qs]; cbn [oracle_ok model model_gen spec_ok]; intros Hm.
  - now apply rid_ok_resolve.
  - now apply seq_ok_model.
Qed.

(* The server before fix 846e992 violated the property: Retry-After (503 from an unavailable authenticator, 429/503 from token
   introspection) was emitted but not exposed. *)
Theorem expose_legacy_refuted :
  exists t, In H_retry_after (emittable t) /\ ~ In H_retry_after (expose_std_legacy t).
Proof.
  exists (tg witness_config). split.
  - apply hmem_in. vm_compute. reflexivity.
  - intro H. apply hmem_in in H. vm_compute in H. discriminate.
Qed.

Theorem spec_legacy_refuted :
  exists i, oracle_ok i = true /\ spec_ok i (model_legacy i) = false.
Proof. exists witness_input. split; vm_compute; reflexivity. Qed.

(* non-vacuity *)
Example premises_satisfiable :
  mint_shape (str "0123456789abcdef") = true
  /\ oracle_ok witness_input = true
  /\ (0 < length c20_table)%nat /\ (0 < length c20_table_resolve)%nat
  /\ c_cors witness_config = true
  /\ go_trim_space (hx "c2a02069642d31e2808309") = str "id-1"
  /\ resolve_request_id [hx "c2a02069642d31e2808309"; str "second"] (str "0123456789abcdef") = str "id-1"
  /\ resolve_request_id [str "  "] (str "0123456789abcdef") = str "0123456789abcdef".
Proof.
  repeat split; try (vm_compute; reflexivity); apply Nat.ltb_lt; vm_compute; reflexivity.
Qed.
