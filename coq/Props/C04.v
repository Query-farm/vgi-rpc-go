(* Props/C04.v — property C04: unary calls return the handler's value or its
   error, after its logs. Lemmas on runs of log batches are in Proofs/C04.v. *)
From VR Require Import Model.C04 Proofs.C04.

(* For every call (method, parameter, request id, requested level of ANY text,
   any list of emitted logs, any outcome): the response is the admitted log
   messages in emission order followed by one final batch; on success exactly
   one data batch and no exception, on failure exactly one exception and no data. *)
Theorem unary_response_shape : forall i,
  response_frames i =
    map (log_frame (i_reqid i)) (filter (admitted (i_loglevel i)) (i_logs i)) ++ [final_frame i]
  /\ (i_fail i = None ->
        count is_data (response_frames i) = 1%nat /\ count is_exc (response_frames i) = 0%nat)
  /\ (forall f, i_fail i = Some f ->
        count is_exc (response_frames i) = 1%nat /\ count is_data (response_frames i) = 0%nat).
Proof.
  intro i. split; [reflexivity|]. unfold response_frames, final_frame.
  split; [intro H | intros f H]; rewrite H, !count_app, logs_no_data, logs_no_exc.
  - destruct (i_method i); split; reflexivity.
  - split; reflexivity.
Qed.

Theorem unary_logs_in_emission_order : forall i,
  map log_key (removelast (response_frames i)) =
  map (fun m => (lg_level m, lg_msg m)) (filter (admitted (i_loglevel i)) (i_logs i)).
Proof. intro i. unfold response_frames. rewrite removelast_last. apply logs_keys. Qed.

Theorem unary_log_admitted_iff_priority : forall req m,
  admitted req m = true <-> (prio (lg_level m) <= prio (effective_level req))%Z.
Proof. intros req m. apply Z.leb_le. Qed.

(* the decidable form evaluated on the implementation's observables: schema,
   log prefix, request-id echo on every log and exception batch, result value
   (or empty batch for void), exception type. *)
Theorem spec_holds_on_model : forall i, spec_ok i (model i) = true.
Proof.
  intro i. unfold spec_ok, model, response_frames. cbn [o_streams st_schema st_frames].
  rewrite removelast_last, last_last, forallb_app, !count_app.
  rewrite beqb_refl, logs_all_log, logs_keys, logs_extras, logs_reqid, logs_no_data, logs_no_exc.
  rewrite (list_eqb_refl _ (pair_eqb_refl _ _ beqb_refl beqb_refl)), (list_eqb_refl _ kv_eqb_refl).
  unfold final_frame. destruct (i_fail i) as [f|]; [|destruct (i_method i)];
    cbn; rewrite ?beqb_refl, ?Z.eqb_refl; reflexivity.
Qed.

Example nonvacuous :
  let i := {| i_transport := Http; i_method := UInt; i_x := 3%Z; i_reqid := str "r1"; i_loglevel := str "INFO";
              i_logs := [ {| lg_level := str "DEBUG"; lg_msg := str "d"; lg_extras := [] |};
                          {| lg_level := str "WARN"; lg_msg := str "w"; lg_extras := [(str "k", str "v")] |} ];
              i_fail := Some (EPlain (str "boom")); i_value := 4%Z |} in
  length (response_frames i) = 2%nat /\ count is_exc (response_frames i) = 1%nat.
Proof. vm_compute. split; reflexivity. Qed.
