(* Props/C29.v — property C29: sticky sessions are isolated per caller and
   serialized per session.  The invariants behind the theorems are in Proofs/C29.v.
   All theorems quantify over EVERY list of thread programs (requests with any
   handler script and outcome ok/err/panic, deletes, clock advances, reaper
   sweeps, drain on/off, shutdown) and EVERY schedule (list of thread ids) of
   the step model in Model/C29.v; [run ... (init ps) sched = (st, tr)] says that
   [st] is the state and [tr] the event trace after that schedule. *)
From VR Require Import Model.C29 Lib.Lists Proofs.C29.
From Coq Require Import Permutation.

(* 1. Isolation.  Whenever the token handed to thread k resolves for a request
   of caller c' on worker w', then k is a request that opened the session, w' is
   the worker it was opened on, c' is the caller that opened it (callers with
   NUL-free domains), and the session is live: in the registry, not yet closed,
   not past its expiry.  Contrapositive: any other token, identity or worker,
   or a closed / expired session, gets session_lost ([resolve] returns None and
   the request's only response is RLost; a garbage token is [resolve _ _ _ None]). *)
Theorem resolvable_only_by_owner_here : forall dttl ps sched st tr k tok w' c' st1 evs s,
  run dttl ps (init ps) sched = (st, tr) ->
  token_of st k = Some tok ->
  resolve st w' c' (Some tok) = (st1, evs, Some s) ->
  exists w c tk acc ttl body out,
    nth_error ps k = Some (PReq w c tk acc ttl body out) /\ w' = w /\
    (dom_ok c = true -> dom_ok c' = true -> c' = c) /\
    s = k_sid tok /\ ~ In s (closes st) /\
    exists e, In e (ents st) /\ e_sid e = s /\ e_w e = w /\ (now st <= e_exp e)%Z.
Proof.
  intros dttl ps sched st tr k tok w' c' st1 evs s H Hk Hr. pose proof (reachT _ _ _ _ _ H) as IT.
  destruct (reachC _ _ _ _ _ H) as [IC _].
  unfold token_of in Hk. destruct (nth_error (thrs st) k) as [th|] eqn:Hn; [|discriminate].
  destruct (t_ph th); try discriminate.
  destruct (IT _ _ _ Hn Hk) as (w & c & tk & acc & ttl & body & out & Hp & Hw & Ha).
  apply resolve_found in Hr as (-> & -> & -> & Hw' & Ha' & e & Hin & Es & Ew & Ek & Ex).
  exists w, c, tk, acc, ttl, body, out. repeat split; auto; try congruence.
  - intros Hd Hd'. apply aad_inj; auto. congruence.
  - apply (InvC_live _ _ _ IC), in_map_iff. eauto.
  - exists e. repeat split; auto. congruence.
Qed.

Theorem unknown_token_is_lost : forall st w c, resolve st w c None = (st, [], None).
Proof. reflexivity. Qed.

(* Concurrent resumes of an expired session (the stress cases are ordinary
   programs -- opener, clock advance, N actors bearing the token, reaper,
   shutdown -- run under arbitrary schedules): an expired or absent session
   resolves for nobody, and by [close_exactly_once] (3. below) the eviction closes its
   state once, for EVERY interleaving of the actors' critical sections. *)
Theorem expired_session_is_lost : forall st w c tok,
  (forall e, In e (ents st) -> e_sid e = k_sid tok -> (e_exp e < now st)%Z) ->
  snd (resolve st w c (Some tok)) = None.
Proof.
  intros st w c tok Hexp. destruct (resolve st w c (Some tok)) as [[st1 evs] [s|]] eqn:E; [|reflexivity].
  apply resolve_found in E as (_ & _ & -> & _ & _ & e & Hin & Es & _ & _ & Ex).
  specialize (Hexp e Hin Es). lia.
Qed.

(* 2. Mutual exclusion.  In every reachable state at most one thread (request
   inside its handler, or DELETE inside its critical section) holds a given
   session. *)
Theorem same_session_mutex : forall dttl ps sched st tr,
  run dttl ps (init ps) sched = (st, tr) ->
  forall t1 t2 th1 th2 s,
    nth_error (thrs st) t1 = Some th1 -> nth_error (thrs st) t2 = Some th2 ->
    held_by th1 = Some s -> held_by th2 = Some s -> t1 = t2.
Proof.
  intros dttl ps sched st tr H t1 t2 th1 th2 s H1 H2 E1 E2. destruct (reachL _ _ _ _ _ H) as [[_ I2 _ _] _].
  pose proof (I2 _ _ _ H1 E1) as A. pose proof (I2 _ _ _ H2 E2) as B. congruence.
Qed.

(* 3. Close runs exactly once.  Over the whole trace: no session's state is
   closed twice, only opened sessions are closed, and every opened session is
   either still registered and never closed, or gone from the registry and
   closed (once) -- whichever of CloseSession, DELETE, expiry on get, the
   reaper or shutdown removed it, and however they raced. *)
Theorem close_exactly_once : forall dttl ps sched st tr,
  run dttl ps (init ps) sched = (st, tr) ->
  NoDup (closed_in tr)
  /\ (forall s, In s (closed_in tr) -> In s (opened_in tr))
  /\ (forall s, In s (opened_in tr) ->
        (In s (sids (ents st)) /\ ~ In s (closed_in tr)) \/ (~ In s (sids (ents st)) /\ In s (closed_in tr))).
Proof.
  intros dttl ps sched st tr H. destruct (reachC_trace _ _ _ _ _ H) as [ND P].
  pose proof (fun s => NoDup_app_not_in _ _ s ND) as X. repeat split.
  - exact (NoDup_app_r _ _ ND).
  - intros s Hs. apply (Permutation_in _ (Permutation_sym P)), in_or_app. now right.
  - intros s Hs. apply (Permutation_in _ P), in_app_or in Hs as [Hl|Hc]; [left | right]; split; auto.
    intro Hl. exact (X s Hl Hc).
Qed.

(* 4. New sessions are refused while draining: an OpenSession step on a
   draining worker answers with a refusal and registers nothing. *)
Theorem refused_while_draining : forall dttl st t th w c acc ttl,
  memN w (drain st) = true ->
  exists a, snd (do_act dttl st t th w c acc ttl HOpen) = [EAct t a] /\ (a = ARefused \/ a = ADraining)
            /\ ents (fst (fst (do_act dttl st t th w c acc ttl HOpen))) = ents st.
Proof.
  intros dttl st t th w c acc ttl Hd. unfold do_act. destruct (negb acc); [exists ARefused; auto|].
  destruct (match t_sess th with Some _ => negb (t_closed th) | None => false end); [exists ARefused; auto|].
  rewrite Hd. exists ADraining. auto.
Qed.

(* 5. No request leaves a session locked after it completes: every held
   per-session mutex belongs to a thread that has not answered yet -- whatever
   its handler outcome (ok, err or panic: the model's completion step is the
   deferred ReleaseLock). *)
Theorem no_lock_left_held : forall dttl ps sched st tr,
  run dttl ps (init ps) sched = (st, tr) ->
  forall s t, In (s, t) (locks st) ->
    exists t' th, nth_error (thrs st) t' = Some th /\ held_by th = Some s /\ t_ph th <> PhDone.
Proof.
  intros dttl ps sched st tr H s t Hin. destruct (reachL _ _ _ _ _ H) as [[_ _ I3 _] _].
  assert (exists t', lock_of s (locks st) = Some t') as [t' Hl].
  { unfold lock_of. destruct (find (fun p => fst p =? s) (locks st)) as [p|] eqn:E; [eauto|].
    exfalso. eapply find_none in E; eauto. cbn [fst] in E. now rewrite N.eqb_refl in E. }
  destruct (I3 _ _ Hl) as [th [Hn Hh]]. exists t', th. repeat split; auto.
  intro Ep. unfold held_by in Hh. rewrite Ep in Hh. discriminate.
Qed.

(* The decidable forms evaluated on the implementation's traces hold on the model.
   FULL statement:  forall i, spec_ok i (model i) = true,  where
   spec_ok = specL (mutual exclusion of handler sections + no lock held once all
   requests answered) && specC (Close at most once, only on opened sessions, ids
   fresh, nothing opened on a draining worker) && specI (every handler entry on a
   session is by the owner, on the owning worker, with the session's own token,
   and the session was neither closed nor expired when the request arrived)
   && specX (no 204 DELETE ran Close under another request's handler).
   Proved here: the specL, specC and specX conjuncts.  Missing: the specI conjunct as a
   trace monitor (its content is theorem 1 at the state level; specI itself is
   evaluated on every implementation trace by the correspondence check). *)
Theorem spec_holds_on_model_partial : forall i, specL i (model i) && specC i (model i) && specX i (model i) = true.
Proof. intro i. now rewrite model_meets_spec_LC, specX_model. Qed.

(* 6. Teardown is serialized with calls.  State form: whenever a DELETE
   /__session__ is inside its critical section on s (about to run, or having
   run, registry.close and with it the state's Close()), no request is inside a
   handler on s and no other thread holds s -- for every schedule. *)
Theorem teardown_under_lock : forall dttl ps sched st tr t th s u,
  run dttl ps (init ps) sched = (st, tr) ->
  nth_error (thrs st) t = Some th -> t_ph th = PhDel s u ->
  in_call_other st t s = false /\
  forall t' th', nth_error (thrs st) t' = Some th' -> held_by th' = Some s -> t' = t.
Proof.
  intros dttl ps sched st tr t th s u H Ht Ep. destruct (reachL _ _ _ _ _ H) as [Hinv _]. split.
  - eapply holder_alone; eauto. unfold held_by. now rewrite Ep.
  - intros t' th' Hn Hh. eapply same_session_mutex; eauto. unfold held_by. now rewrite Ep.
Qed.

(* Trace form (the monitor evaluated on the implementation): no DELETE that
   answers 204 ever had the state's Close() run while another request was inside
   its handler on that session. *)
Theorem teardown_serialized : forall i, specX i (model i) = true.
Proof. exact specX_model. Qed.

(* The swapped order -- registry.close BEFORE entry.lock.Lock() in
   handleStickyDelete ([model_sw]) -- violates it: request 1 is inside its
   handler on session 0 when DELETE 2 closes the state underneath it. *)
Definition alice : caller := Auth (str "bearer") (str "alice").
Definition teardown_witness : input :=
  {| i_dttl := 250%Z;
     i_progs := [PReq 0 alice TNone true 150%Z [HOpen] OOk;
                 PReq 0 alice (TOf 0) false 0%Z [] OOk;
                 PDelete 0 alice (TOf 0)];
     i_sched := [0; 0; 0; 1; 1; 2; 2; 2; 1; 2; 2; 2]%nat |}.
Theorem delete_close_before_lock_refuted :
  specX teardown_witness (model_sw teardown_witness) = false
  /\ In (EUnder 2 0) (o_trace (model_sw teardown_witness))
  /\ spec_ok teardown_witness (model teardown_witness) = true.
Proof. vm_compute. repeat split. tauto. Qed.

(* Not part of the property text, recorded because the model exhibits it: a
   request that resolved its token while another request held the session runs
   its handler after that other request closed the session (the state object it
   sees has already been Close()d). *)
Definition stale_witness : input :=
  {| i_dttl := 250%Z;
     i_progs := [PReq 0 alice TNone true 150%Z [HOpen] OOk;
                 PReq 0 alice (TOf 0) false 0%Z [HClose] OOk;
                 PReq 0 alice (TOf 0) false 0%Z [] OPanic];
     i_sched := [0; 0; 0; 1; 1; 2; 2; 1; 1; 2; 2]%nat |}.
Theorem handler_may_run_on_closed_session :
  In (EEnter 2 (Some 0) true) (o_trace (model stale_witness)) /\ o_locked (model stale_witness) = [].
Proof. vm_compute. split; [tauto | reflexivity]. Qed.

(* non-vacuity: in the run above, just before thread 1 starts, the premises of
   [resolvable_only_by_owner_here] hold for the owner and fail for a stranger *)
Example premises_satisfiable :
  let '(st, _) := run 250%Z (i_progs stale_witness) (init (i_progs stale_witness)) [0; 0; 0]%nat in
  (exists tok, token_of st 0 = Some tok /\ snd (resolve st 0 alice (Some tok)) = Some 0
               /\ snd (resolve st 1 alice (Some tok)) = None
               /\ snd (resolve st 0 (Auth (str "bearer") (str "bob")) (Some tok)) = None
               /\ snd (resolve st 0 Anon (Some tok)) = None).
Proof. vm_compute. eexists. repeat split. Qed.
