(* Props/C24.v — property C24: the credential extractors accept exactly what they
   are configured to accept.
   Model: Model/C24.v (bearer_auth = BearerAuthenticateStatic; split_rq =
   splitRespectingQuotes; parse_xfcc = ParseXfcc; extract_cn = extractCN;
   xfcc_auth = MtlsAuthenticateXfcc without Validate; qunesc = url.QueryUnescape). *)
From VR Require Import Model.C24 Proofs.C24.

(* Static bearer.  Accepted with identity p exactly when the (first) Authorization value is the
   bytes of the scheme prefix followed by a configured token whose identity is p.
   nodup_keys is the Go map invariant (one entry per token). *)
Theorem bearer_accept_iff : forall toks hdrs p,
  nodup_keys toks = true ->
  (bearer_auth toks hdrs = BAccept p <->
   exists tok, In (tok, p) toks /\ hd [] hdrs = bearer_prefix ++ tok).
Proof.
  intros toks hdrs p Hn. pose proof (bearer_auth_cases toks hdrs) as C. split.
  - intro E. now rewrite E in C.
  - intros (tok & Hin & Eh). destruct (bearer_auth toks hdrs) as [q|t].
    + destruct C as (tok' & Hin' & Eh'). rewrite Eh in Eh'. apply app_inv_head in Eh'. subst tok'.
      f_equal. exact (nodup_keys_inj toks tok q p Hn Hin' Hin).
    + now destruct (proj2 C tok p Hin).
Qed.

(* Everything else is refused, with a ValueError: absent or empty header, other
   scheme, other case, extra or missing blanks, near-miss tokens. *)
Theorem bearer_refuses_otherwise : forall toks hdrs,
  ~ (exists tok p, In (tok, p) toks /\ hd [] hdrs = bearer_prefix ++ tok) ->
  bearer_auth toks hdrs = BReject value_error.
Proof.
  intros toks hdrs H. pose proof (bearer_auth_cases toks hdrs) as C.
  destruct (bearer_auth toks hdrs) as [p|t].
  - destruct H. destruct C as [tok C]. now exists tok, p.
  - now destruct C as [-> _].
Qed.

(* XFCC splitter.  For EVERY text, delimiter and quote state: joining the parts with the
   delimiter gives the text back (nothing lost, duplicated or reordered). *)
Theorem split_then_join_is_identity : forall d inq s, join [d] (split_rq d inq s) = s.
Proof. intros d inq s. apply join_split_rq. Qed.

(* Conversely: any non-empty list of parts, each of which reads from outside
   quotes back to outside quotes without meeting the delimiter outside quotes
   ([closed d], defined by the scanner [scan] in Proofs/C24.v), is recovered. *)
Theorem join_then_split_is_identity : forall d parts,
  d <> QUOTE -> parts <> [] -> Forall (closed d) parts ->
  split_rq d false (join [d] parts) = parts.
Proof. exact split_rq_join. Qed.

(* A double-quoted value is ONE part whatever bytes it holds (commas, semicolons,
   quotes, backslashes): quoted delimiters never split. *)
Theorem quoted_value_never_splits : forall d v,
  split_rq d false (quoted_text v) = [quoted_text v].
Proof. intros d v. exact (split_whole d false false _ (quoted_closed d v)). Qed.

Theorem unescape_inverts_escape : forall v, unescape_q (escape_q v) = v.
Proof. exact unescape_escape. Qed.

(* URL-encoded fields are decoded: QueryUnescape inverts QueryEscape on every
   byte string. *)
Theorem url_decoding_inverts_encoding : forall v,
  all_bytes v = true -> qunesc (qescape v) = Some v.
Proof. exact qunesc_qescape. Qed.

(* XFCC parser against the grammar.  For every well-formed syntax tree (any number of elements, any number of
   pairs, keys in any letter case, unknown keys, bare or quoted values holding
   arbitrary bytes, blanks around every token, cert/uri/by URL-encoded) the
   parser applied to the rendered header returns exactly the denotation of the
   tree. *)
Theorem parse_render_roundtrip : forall a,
  wf_header a = true -> parse_xfcc (render_header a) = denote a.
Proof.
  intros a H. unfold wf_header in H. unfold parse_xfcc, render_header, denote.
  destruct a as [|fs a']; [reflexivity|].
  rewrite split_rq_join.
  - rewrite !flat_map_concat_map, map_map. f_equal. apply map_ext_in. intros x Hx. apply parse_elem_render.
    rewrite forallb_forall in H. now apply H.
  - discriminate.
  - discriminate.
  - revert H. apply Forall_map_wf. exact element_closed.
Qed.

(* Default identity.  The authenticator: a SelectElement other than empty/first/last is refused at
   construction; otherwise no header, an empty header or a header without
   elements is a ValueError, and in every other case the principal is extractCN
   of the Subject of the selected element (first, or last for last) and the
   claims are that element's fields. *)
Theorem default_identity_is_cn_of_selected_subject : forall sel hdrs,
  sel_ok sel = true ->
  xfcc_auth sel hdrs =
  match select sel (parse_xfcc (hd [] hdrs)) with
  | Some e => XOk dom_mtls (extract_cn (e_subject e)) (e_hash e) (e_subject e) (e_uri e) (e_dns e) (e_by e)
  | None => XErr value_error
  end.
Proof. exact xfcc_auth_char. Qed.

Theorem bad_select_is_refused : forall sel hdrs, sel_ok sel = false -> xfcc_auth sel hdrs = XCfgErr.
Proof. exact xfcc_auth_badsel. Qed.

(* extractCN against the DN grammar: for every well-formed DN (any number of
   RDNs, escaped commas and other escapes in values, blanks after commas, type
   names in any case) the result is the value text of the first RDN of type CN,
   and empty when there is none. *)
Theorem extract_cn_is_the_cn : forall d, wf_dn d = true -> extract_cn (render_dn d) = cn_of d.
Proof.
  intros d H. unfold extract_cn. destruct d as [|r d']; [reflexivity|].
  rewrite dn_split_render by (auto; discriminate). rewrite filter_rdns by exact H. now apply first_cn_render.
Qed.

(* End to end on the two grammars. *)
Theorem default_identity_on_grammar : forall sel a e dn,
  sel_ok sel = true -> wf_header a = true -> select sel (denote a) = Some e ->
  e_subject e = render_dn dn -> wf_dn dn = true ->
  xfcc_auth sel [render_header a] =
  XOk dom_mtls (cn_of dn) (e_hash e) (e_subject e) (e_uri e) (e_dns e) (e_by e).
Proof.
  intros sel a e dn Hs Hw He Hd Hdn. rewrite (xfcc_auth_char _ _ Hs). cbn [hd].
  rewrite parse_render_roundtrip by exact Hw.
  rewrite He. rewrite Hd at 1. now rewrite extract_cn_is_the_cn.
Qed.

(* The decidable form, evaluated on the implementation by the correspondence check. *)
Theorem spec_holds_on_model : forall i, spec_ok i (model i) = true.
Proof.
  destruct i as [toks hdrs | sel hdrs | sel a | s | d | v]; cbn [model spec_ok].
  - destruct (nodup_keys toks); [apply bearer_spec_holds | reflexivity].
  - unfold xfcc_obs. rewrite beqb_refl. exact (xfcc_obs_spec sel hdrs).
  - pose proof (xfcc_obs_spec sel [render_header a]) as X. unfold xfcc_obs in *. cbn [hd] in X. rewrite X. destruct (wf_header a) eqn:W; [|reflexivity].
    rewrite parse_render_roundtrip by exact W. apply (list_eqb_refl elem_eqb elem_eqb_refl).
  - reflexivity.
  - destruct (wf_dn d) eqn:W; [|reflexivity]. rewrite extract_cn_is_the_cn by exact W. apply beqb_refl.
  - destruct (all_bytes v) eqn:W; [|reflexivity]. rewrite qunesc_qescape by exact W. cbn. apply beqb_refl.
Qed.

(* non-vacuity *)
Definition ex_dn : list rdn :=
  [ {| r_pad := []; r_attr := str "O"; r_val := map DPlain (str "Example") |};
    {| r_pad := [SP]; r_attr := str "cn"; r_val := map DPlain (str "Doe") ++ [DEsc COMMA; DPlain SP] ++ map DPlain (str "John") |};
    {| r_pad := []; r_attr := str "CN"; r_val := map DPlain (str "second") |} ].

Definition ex_field (k : bytes) (v : fval) : field :=
  {| f_ws1 := []; f_key := k; f_ws2 := []; f_ws3 := []; f_val := v; f_ws4 := [] |}.

Definition ex_header : header :=
  [ [ ex_field (str "Hash") (Bare (str "ab12"));
      {| f_ws1 := [SP]; f_key := str "SUBJECT"; f_ws2 := [9]; f_ws3 := [SP]; f_val := Quoted (render_dn ex_dn); f_ws4 := [SP] |};
      ex_field (str "URI") (Bare (str "spiffe://td/a b,c"));
      ex_field (str "dns") (Quoted (str "a;b"));
      ex_field (str "X-Other") (Quoted [QUOTE; BSL; COMMA]) ];
    [ ex_field (str "By") (Quoted (str "100%")) ] ].

Example premises_satisfiable :
  wf_header ex_header = true /\ wf_dn ex_dn = true /\
  length (denote ex_header) = 2%nat /\
  (exists e, select [] (denote ex_header) = Some e /\ e_subject e = render_dn ex_dn
             /\ e_uri e = str "spiffe://td/a b,c" /\ e_dns e = [str "a;b"]) /\
  cn_of ex_dn = str "Doe\, John" /\
  sel_ok sel_last = true /\
  nodup_keys [(str "t1", str "alice"); (str "t2", str "bob")] = true /\
  Forall (closed COMMA) (map render_element ex_header).
Proof.
  repeat split; try (vm_compute; reflexivity).
  - eexists. repeat split; vm_compute; reflexivity.
  - repeat constructor.
Qed.
