(* Props/C17.v — property C17: response compression is negotiated in the client's
   preference order and is lossless. The lemmas are in Proofs/C17.v and Proofs/C17Pool.v.

   Reading guide.  MODEL (follows the Go code): parse_accept, choose, producible,
   advertise, finish, serve.  SPEC (written independently): s_pieces / s_norm /
   s_items = the normalised non-empty comma-separated items of a header value;
   s_pref cu st = every item of the custom header, then every item of the standard
   header (no de-duplication, no merging); Chosen prod l r = walking l, the first
   item that is identity or producible decides (identity: r = None).
   All theorems quantify over ALL byte strings as header values. *)
From VR Require Import Model.C17 Proofs.C17Pool Proofs.C17.

(* 1. The chooser meets the relational specification, for all header strings and
      every producible set: its outcome is the one the client's preference order
      determines ([] = identity, no compression). *)
Theorem choose_meets_spec : forall cu st prod,
  Chosen prod (s_pref cu st) (enc_opt (fst (choose cu st prod))).
Proof.
  intros cu st prod.
  apply chosen_iff. rewrite choose_spec. destruct (s_first prod (s_pref cu st)) as [c|] eqn:E; [|reflexivity].
  cbn [fst]. apply s_first_some in E. destruct E as [_ [E _]]. apply pref_nonempty in E.
  now rewrite nonempty_enc_opt.
Qed.

(* 2. What Chosen means, without recursion: Some c iff c is producible, is not
      identity, and occurs in the preference list after a prefix containing neither
      identity nor any producible codec; None iff nothing decisive occurs at all or
      identity occurs after such a prefix (an identity listed earlier disables
      compression). Chosen is a function of the list. *)
Theorem chosen_is_first_decisive : forall prod l r,
  Chosen prod l r <->
  match r with
  | Some c => c <> identity /\ In c prod /\
              exists l1 l2, l = l1 ++ c :: l2 /\ forall x, In x l1 -> ~ Decisive prod x
  | None => (forall x, In x l -> ~ Decisive prod x) \/
            (exists l1 l2, l = l1 ++ identity :: l2 /\ forall x, In x l1 -> ~ Decisive prod x)
  end.
Proof.
  intros prod l r.
  split.
  - induction 1 as [|l|c l Hc Hi|c l r Hc Hi _ IH].
    + left. intros x [].
    + right. exists [], l. split; [reflexivity | intros x []].
    + repeat split; try assumption. exists [], l. split; [reflexivity | intros x []].
    + assert (Hd : forall l1, (forall x, In x l1 -> ~ Decisive prod x) ->
                               forall x, In x (c :: l1) -> ~ Decisive prod x).
      { intros l1 H x [<-|Hx]; [intros [E|E]; contradiction | now apply H]. }
      destruct r as [c'|].
      * destruct IH as [H1 [H2 [l1 [l2 [-> H3]]]]]. repeat split; try assumption.
        exists (c :: l1), l2. split; [reflexivity | now apply Hd].
      * destruct IH as [H|[l1 [l2 [-> H]]]]; [left; now apply Hd|].
        right. exists (c :: l1), l2. split; [reflexivity | now apply Hd].
  - destruct r as [c|].
    + intros [H1 [H2 [l1 [l2 [-> H3]]]]]. apply chosen_prefix; [assumption | now constructor].
    + intros [H|[l1 [l2 [-> H]]]].
      * rewrite <- (app_nil_r l). apply chosen_prefix; [assumption | constructor].
      * apply chosen_prefix; [assumption | constructor].
Qed.

Theorem chosen_deterministic : forall prod l r1 r2,
  Chosen prod l r1 -> Chosen prod l r2 -> r1 = r2.
Proof. intros prod l r1 r2 H1 H2. apply chosen_iff in H1, H2. congruence. Qed.

(* 3. The items of a header are well defined: the pieces are THE decomposition of
      the header at its commas ... *)
Theorem pieces_are_the_comma_split : forall h,
  join [COMMA] (s_pieces h) = h /\ Forall (fun p => ~ In COMMA p) (s_pieces h) /\
  forall ps, ps <> [] -> Forall (fun p => ~ In COMMA p) ps -> join [COMMA] ps = h -> ps = s_pieces h.
Proof.
  intros h.
  split; [apply pieces_join | split; [apply pieces_nocomma|]].
  intros ps Hn Hf <-. symmetry. now apply pieces_unique.
Qed.

(*    ... and the code's tokenizer (Split, TrimSpace, cut at the semicolon, TrimSpace,
      ToLower, skip empty, first occurrence wins) returns exactly those items, each
      once, in order of first occurrence. *)
Theorem parse_accept_spec : forall h,
  parse_accept h = s_uniq (s_items h) /\ NoDup (parse_accept h) /\
  forall t, In t (parse_accept h) <-> In t (s_items h).
Proof.
  intros h.
  rewrite parse_accept_dedup. split; [symmetry; apply s_uniq_dedup | split; [apply NoDup_dedup|]].
  intro t. rewrite In_dedup. cbn [In]. tauto.
Qed.

(* 4. usedCustom is reported exactly when the winner was offered on the custom
      header and not on the standard one. *)
Theorem used_custom_iff : forall cu st prod,
  snd (choose cu st prod) = true <->
  exists c, Chosen prod (s_pref cu st) (Some c) /\ In c (s_items cu) /\ ~ In c (s_items st).
Proof.
  intros cu st prod.
  rewrite used_custom_iff. split; intros [c [H1 H2]]; exists c; split; try assumption;
    now apply chosen_iff.
Qed.

(* 5. The server, for every compression level, header pair, response content type
      and body: the response is compressed iff it is a non-empty Arrow body and the
      client's order selects a codec c from the producible set of that level; then
      c is stamped in Content-Encoding, unless it was offered only on the custom
      header, in which case it is stamped in X-VGI-Content-Encoding — never both;
      otherwise neither header is stamped. *)
Theorem stamp_rule : forall lvl cu st ctype ne,
  let '(ce, xce, z) := serve lvl cu st ctype ne in
  (z = true <-> ctype = c17_arrow_content_type /\ ne = true /\
                exists c, Chosen (producible lvl) (s_pref cu st) (Some c)) /\
  (forall c, z = true -> Chosen (producible lvl) (s_pref cu st) (Some c) ->
     if s_only_custom cu st c then ce = [] /\ xce = c else ce = c /\ xce = []) /\
  (z = false -> ce = [] /\ xce = []).
Proof.
  intros lvl cu st ctype ne.
  rewrite serve_spec. destruct (beqb ctype c17_arrow_content_type && ne) eqn:Ec.
  - apply andb_true_iff in Ec as [->%beqb_eq ->].
    destruct (s_first (producible lvl) (s_pref cu st)) as [c|] eqn:E.
    + destruct (s_stamp cu st c) as [a b] eqn:Es. split; [|split].
      * (* compressed, and c is a codec the client's order selects *)
        split; [intros _; repeat split; exists c; now apply chosen_iff | reflexivity].
      * (* c is the only one selected; s_stamp puts it where the clause says *)
        intros c' _ H. apply chosen_iff in H. rewrite E in H. injection H as <-.
        unfold s_stamp in Es. destruct (s_only_custom cu st c); injection Es as <- <-; now split.
      * discriminate.
    + split; [|split]; [|discriminate | now split]. split; [discriminate|].
      intros (_ & _ & c & H). apply chosen_iff in H. congruence.
  - split; [|split]; [|discriminate | now split]. split; [discriminate|].
    intros (-> & -> & _). now rewrite beqb_refl in Ec.
Qed.

(* 6. Non-Arrow bodies are never compressed, whatever was negotiated. *)
Theorem non_arrow_never_compressed : forall lvl cu st ctype ne,
  ctype <> c17_arrow_content_type -> serve lvl cu st ctype ne = ([], [], false).
Proof.
  intros lvl cu st ctype ne H. rewrite serve_spec. apply beqb_neq in H. rewrite H.
  now destruct (s_first (producible lvl) (s_pref cu st)).
Qed.

(* 7. Advertised = producible. The VGI-Supported-Encodings value of every level,
      read as a header (items), is exactly the producible set, and a codec is
      advertised iff some request negotiates it. The rendered strings regenerated
      from real servers (default and disabled) are the model's. *)
Theorem advertised_eq_producible : forall lvl,
  s_items (advertise lvl) = producible lvl /\
  forall c, In c (s_items (advertise lvl)) <->
            exists cu st, fst (choose cu st (producible lvl)) = c /\ c <> [].
Proof.
  intros lvl. split; [apply items_advertise|]. intro c. rewrite items_advertise. split.
  - intro H. exists c, []. unfold producible in *. destruct (lvl <=? 0)%Z; [destruct H|].
    pose proof supported_selfchoose as Hself. rewrite forallb_forall in Hself.
    apply Hself in H as [[Hcu%beqb_eq Hnonempty]%andb_true_iff _]%andb_true_iff.
    split; [exact Hcu|]. intros ->. discriminate.
  - intros [cu [st [H1 H2]]]. eapply choose_in_prod; eassumption.
Qed.

Theorem advertised_constants :
  advertise c17_default_level = c17_advert_default /\ advertise 0%Z = c17_advert_disabled /\
  NoDup c17_supported_encodings /\ ~ In identity c17_supported_encodings.
Proof.
  split; [vm_compute; reflexivity | split; [vm_compute; reflexivity | split]].
  - assert (H : dedup [] c17_supported_encodings = c17_supported_encodings) by (vm_compute; reflexivity).
    rewrite <- H. apply NoDup_dedup.
  - apply memb_notIn. vm_compute. reflexivity.
Qed.

(* 8. Losslessness, from the codec premise: if each supported codec's decoder inverts
      its encoder, decoding the wire body with the codec named in the stamped header
      yields exactly the body the handler wrote — for every level, header pair,
      content type and body. *)
Theorem response_is_lossless :
  forall comp decomp : bytes -> bytes -> bytes,
  (forall c b, In c c17_supported_encodings -> decomp c (comp c b) = b) ->
  forall lvl cu st ctype body,
  let r := serve lvl cu st ctype (nonempty body) in
  decode decomp (fst (fst r)) (snd (fst r)) (wire comp r body) = body.
Proof.
  intros comp decomp codec_lossless lvl cu st ctype body.
  cbv zeta. rewrite serve_spec.
  destruct (beqb ctype c17_arrow_content_type && nonempty body); [|reflexivity].
  destruct (s_first (producible lvl) (s_pref cu st)) as [c|] eqn:E; [|reflexivity].
  apply s_first_some in E. destruct E as [Hp [Hi _]].
  apply pref_nonempty in Hi. apply producible_sub in Hp.
  unfold s_stamp, decode, wire. destruct (s_only_custom cu st c); cbn [fst snd nonempty]; rewrite Hi;
    now apply codec_lossless.
Qed.

(* 9. The same property in the decidable form that the correspondence check evaluates
      on the implementation's observables. *)
Theorem spec_holds_on_model : forall i, spec_ok i (model i) = true.
Proof.
  intros [h|cu st prod|enc uc ctype ne|ops cu st ctype ne|codec lvl bodies rids oracle]; cbn [model spec_ok].
  - rewrite parse_accept_dedup, s_uniq_dedup. apply list_eqb_refl, beqb_refl.
  - rewrite choose_spec. destruct (s_first prod (s_pref cu st)) as [c|]; [|reflexivity].
    now rewrite beqb_refl, eqb_reflx.
  - unfold finish. destruct (nonempty enc && beqb ctype c17_arrow_content_type && ne) eqn:E.
    + destruct uc; cbn [spec_ok negb nonempty andb]; rewrite beqb_refl; reflexivity.
    + reflexivity.
  - rewrite serve_spec. set (lvl := eff_level ops).
    destruct (if beqb ctype c17_arrow_content_type && ne then _ else _) as [c|] eqn:E.
    + (* compressed with c: the stamped pair is s_stamp cu st c *)
      destruct (s_stamp cu st c) as [a b] eqn:Es. cbn [spec_ok negb andb]. fold (producible lvl) (advertise lvl).
      cbn [opt_eqb]. rewrite beqb_refl, items_advertise, E. unfold stamped. rewrite Es, !beqb_refl. reflexivity.
    + (* not compressed: nothing is stamped *)
      cbn [spec_ok negb andb]. fold (producible lvl) (advertise lvl).
      cbn [opt_eqb]. rewrite beqb_refl, items_advertise, E. reflexivity.
  - rewrite map_length, seq_length, Nat.eqb_refl, andb_true_r.
    pose proof (model_picks_legal bodies (attach [] rids oracle)) as L. rewrite attach_fst in L. rewrite L, andb_true_r.
    apply forallb_forall. intros b Hb. apply in_map_iff in Hb. destruct Hb as [r [<- _]]. apply resp_ok_true.
Qed.

(* 10. The specification discriminates: negotiating in the SERVER's order, or from
       the standard header only, violates it (concrete witnesses). *)
Theorem server_order_negotiation_refuted :
  exists cu st, ~ Chosen c17_supported_encodings (s_pref cu st)
                  (enc_opt (choose_server_order cu st c17_supported_encodings)).
Proof.
  exists (str "gzip, zstd"), []. intro H. apply chosen_iff in H. vm_compute in H. discriminate.
Qed.

Theorem standard_header_only_refuted :
  exists cu st, ~ Chosen c17_supported_encodings (s_pref cu st)
                  (enc_opt (choose_standard_only cu st c17_supported_encodings)).
Proof.
  exists (str "zstd"), []. intro H. apply chosen_iff in H. vm_compute in H. discriminate.
Qed.

(* 11. Overlapping compressed responses on the shared per-(codec, level) writer pool.
       Any number of responses, any bodies (as chunk lists), EVERY interleaving of
       their atomic steps Get; Reset; Write..; CodecClose; Unpin; Put, and every
       outcome of each pool.Get (any idle writer, or a new one):
       (a) a writer is in the pool only when no live response references it
           (whoever references it has run its whole program);
       (b) a response whose codec Close has run has received exactly one complete
           stream of its own chunks, and nothing before that — so, with the codec
           premise of theorem 8, its body decodes to exactly what was written to it;
       (c) in the decidable form evaluated on the implementation: a Get hands out the
           writer of response r' only after r' ran its whole program. *)
Theorem pool_only_holds_unreferenced_writers : forall bodies sched r w,
  let s := prun true bodies sched in
  In w (p_pool s) -> p_hold s r = Some w -> (length (body_of bodies r) + 5 <= p_pc s r)%nat.
Proof. intros bodies sched r w. apply (pooled_done bodies), prun_inv. Qed.

Theorem overlapping_responses_lossless : forall bodies sched r,
  let s := prun true bodies sched in
  ((length (body_of bodies r) + 3 <= p_pc s r)%nat -> p_sink s r = [Complete (body_of bodies r)]) /\
  ((p_pc s r <= length (body_of bodies r) + 2)%nat -> p_sink s r = []).
Proof.
  intros bodies sched r. cbv zeta. destruct (i_sink bodies _ (prun_inv bodies sched) r) as [H1 H2]. split; assumption.
Qed.

Theorem pool_oracles_legal : forall bodies sched,
  s_picks_legal bodies (fun _ => O) (map fst sched) (rev (p_picks (prun true bodies sched))) = true.
Proof. exact model_picks_legal. Qed.

(* The other order of the last two steps (Put, then Unpin) violates both (a) and (b):
   witness = two responses, B's Get lands between A's Put and A's Unpin. *)
Theorem put_before_unpin_legacy_refuted :
  exists bodies sched,
    (exists r, let s := prun false bodies sched in
       (length (body_of bodies r) + 3 <= p_pc s r)%nat /\ p_sink s r <> [Complete (body_of bodies r)]) /\
    (exists k r w, let s := prun false bodies (firstn k sched) in
       In w (p_pool s) /\ p_hold s r = Some w /\ (p_pc s r < length (body_of bodies r) + 5)%nat).
Proof.
  exists wit_bodies, wit_sched. split.
  - exists 1%nat. split; [vm_compute; repeat constructor | vm_compute; discriminate].
  - exists 5%nat, 0%nat, 0%nat. vm_compute. repeat split; [now left | repeat constructor].
Qed.

(* non-vacuity: the codec premise is satisfiable (identity transform), a request
   that negotiates gzip on the custom header only, one stopped by identity, and a
   level sequence that ends enabled after a rejected level *)
Example premises_satisfiable :
  (forall c b : bytes, In c c17_supported_encodings -> (fun _ x => x) c ((fun _ x => x) c b) = b) /\
  serve 3%Z (str "br, GZip;q=0.1") (str "zstd") c17_arrow_content_type true = ([], str "gzip", true) /\
  serve 3%Z (str "br, identity") (str "zstd") c17_arrow_content_type true = ([], [], false) /\
  serve 3%Z (str "br") (str "deflate, ZSTD , gzip") c17_arrow_content_type true = (str "zstd", [], true) /\
  eff_level [(0, true); (4, true); (9, false)]%Z = 4%Z /\
  (* a schedule in which the pool really recycles A's writer for B, and one in which
     A and B overlap on two writers *)
  (let s := prun true [[1]; [2; 3]] [(0, None); (0, None); (0, None); (0, None); (0, None); (0, None);
                                     (1, Some 0); (1, None); (1, None); (1, None); (1, None)]%nat in
   p_hold s 1%nat = p_hold s 0%nat /\ p_sink s 1%nat = [Complete [2; 3]] /\ p_picks s = [Some 0%nat; None]) /\
  (let s := prun true [[1]; [2; 3]] [(0, None); (1, Some 0); (0, None); (1, None); (1, None); (0, None);
                                     (1, None); (0, None); (1, None); (0, None); (0, None)]%nat in
   p_hold s 1%nat <> p_hold s 0%nat /\ p_sink s 0%nat = [Complete [1]] /\ p_sink s 1%nat = [Complete [2; 3]]).
Proof. repeat split; vm_compute; try reflexivity; discriminate. Qed.
