(* Props/C30.v — property C30: a batch at or above the externalization threshold,
   externalized with or without compression and then resolved, yields a batch equal to the
   original in schema, values and custom metadata, and a download whose checksum does not
   match is refused.  Resolution returns only the uploaded data batch: a fetched stream that
   contains another pointer, or no data batch, is an error, and log batches in the fetched
   stream are never returned as data.  The lemmas the theorems below rest on are in Proofs/C30.v.

   [batch] = (schema label, schema metadata, rows, values, the batch's OWN custom metadata).
   Arrow IPC ([enc]/[dec]), zstd ([comp]/[decomp]), hex SHA-256 ([sha]) and the framing guard
   ([framed] = checkIPCStreamFraming accepts the bytes: every declared message length fits;
   data cut exactly at a message boundary or inside the next 8-byte prefix still passes, a cut
   inside a message does not) are oracles: each theorem holds for EVERY choice of them, under
   the premises written in its statement.
   [size] is the value of batchBufferSize (in-memory buffer size, not the serialized size).
   The Go API hands custom metadata both ON the batch (RecordBatchWithMetadata, [b_meta]) and
   NEXT TO it (the meta argument, [side]).  "Equal in custom metadata" means: the resolved
   batch carries [b_meta b ++ side] — own pairs first, then the caller's, order and
   duplicates preserved ([with_side b side]); the metadata value ResolveExternalLocation
   returns next to it is the fetch info (fetch_ms, source). *)
From VR Require Import Model.C30 Proofs.C30.
From Coq Require Import ZArith List Permutation.
Import ListNotations.
Open Scope N_scope.

(* Every batch with rows, at or above the threshold, whose custom metadata (own or side) does
   not tag it as a log: the storage receives exactly one object, the IPC stream of
   [with_side b side] (zstd-compressed iff configured); what comes back is a zero-row pointer
   naming the storage URL; resolving that pointer against an origin serving that object
   returns the batch — schema, schema metadata, rows, values, and custom metadata
   own ++ side — next to the fetch-info metadata. *)
Theorem resolve_externalize_roundtrip :
  forall (wire : Type) (enc : list batch -> wire) (dec : wire -> option (list batch))
         (comp : wire -> wire) (decomp : wire -> option wire) (sha : wire -> bytes)
         (framed : wire -> bool),
  (forall bs, dec (enc bs) = Some bs) ->
  (forall w, decomp (comp w) = Some w) ->
  (forall bs, framed (enc bs) = true) ->
  forall c b size side url,
  c_storage c = true -> b_rows b <> 0 -> (threshold c <= size)%Z -> level_bad c = false ->
  url <> [] -> url_ok (c_val c) url = true -> mhas (b_meta b ++ side) c30_k_log_level = false ->
  let x := externalize wire enc comp sha (Some c) b size side (UpOk url) in
  let obj := if zstd_on c then comp (enc [with_side b side]) else enc [with_side b side] in
  x_err x = false /\ x_batch x = pointer_batch b /\ x_up x = [(obj, zstd_on c)] /\
  mget (x_meta x) c30_k_location = Some url /\
  resolve wire dec decomp sha framed (Some c) (x_batch x) (x_meta x)
          (Some (Build_served url obj (zstd_on c))) = ROk (with_side b side) (fetch_meta url).
Proof.
  intros wire enc dec comp decomp sha framed Hde Hdc Hfr c b size side url Hs Hr Ht Hl Hu Hv Hlog x obj. subst x obj.
  rewrite ext_eq, (proj2 (should_ext_iff c b size) (conj Hs (conj Hr Ht))). cbn [lvl_bad zflag]. rewrite Hl. cbn zeta. cbn [x_err x_batch x_up x_meta].
  split; [reflexivity |]. split; [reflexivity |]. split; [reflexivity |]. split; [apply mget_pm_loc |].
  destruct url as [|c0 u]; [contradiction |].
  (* the pointer handed back is the pointer of [with_side b side], served its own object *)
  exact (resolve_own_upload wire enc dec comp decomp sha framed Hde Hdc Hfr c (with_side b side) c0 u (zstd_on c) Hr Hlog Hv).
Qed.

(* a download whose checksum does not match is refused *)
Theorem checksum_mismatch_refused :
  forall (wire : Type) (dec : wire -> option (list batch)) (decomp : wire -> option wire)
         (sha : wire -> bytes) (framed : wire -> bool) c p m srv x u w h,
  is_pointer (b_rows p) m = true -> mget m c30_k_location = Some (x :: u) ->
  url_ok (c_val c) (x :: u) = true ->
  fetch wire decomp srv (x :: u) = Some w ->           (* w: the download, content-decoded *)
  mget m c30_k_sha = Some h -> sha w <> h ->
  resolve wire dec decomp sha framed (Some c) p m srv = RErr ESha.
Proof.
  intros wire dec decomp sha framed c p m srv x u w h Hp Hl Hu Hf Hs Hne.
  rewrite (resolve_pointer wire dec decomp sha framed c p m srv x u Hp Hl Hu), Hf.
  unfold sha_ok. rewrite Hs. apply beqb_neq in Hne. now rewrite Hne.
Qed.

(* with a collision-free digest: under the pointer externalize produced, ANY download other
   than the raw IPC stream of the uploaded batch is refused (whatever the origin serves, however encoded) *)
Theorem tampered_download_refused :
  forall (wire : Type) (enc : list batch -> wire) (dec : wire -> option (list batch))
         (comp : wire -> wire) (decomp : wire -> option wire) (sha : wire -> bytes)
         (framed : wire -> bool) c b size side url srv w,
  (forall a a', sha a = sha a' -> a = a') -> sha (enc [with_side b side]) <> [] ->
  c_storage c = true -> b_rows b <> 0 -> (threshold c <= size)%Z -> level_bad c = false ->
  url <> [] -> url_ok (c_val c) url = true ->
  fetch wire decomp srv url = Some w -> w <> enc [with_side b side] ->
  let x := externalize wire enc comp sha (Some c) b size side (UpOk url) in
  resolve wire dec decomp sha framed (Some c) (x_batch x) (x_meta x) srv = RErr ESha.
Proof.
  intros wire enc dec comp decomp sha framed c b size side url srv w Hinj Hne Hs Hr Ht Hl Hu Hv Hf Hw x. subst x.
  rewrite ext_eq, (proj2 (should_ext_iff c b size) (conj Hs (conj Hr Ht))). cbn [lvl_bad zflag]. rewrite Hl. cbn zeta. cbn [x_batch x_meta].
  destruct url as [|c0 u]; [contradiction |].
  apply (checksum_mismatch_refused wire dec decomp sha framed c (pointer_batch b) _ srv c0 u w (sha (enc [with_side b side])));
    [apply is_pointer_pm | apply mget_pm_loc | exact Hv | exact Hf | | ].
  - rewrite mget_pm_sha. destruct (sha (enc [with_side b side])); [contradiction | reflexivity].
  - intro E. apply Hinj in E. contradiction.
Qed.

(* a download that is not a well-framed IPC stream (truncated inside a message, garbage) is
   refused — checksum or parse error — whatever batches arrow-go could still read from it *)
Theorem ill_framed_download_refused :
  forall (wire : Type) (dec : wire -> option (list batch)) (decomp : wire -> option wire)
         (sha : wire -> bytes) (framed : wire -> bool) c p m srv x u w,
  is_pointer (b_rows p) m = true -> mget m c30_k_location = Some (x :: u) ->
  url_ok (c_val c) (x :: u) = true -> fetch wire decomp srv (x :: u) = Some w ->
  framed w = false ->
  exists e, resolve wire dec decomp sha framed (Some c) p m srv = RErr e /\ (e = ESha \/ e = EParse).
Proof.
  intros wire dec decomp sha framed c p m srv x u w Hp Hl Hu Hf Hfr.
  rewrite (resolve_pointer wire dec decomp sha framed c p m srv x u Hp Hl Hu), Hf, Hfr.
  destruct (sha_ok wire sha m w); cbn [negb]; eauto.
Qed.

(* with a storage (and a zstd level the encoder knows): something is uploaded iff the batch
   has rows and its buffer size is AT OR ABOVE the threshold; otherwise (batch, metadata)
   come back untouched.  The threshold is the configured one, 1 MiB when unset. *)
Theorem threshold_iff :
  forall (wire : Type) (enc : list batch -> wire) (comp : wire -> wire) (sha : wire -> bytes)
         c b size side up,
  c_storage c = true -> level_bad c = false ->
  (x_up (externalize wire enc comp sha (Some c) b size side up) <> []
   <-> b_rows b <> 0 /\ (threshold c <= size)%Z).
Proof.
  intros wire enc comp sha c b size side up Hs Hl. rewrite ext_eq. cbn [lvl_bad]. rewrite Hl.
  pose proof (should_ext_iff c b size) as E. destruct (should_ext (Some c) b size).
  - split; [intros _; exact (proj2 (proj1 E eq_refl)) | intros _; destruct up; discriminate].
  - split; [intro H; now contradiction H | intro H; discriminate (proj2 E (conj Hs H))].
Qed.

Theorem below_threshold_untouched :
  forall (wire : Type) (enc : list batch -> wire) (comp : wire -> wire) (sha : wire -> bytes)
         c b size side up,
  c_storage c = false \/ b_rows b = 0 \/ (size < threshold c)%Z ->
  externalize wire enc comp sha (Some c) b size side up
    = {| x_batch := b; x_meta := side; x_err := false; x_up := [] |}.
Proof.
  intros wire enc comp sha c b size side up H. rewrite ext_eq.
  destruct (should_ext (Some c) b size) eqn:E; [|reflexivity].
  apply should_ext_iff in E as (Hs & Hr & Ht). destruct H as [H | [H | H]]; [congruence | contradiction | lia].
Qed.

Theorem default_threshold_is_one_mebibyte :
  c30_default_threshold = 1048576%Z /\
  forall c, threshold c = if (c_thr c <=? 0)%Z then c30_default_threshold else c_thr c.
Proof. split; reflexivity. Qed.

(* exact characterisation: success iff no pointer anywhere; the result is the LAST data batch *)
Theorem selects_only_data : forall bs r,
  select_by classify None bs = inl r <->
  has_ptr_by classify bs = false /\ exists pre, datas_by classify bs = pre ++ [r].
Proof. exact (select_ok_iff classify). Qed.

Theorem logs_never_returned : forall bs r,
  select_by classify None bs = inl r ->
  In r bs /\ classify r = CData /\ mhas (b_meta r) c30_k_log_level = false.
Proof.
  intros bs r H. destruct (select_sound _ _ _ H) as [Hin [Hc _]].
  repeat split; auto. now apply data_not_log.
Qed.

Theorem pointer_or_no_data_is_error : forall bs,
  has_ptr_by classify bs = true \/ datas_by classify bs = [] ->
  select_by classify None bs = inr (if has_ptr_by classify bs then ELoop else ENoData).
Proof. exact (select_err classify). Qed.

(* any order: permuting a stream with at most one data batch does not change the outcome *)
Theorem order_is_irrelevant : forall bs bs',
  Permutation bs bs' -> (length (datas_by classify bs) <= 1)%nat ->
  select_by classify None bs' = select_by classify None bs.
Proof.
  intros bs bs' HP Hlen. rewrite !select_char.
  unfold has_ptr_by. rewrite (perm_existsb _ _ _ HP).
  destruct (existsb (is_ptr_by classify) bs'); [reflexivity |].
  pose proof (perm_filter (is_data_by classify) _ _ HP) as HF. fold (datas_by classify bs) (datas_by classify bs') in HF.
  destruct (datas_by classify bs) as [|d [|d2 rest]].
  - apply Permutation_nil in HF. now rewrite HF.
  - apply Permutation_length_1_inv in HF. now rewrite HF.
  - cbn in Hlen. lia.
Qed.

(* the same at the level of ResolveExternalLocation: whatever is returned as resolved data
   is a data batch of the checksum-verified, decoded download, which holds no pointer *)
Theorem resolve_returns_only_fetched_data :
  forall (wire : Type) (dec : wire -> option (list batch)) (decomp : wire -> option wire)
         (sha : wire -> bytes) (framed : wire -> bool) c p m srv r m',
  resolve wire dec decomp sha framed (Some c) p m srv = ROk r m' ->
  exists u w bs,
    is_pointer (b_rows p) m = true /\ mget m c30_k_location = Some u /\ u <> [] /\
    url_ok (c_val c) u = true /\ fetch wire decomp srv u = Some w /\
    sha_ok wire sha m w = true /\ framed w = true /\ dec w = Some bs /\
    In r bs /\ classify r = CData /\ has_ptr_by classify bs = false /\
    (exists pre, datas_by classify bs = pre ++ [r]) /\ m' = fetch_meta u.
Proof.
  intros wire dec decomp sha framed c p m srv r m'. unfold resolve, resolve_by.
  destruct (is_pointer (b_rows p) m) eqn:Hp; cbn [negb]; [|discriminate].
  destruct (mget m c30_k_location) as [[|x u]|] eqn:Hl; try discriminate.
  destruct (url_ok (c_val c) (x :: u)) eqn:Hu; cbn [negb]; [|discriminate].
  destruct (fetch wire decomp srv (x :: u)) as [w|] eqn:Hf; [|discriminate].
  destruct (sha_ok wire sha m w) eqn:Hs; cbn [negb]; [|discriminate].
  destruct (framed w) eqn:Hfr; cbn [negb]; [|discriminate].
  destruct (dec w) as [bs|] eqn:Hd; [|discriminate].
  destruct (select_by classify None bs) as [r'|e] eqn:Hsel; [|discriminate].
  intro H; inversion H; subst r' m'.
  pose proof (select_sound _ _ _ Hsel) as [Hin [Hc Hnp]].
  apply select_ok_iff in Hsel as [_ Hlast].
  exists (x :: u), w, bs. repeat split; auto. discriminate.
Qed.

Theorem resolve_pointer_or_no_data_is_error :
  forall (wire : Type) (dec : wire -> option (list batch)) (decomp : wire -> option wire)
         (sha : wire -> bytes) (framed : wire -> bool) c p m srv x u w bs,
  is_pointer (b_rows p) m = true -> mget m c30_k_location = Some (x :: u) ->
  url_ok (c_val c) (x :: u) = true -> fetch wire decomp srv (x :: u) = Some w ->
  sha_ok wire sha m w = true -> framed w = true -> dec w = Some bs ->
  has_ptr_by classify bs = true \/ datas_by classify bs = [] ->
  resolve wire dec decomp sha framed (Some c) p m srv
    = RErr (if has_ptr_by classify bs then ELoop else ENoData).
Proof.
  intros wire dec decomp sha framed c p m srv x u w bs Hp Hl Hu Hf Hs Hfr Hd Hbad.
  rewrite (resolve_pointer wire dec decomp sha framed c p m srv x u Hp Hl Hu), Hf, Hs, Hfr, Hd. cbn [negb].
  now rewrite (select_err _ _ Hbad).
Qed.

(* the pre-fix classification (schema metadata, before b4a2d83) violated it *)
Theorem select_legacy_refuted :
  exists d l, classify d = CData /\ classify l = CLog /\
              select_by classify_legacy None [d; l] = inl l /\
              select_by classify None [d; l] = inl d.
Proof. exists w_data, w_log. repeat split; reflexivity. Qed.

Theorem nested_pointer_legacy_refuted :
  exists d p, classify p = CPtr /\
              select_by classify_legacy None [d; p] = inl p /\
              select_by classify None [d; p] = inr ELoop.
Proof. exists w_data, w_ptr. repeat split; reflexivity. Qed.

(* for every input whose digest table knows the raw stream (a SHA-256 hex digest is never the
   empty string): threshold rule, uploaded object = IPC stream of [with_side b side], checksum
   of the raw stream, round trip to [with_side b side], soundness of every ROk, honest
   streams resolve.  No premise on the side metadata (fix f41df4e). *)
Theorem spec_holds_on_model : forall i,
  digest_ok i = true -> conc_ok i = true -> spec_ok i (model i) = true.
Proof.
  destruct i as [t c b size side up sm sv | t c p m srv | t z v jobs s | t rt v p m srv]; cbn [digest_ok];
    intros Hd Hc; unfold model, model_by, spec_ok.
  - now apply spec_round_model.
  - unfold spec_ok_seq. now rewrite spec_res_model.
  - unfold conc_outs. rewrite map_length, seq_length, Nat.eqb_refl. cbn [andb].
    apply forallb_forall. intros k Hin. apply in_seq in Hin.
    rewrite nth_map_seq by lia. apply conc_job_spec; auto; lia.
  - rewrite <- (spec_res_model t (Some (conc_cfg false v)) p m srv).
    destruct (sresolve t (Some (conc_cfg false v)) p m srv); reflexivity.
Qed.

(* A pointer REQUEST batch sent end to end (HTTP unary, HTTP stream init, HTTP exchange input,
   exchange input on the pipe): every entry point hands the batch's whole metadata to the
   resolver, so on EVERY route a download whose checksum differs from the one the pointer
   carries is refused and never reaches the handler.  ([spec_holds_on_model] covers [Route]
   inputs: whatever a handler is given is a data batch of the verified download.) *)
Theorem route_checksum_mismatch_refused : forall t rt v p m srv x u w h,
  is_pointer (b_rows p) m = true -> mget m c30_k_location = Some (x :: u) ->
  url_ok v (x :: u) = true -> sfetch srv (x :: u) = Some w ->
  mget m c30_k_sha = Some h -> ssha t w <> h ->
  model (Route t rt v p m srv) = ORoute (RErr ESha).
Proof.
  intros t rt v p m srv x u w h Hp Hl Hu Hf Hs Hne. unfold model, model_by, sresolve.
  rewrite (checksum_mismatch_refused swire sdec sdecomp (ssha t) sframed (conc_cfg false v) p m srv x u w h); auto.
Qed.

(* Externalization k = serialize batch k, hash, (zstd) compress, upload (the storage copies
   what it is handed when the step runs).  For EVERY number of externalizations in flight and
   EVERY interleaving of their steps that keeps each one's program order ([wf_sched]), what
   externalization k put in its pointer and what the storage holds for it are functions of
   batch k alone: the checksum of the raw stream of batch k, and that stream (compressed iff
   configured).  [false] = serializeBatchAsIPC writes into a buffer of its own (the code). *)
Theorem stored_object_depends_on_own_batch_only :
  forall (wire : Type) (enc : list batch -> wire) (comp : wire -> wire) (sha : wire -> bytes)
         (zstd : bool) (jb : nat -> batch) (n : nat) (s : list step) (k : nat),
  wf_sched zstd n s = true -> (k < n)%nat ->
  let j := cs_job (srun wire enc comp sha false zstd jb (cs0 wire) s) k in
  j_sha j = Some (sha (enc [jb k])) /\
  j_obj j = Some (if zstd then comp (enc [jb k]) else enc [jb k]).
Proof. exact own_bytes. Qed.

(* hence, with the codec premises, every pointer of an overlapped run resolves to exactly its
   own batch: this is [spec_holds_on_model] on [Conc] inputs ([conc_ok] = the schedule is an
   interleaving, batches have rows and are not tagged as logs, URLs are accepted). *)

(* The variant in which the serialization buffer comes from a shared pool and is handed back
   when serializeBatchAsIPC returns (bytes.Buffer from a sync.Pool, buf.Bytes() returned,
   deferred Put) violates it, with two externalizations A, B and no compression:
   schedule 1 = A serializes and hashes, is parked in its upload; B runs completely; A's upload
   copies: the object stored for A is B's stream under A's checksum, resolving A is refused;
   schedule 2 = B serializes between A's serialization and A's hash: A's pointer carries the
   checksum of B's stream, validates, and resolves to B's values. *)
Theorem pooled_serialization_buffer_refuted :
  let i1 := Conc w_tbl2 false VHttps w_jobs [SSer 0; SHash 0; SSer 1; SHash 1; SUp 1; SUp 0] in
  let i2 := Conc w_tbl2 false VHttps w_jobs [SSer 0; SSer 1; SHash 0; SUp 0; SHash 1; SUp 1] in
  digest_ok i1 = true /\ conc_ok i1 = true /\ digest_ok i2 = true /\ conc_ok i2 = true /\
  (exists o1, model_pooled i1 = OConc [o1; nth 1 (conc_outs false w_tbl2 false VHttps w_jobs w_sched_upload) dummy_out]
              /\ jo_up o1 = [(SIpc [w_data2], false)] /\ jo_res o1 = Some (RErr ESha)) /\
  (exists o1 o2, model_pooled i2 = OConc [o1; o2]
              /\ jo_res o1 = Some (ROk w_data2 (fetch_meta (str "https://h/o/1")))) /\
  spec_ok i1 (model_pooled i1) = false /\ spec_ok i2 (model_pooled i2) = false /\
  spec_ok i1 (model i1) = true /\ spec_ok i2 (model i2) = true.
Proof.
  cbv zeta. repeat split; try (apply spec_holds_on_model); try reflexivity.
  - eexists. repeat split; reflexivity.
  - eexists. eexists. repeat split; reflexivity.
Qed.

(* before f41df4e the upload was serializeBatchAsIPC(batch, nil): metadata handed over next to
   the batch was neither uploaded nor put on the pointer, so the resolved batch came back
   WITHOUT it although the same call below the threshold returns it unchanged *)
Theorem side_metadata_legacy_refuted :
  exists i b side,
    side <> [] /\ digest_ok i = true /\
    (exists t c size url, i = Round t c b size side (UpOk url) ShaKeep None) /\
    (exists xb xm ups m', model_legacy i = ORound xb xm false ups (Some (ROk b m'))) /\
    b <> with_side b side /\
    spec_ok i (model_legacy i) = false /\ spec_ok i (model i) = true.
Proof.
  exists w_round, w_data, w_side.
  destruct side_meta_legacy_dropped as [HL [_ [HD [H1 H2]]]].
  split; [discriminate |]. split; [exact HD |].
  split; [exists w_tbl, (Some w_cfg), 16%Z, w_url; reflexivity |].
  split; [rewrite HL; eauto |].
  split; [discriminate | split; assumption].
Qed.

(* the premises of the round trip are met by a concrete batch, with zstd compression,
   under the symbolic codec, which satisfies the three codec premises; the last conjunct is a
   download refused for its checksum *)
Example premises_satisfiable :
  let c := {| c_storage := true; c_thr := 0; c_comp := Some alg_zstd; c_level := 3; c_val := VHttps |} in
  let b := {| b_schema := str "x:int64"; b_smeta := []; b_rows := 131072; b_vals := [(7%Z, 131072)];
              b_meta := [(str "trace", str "abc")] |} in
  c_storage c = true /\ b_rows b <> 0 /\ (threshold c <= 1064960)%Z /\ level_bad c = false /\
  zstd_on c = true /\
  url_ok (c_val c) (str "https://h/o/1") = true /\
  mhas (b_meta b ++ [(str "k", str "v")]) c30_k_log_level = false /\
  (forall bs, sdec (SIpc bs) = Some bs) /\ (forall w, sdecomp (SZ w) = Some w) /\
  (forall bs, sframed (SIpc bs) = true) /\
  sresolve [] (Some c) (pointer_batch b) (pointer_meta (str "https://h/o/1") (str "ab"))
           (Some (Build_served (str "https://h/o/1") (SZ (SIpc [b])) true))
    = RErr ESha.
Proof. cbv zeta. repeat split; try discriminate; reflexivity. Qed.
