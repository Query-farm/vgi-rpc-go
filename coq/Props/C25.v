(* Props/C25.v — proxy proofs verify only for their worker and can never be replayed.

   Property (properties.jsonl): in require mode a request passes the proof gate only if it
   carries exactly one proof header whose MAC verifies under a configured key id for this
   worker's origin and whose timestamp is within the skew window; every other request is refused
   with the same proxy_required answer and the inner authenticator is not called. With the
   replay cache enabled, a proof that was accepted once is refused on every later presentation
   for as long as its timestamp would still be accepted, unless the cache has since admitted
   more distinct proofs than its capacity.

   Model (Model/C25.v): [step hmac ttlf c st r] is one call of the closure returned by
   ProofAuthenticate on a request whose injected clock returns r_tv first and r_tc second;
   the CURRENT gate (d22e231) reads the clock once, i.e. it is [step] on [norm r]
   (r_tc := r_tv). [hmac] is HMAC-SHA256 as an arbitrary function; where a theorem needs more
   it says so as a premise. Statements are for ALL proof strings, all cache states [st]
   (hence after any prefix history), all histories of any length. *)
From Coq Require Import ZArith List Bool Lia.
From VR Require Import Model.C25 Proofs.C25.
Import ListNotations.
Open Scope Z_scope.

(* 1. The MAC input is injective on well-formed field tuples and on the worker's origin:
      distinct (kid, ts, nonce, origin) give distinct byte strings (NUL framing + charsets). *)
Theorem canonical_injective : forall (f f' : fields) (o o' : bytes),
  fields_ok f = true -> fields_ok f' = true ->
  canonical (f_kid f) (f_ts f) (f_nonce f) o = canonical (f_kid f') (f_ts f') (f_nonce f') o' ->
  f_kid f = f_kid f' /\ f_ts f = f_ts f' /\ f_nonce f = f_nonce f' /\ o = o'.
Proof.
  intros f f' o o' H H' E.
  destruct (fields_free 0 f eq_refl H) as (? & ? & ? & _).
  destruct (fields_free 0 f' eq_refl H') as (? & ? & ? & _).
  apply canonical_inj in E; auto.
Qed.

(* 2. Header grammar: VerifyProof's parse accepts exactly v1.kid.ts.nonce.mac with the five
      charsets/lengths of the regexps (whose source text is tied to the model below). *)
Theorem wire_grammar : forall (tok : bytes) (f : fields),
  parse tok = Some f <-> tok = wire f /\ fields_ok f = true.
Proof. exact parse_wire_iff. Qed.

Theorem regexps_and_constants_are_the_modelled_ones :
  (c25_kid_re = str "\A[A-Za-z0-9_-]{1,64}\z" /\ c25_ts_re = str "\A[0-9]{1,20}\z"
   /\ c25_nonce_re = str "\A[A-Za-z0-9_-]{22}\z" /\ c25_origin_re = str "\A[A-Za-z0-9._:/-]{1,255}\z"
   /\ c25_mac_re = str "\A[A-Za-z0-9_-]{43}\z")
  /\ (c25_domain_prefix = str "vgi.proxy.proof.v1" /\ c25_version = str "v1"
      /\ c25_max_header_len = 512 /\ c25_secret_len = 32 /\ c25_header = str "VGI-Proxy-Proof"
      /\ c25_mode_off = str "off" /\ c25_mode_allow = str "allow" /\ c25_mode_require = str "require")
  /\ (c25_refusal_probe_ok = 1 /\ c25_refusal_reason = str "proxy_required"
      /\ c25_refusal_hdr_reason = c25_refusal_reason /\ c25_refusal_status = 401)
  /\ c25_ttl_linear = 1.
Proof. repeat split; reflexivity. Qed.

(* 3. gate_passes_iff. Require mode, clock between the epoch and 2^62 s, skew small enough for
      the TTL to fit a Duration. The request is NOT refused iff it carries exactly one proof
      header, of the wire form, whose kid is configured, whose timestamp is within the window in
      whole seconds, whose MAC field decodes to the HMAC under that kid's secret of the canonical
      string built with THIS worker's origin, and (cache enabled) whose nonce is not held by the
      cache once the entries expired at this instant are swept. *)
Theorem gate_passes_iff : forall (hmac : bytes -> bytes -> bytes) (ttlf : Z -> Z)
                                 (c : config) (st : cache) (r : req),
  c_mode c = MRequire -> sane_req r = true -> c_skew c <= max_skew ->
  (is_refusal (snd (fst (step hmac ttlf c st (norm r)))) = false <->
   exists tok f secret label,
     r_hdrs r = [tok] /\ tok = wire f /\ fields_ok f = true
     /\ lookup_kid (f_kid f) (c_secrets c) = Some (secret, label)
     /\ Z.abs (unix_s (r_tv r) - digits_val (f_ts f)) <= c_skew c
     /\ b64dec (f_mac f) = hmac secret (canonical (f_kid f) (f_ts f) (f_nonce f) (c_origin c))
     /\ (c_nocache c = true \/ seen (f_nonce f) (sweep (r_tv r) st) = false)).
Proof. intros hmac ttlf c st r. exact (gate_passes_iff_two_readings hmac ttlf c st (norm r)). Qed.

(* 3'. Only for their worker: a MAC computed (under the very same secret) for any other field
       tuple or any other origin never verifies here, if HMAC has no collisions. *)
Theorem foreign_proof_refused : forall (hmac : bytes -> bytes -> bytes) (ttlf : Z -> Z),
  (forall key m m', hmac key m = hmac key m' -> m = m') ->
  forall c st r tok f secret label k0 t0 n0 o0,
  r_hdrs r = [tok] -> parse tok = Some f ->
  lookup_kid (f_kid f) (c_secrets c) = Some (secret, label) ->
  nul_free k0 = true -> nul_free t0 = true -> nul_free n0 = true ->
  b64dec (f_mac f) = hmac secret (canonical k0 t0 n0 o0) ->
  (k0, t0, n0, o0) <> (f_kid f, f_ts f, f_nonce f, c_origin c) ->
  exists reason, fst (verify_request hmac ttlf c st r) = VErr reason.
Proof.
  intros hmac ttlf Hinj c st r tok f secret label k0 t0 n0 o0.
  apply noncolliding_foreign_proof_refused, Hinj.
Qed.

(* 4. uniform_refusal_inner_not_called. Require mode, every history from every cache state:
      each request whose verification failed — for whatever reason — gets the one answer
      [proxy_required] (AuthFailure reason/detail and the HTTP status, VGI-Auth-Reason and body
      probed from the real code) with inner NOT called; each verified request is never refused
      and its outcome is inner's (called exactly when inner is not nil). *)
Theorem uniform_refusal_inner_not_called : forall (hmac : bytes -> bytes -> bytes) (ttlf : Z -> Z)
                                                  (c : config) (h : list req) (st : cache),
  c_mode c = MRequire ->
  Forall2 (fun r vo =>
             match fst vo with
             | VErr _ => snd vo = ORefused proxy_required false
             | VOk label kid =>
                 let cl := [str "true"; label; kid; c_origin c; str "ok"] in
                 if c_inner_nil c then snd vo = OPass false c25_claims_key label true cl
                 else match r_inner r with
                      | IOk d p a => snd vo = OPass true d p a cl
                      | IErr t => snd vo = OInnerErr t
                      end
             end) h (run hmac ttlf c st h).
Proof.
  intros hmac ttlf c h st M. apply run_forall. intros st' r.
  unfold step. destruct (verify_request hmac ttlf c st' r) as [v st'']. cbn [fst snd].
  unfold gate_out. rewrite M. destruct v as [l k|reason]; [|reflexivity].
  cbn [claims_of nth]. destruct (c_inner_nil c); [reflexivity|]. destruct (r_inner r); reflexivity.
Qed.

(* 5. Mode semantics: allow never refuses and always consults inner; off (or an unknown mode)
      installs no gate: the constructor fails. *)
Theorem allow_never_refuses : forall (hmac : bytes -> bytes -> bytes) (ttlf : Z -> Z)
                                     (c : config) (h : list req) (st : cache),
  c_mode c = MAllow ->
  Forall2 (fun _ vo => is_refusal (snd vo) = false /\ inner_called (snd vo) = negb (c_inner_nil c))
          h (run hmac ttlf c st h).
Proof.
  intros hmac ttlf c h st M. apply run_forall. intros st' r.
  unfold step. destruct (verify_request hmac ttlf c st' r) as [v st'']. cbn [fst snd].
  unfold gate_out. rewrite M. destruct v; destruct (c_inner_nil c); cbn; auto; destruct (r_inner r); cbn; auto.
Qed.

Theorem off_installs_no_gate : forall (i : input),
  c_mode (i_cfg i) = MOff \/ c_mode (i_cfg i) = MOther ->
  o_ctor (model i) = false /\ o_outs (model i) = [].
Proof. intros i [M|M]; unfold model, model_gen, ctor_ok; cbn; rewrite M; auto. Qed.

(* 6. no_replay_while_valid. Cache enabled, 0 <= skew <= max_skew (= 4611686017 s, so that
      (2*skew+1) s fits a Duration), every cache state [st] (any prefix history). Let request ri
      be verified (step i), then any requests [mid], then request rj presenting the same proof
      ([same_proof]: equal kid, ts, nonce and MAC bytes - in whatever wire spelling), with a non-decreasing clock over ri, mid, rj and clocks in [0, 2^62 s). If rj's
      timestamp would still be accepted at rj's instant and FEWER THAN [eff_cap c] proofs were
      verified (= admitted to the cache) by the requests strictly in between, rj's verification
      fails: refused with proxy_required in require mode, verified=false in allow mode. *)
Theorem no_replay_while_valid : forall (hmac : bytes -> bytes -> bytes) (c : config) (st : cache)
                                       (ri : req) (mid : list req) (rj : req) (l k : bytes),
  c_nocache c = false -> 0 <= c_skew c <= max_skew ->
  monotone1 (ri :: mid ++ [rj]) = true -> sane_req ri = true -> sane_req rj = true ->
  fst (fst (step hmac ttl_ns c st (norm ri))) = VOk l k ->
  same_proof (r_hdrs ri) (r_hdrs rj) = true ->
  ts_acceptable c (unix_s (r_tv rj)) (r_hdrs rj) = true ->
  let st_i := snd (step hmac ttl_ns c st (norm ri)) in
  count_ok (run hmac ttl_ns c st_i (map norm mid)) < eff_cap c ->
  exists reason,
    fst (fst (step hmac ttl_ns c (exec hmac ttl_ns c st_i (map norm mid)) (norm rj))) = VErr reason.
Proof.
  intros hmac c st ri mid rj l k Nc Hs Hm Si Sj Hok Hh Hacc st_i Hcnt.
  apply (no_replay_two_readings hmac c st (norm ri) (map norm mid) (norm rj) [] l k); auto.
  - apply monotone1_norm in Hm. cbn [map] in Hm. rewrite map_app in Hm. exact Hm.
  - apply Z.eqb_refl.
Qed.

(* 6'. The identity of a proof in 6 is (kid, ts, nonce, MAC BYTES), not its wire text: rj may
       present ANY spelling of the proof ri presented (the 43-character base64url MAC field has two
       spare bits: four spellings of its last character decode to the same MAC and all verify).
       The byte-identical re-presentation is the special case: *)
Theorem identical_presentation_is_same_proof : forall (hmac : bytes -> bytes -> bytes) (ttlf : Z -> Z)
                                                      (c : config) (st : cache) (ri rj : req) (l k : bytes),
  fst (fst (step hmac ttlf c st ri)) = VOk l k -> r_hdrs rj = r_hdrs ri ->
  same_proof (r_hdrs ri) (r_hdrs rj) = true.
Proof.
  intros hmac ttlf c st ri rj l k Hok ->. rewrite step_eq in Hok.
  apply verify_ok_inv in Hok as (tok & f & secret & -> & (Pp & _) & _). exact (same_proof_refl tok f Pp).
Qed.

(* the TTL that makes 6 true: proofReplayTTL(skew) = (2*skew+1) s, from the regenerated constants *)
Theorem ttl_covers_window : forall skew, 0 <= skew <= max_skew -> ttl_ns skew = (2 * skew + 1) * ns_per_s.
Proof. exact ttl_is. Qed.

(* 7. size_le_capacity: every reachable cache holds at most eff_cap entries
      (ReplayCapacity, or the default 100000 when it is <= 0). *)
Theorem size_le_capacity : forall (hmac : bytes -> bytes -> bytes) (ttlf : Z -> Z) (c : config) (h : list req),
  Z.of_nat (length (exec hmac ttlf c [] h)) <= eff_cap c.
Proof. intros hmac ttlf c h. apply exec_length. pose proof (eff_cap_pos c). cbn. lia. Qed.

(* 8. The decidable form evaluated on the implementation's observables (uniform refusal, mode
      semantics, passes-only-if-valid, no admitted replay while valid under capacity, for
      monotone sane clocks) holds of the model for EVERY input. *)
Theorem spec_holds : forall i : input, spec_ok i (model i) = true.
Proof.
  intro i. unfold spec_ok, model, model_gen. cbn [o_ctor o_outs].
  destruct (ctor_ok (i_cfg i)) eqn:C; cbn [negb]; [|reflexivity].
  rewrite all2_req_ok. cbn [andb].
  destruct (c_nocache (i_cfg i)) eqn:Nc; [reflexivity|]. cbn [orb].
  destruct (monotone (map norm (i_hist i)) && forallb sane_req (map norm (i_hist i)) && (c_skew (i_cfg i) <=? max_skew)%Z) eqn:P;
    [|reflexivity]. cbn [negb orb].
  apply andb_true_iff in P as [P Pk]. apply andb_true_iff in P as [Pm Ps].
  apply replay_ok_model; auto using norm_same_second. apply ctor_ok_skew in C. lia.
Qed.

(* worker w1, skew 30 s, default capacity; the proof k1 / ts = T0+30 / nonce A..A with its real
   HMAC-SHA256 (corpus/C25.jsonl lines 1 and 2); T0 is second 1700000000, and [T0], [s n] are
   clock readings in ns *)
Definition w_cfg : config :=
  {| c_mode := MRequire; c_origin := str "w1";
     c_secrets := [(str "k1", (sec 1, str "px1")); (str "k2", (sec 2, str "px2"))];
     c_skew := 30; c_cap := 0; c_nocache := false; c_inner_nil := false |}.
Definition w_hm : hm_table :=
  [((sec 1, hx "7667692e70726f78792e70726f6f662e7631006b3100313730303030303033300041414141414141414141414141414141414141414141007731"),
    hx "64cdcae7739f37d8dce995f67b7a71c18a55c1f60663a8bba34285ab42dd000f")].
Definition w_tok : bytes := str "v1.k1.1700000030.AAAAAAAAAAAAAAAAAAAAAA.ZM3K53OfN9jc6ZX2e3pxwYpVwfYGY6i7o0KFq0LdAA8".
Definition w_req (tv tc : Z) : req :=
  {| r_tv := tv; r_tc := tc; r_hdrs := [w_tok]; r_inner := IOk (str "jwt") (str "alice") true |}.
Definition w_in (h : list req) : input := {| i_cfg := w_cfg; i_hm := w_hm; i_canon := []; i_hist := h |}.
Definition T0 : Z := 1700000000 * 1000000000.
Definition s (n : Z) : Z := n * 1000000000.

(* before 0a1ccaa (TTL = skew): accepted at T0 with ts = T0+30, replayed at T0+31 — admitted again *)
Definition legacy_ttl_hist : list req :=
  [w_req T0 T0; w_req (T0 + s 31) (T0 + s 31); w_req (T0 + s 60) (T0 + s 60);
   w_req (T0 + s 60 + 999999999) (T0 + s 60 + 999999999); w_req (T0 + s 61) (T0 + s 61)].
Theorem replay_ttl_legacy_refuted :
  map is_refusal (o_outs (model_legacy_ttl (w_in legacy_ttl_hist))) = [false; false; true; true; true]
  /\ spec_ok (w_in legacy_ttl_hist) (model_legacy_ttl (w_in legacy_ttl_hist)) = false
  /\ map is_refusal (o_outs (model (w_in legacy_ttl_hist))) = [false; true; true; true; true].
Proof.
  (* the run is given a name: the two clauses that read it are then checked on one evaluation of it *)
  set (o := model_legacy_ttl (w_in legacy_ttl_hist)).
  apply and_assoc. split; [|vm_compute; reflexivity].
  apply spec_ok_replay_fails; vm_compute; auto.
Qed.

(* 0a1ccaa .. d22e231^ (TTL fixed, clock read twice): the window check reads T0+60.999999999
   (ts still acceptable), the cache reads T0+61.000000000 (entry expired and swept) — admitted again.
   The clock is monotone; the same replay with one reading is refused. *)
Definition two_reads_hist : list req :=
  [w_req T0 T0; w_req (T0 + s 60 + 999999999) (T0 + s 60 + 999999999);
   w_req (T0 + s 60 + 999999999) (T0 + s 61)].
Theorem replay_two_clock_reads_legacy_refuted :
  monotone two_reads_hist = true
  /\ map is_refusal (o_outs (model_two_reads (w_in two_reads_hist))) = [false; true; false]
  /\ spec_ok (w_in two_reads_hist) (model_two_reads (w_in two_reads_hist)) = false
  /\ map is_refusal (o_outs (model (w_in two_reads_hist))) = [false; true; true].
Proof.
  split; [vm_compute; reflexivity|]. set (o := model_two_reads (w_in two_reads_hist)).
  apply and_assoc. split; [|vm_compute; reflexivity].
  apply spec_ok_replay_fails; vm_compute; auto.
Qed.

(* the premises of no_replay_while_valid are met by the witness: ri at T0, one unrelated refused
   request in between, rj in the last acceptable second *)
Example no_replay_premises_satisfiable :
  let hm := hm_lookup w_hm in
  let ri := w_req T0 T0 in let rj := w_req (T0 + s 60 + 999999999) 0 in
  let mid := [{| r_tv := T0 + s 5; r_tc := 0; r_hdrs := []; r_inner := IErr 0 |}] in
  c_nocache w_cfg = false /\ 0 <= c_skew w_cfg <= max_skew
  /\ monotone1 (ri :: mid ++ [rj]) = true /\ sane_req ri = true /\ sane_req rj = true
  /\ fst (fst (step hm ttl_ns w_cfg [] (norm ri))) = VOk (str "px1") (str "k1")
  /\ ts_acceptable w_cfg (unix_s (r_tv rj)) (r_hdrs rj) = true
  /\ count_ok (run hm ttl_ns w_cfg (snd (step hm ttl_ns w_cfg [] (norm ri))) (map norm mid)) < eff_cap w_cfg
  /\ fst (fst (step hm ttl_ns w_cfg (exec hm ttl_ns w_cfg (snd (step hm ttl_ns w_cfg [] (norm ri))) (map norm mid)) (norm rj)))
     = VErr RReplayed.
Proof.
  intros hm ri rj mid. set (x := step hm ttl_ns w_cfg [] (norm ri)).
  vm_compute. repeat split; auto; discriminate.
Qed.

(* the three other spellings of the witness proof (last MAC character 8 -> 9, -, _) are the same
   proof, verify, and are refused as replays by the nonce-keyed cache *)
Example respelled_replays_refused :
  let hm := hm_lookup w_hm in
  let alt (ch : N) := {| r_tv := T0 + s 1; r_tc := 0;
                         r_hdrs := [firstn 82 w_tok ++ [ch]]; r_inner := IOk [] [] true |} in
  forallb (fun ch => same_proof [w_tok] (r_hdrs (alt ch))
                     && negb (beqb w_tok (firstn 82 w_tok ++ [ch]))
                     && valid_proof hm w_cfg (unix_s (T0 + s 1)) (r_hdrs (alt ch))) [57; 45; 95]%N = true
  /\ map fst (run hm ttl_ns w_cfg [] (map norm [w_req T0 T0; alt 57%N; alt 45%N; alt 95%N]))
     = [VOk (str "px1") (str "k1"); VErr RReplayed; VErr RReplayed; VErr RReplayed].
Proof. vm_compute. auto. Qed.

(* a toy MAC under which the 43-A mac field verifies for every tuple: enough to exhibit cache facts *)
Definition toy (_ _ : bytes) : bytes := repeat 0%N 32.
Definition macA : bytes := repeat 65%N 43.
Definition tk (kid : bytes) (ts : bytes) (n : N) : bytes :=
  wire {| f_kid := kid; f_ts := ts; f_nonce := repeat 65%N 21 ++ [n]; f_mac := macA |}.
Definition rq (t : Z) (tok : bytes) : req :=
  {| r_tv := t; r_tc := t; r_hdrs := [tok]; r_inner := IOk [] [] true |}.
Definition capc (n : Z) : config :=
  {| c_mode := MRequire; c_origin := str "w1"; c_secrets := [(str "k1", (sec 1, str "px1")); (str "k2", (sec 2, str "px2"))];
     c_skew := 30; c_cap := n; c_nocache := false; c_inner_nil := false |}.
Definition refusals (c : config) (h : list req) : list bool :=
  map (fun vo => is_refusal (snd vo)) (run toy ttl_ns c [] (map norm h)).

(* the capacity premise is tight: capacity 2, exactly 2 admissions in between evict the nonce *)
Example capacity_bound_tight :
  let A := tk (str "k1") (str "1700000000") 65 in
  let B := tk (str "k1") (str "1700000000") 66 in
  let C := tk (str "k1") (str "1700000000") 67 in
  refusals (capc 2) [rq T0 A; rq T0 B; rq T0 A] = [false; false; true]
  /\ refusals (capc 2) [rq T0 A; rq T0 B; rq T0 C; rq T0 A] = [false; false; false; false].
Proof. vm_compute. auto. Qed.

(* OBSERVATION: the cache is keyed by the nonce alone — a second proxy (k2) that happens to use a
   nonce k1 used is refused as a replay: a false reject, never a bypass *)
Example obs_nonce_only_key :
  map fst (run toy ttl_ns (capc 0) [] (map norm [rq T0 (tk (str "k1") (str "1700000000") 65);
                                                 rq T0 (tk (str "k2") (str "1700000000") 65)]))
  = [VOk (str "px1") (str "k1"); VErr RReplayed].
Proof. vm_compute. auto. Qed.

(* OBSERVATION (outside the monotone premise): the clock jumps forward past the entry's expiry,
   then back — the proof is admitted again *)
Example obs_clock_backwards :
  let A := tk (str "k1") (str "1700000000") 65 in
  let B := tk (str "k1") (str "1700000100") 66 in
  let h := [rq T0 A; rq (T0 + s 100) B; rq (T0 + s 1) A] in
  monotone1 h = false /\ refusals (capc 0) h = [false; false; false].
Proof. vm_compute. auto. Qed.

(* OBSERVATION (outside sane_req): clock one second before the epoch, ts = MaxInt64: int64 negation
   of age = -2^63 wraps, the far-future timestamp passes the two-sided window *)
Example obs_pre_epoch_clock_wraps :
  let r := rq (- s 1) (tk (str "k1") (str "9223372036854775807") 65) in
  sane_req r = false /\ refusals (capc 0) [r] = [false]
  /\ window_check 30 (-1) 9223372036854775807 = WOk.
Proof. vm_compute. auto. Qed.

(* OBSERVATION: RawURLEncoding is not strict — the two spare bits of the last MAC character are
   ignored, so four spellings of the MAC field decode to the same 32 bytes (the nonce-keyed cache
   still refuses them as replays) *)
Example obs_mac_field_has_four_spellings :
  let alt := repeat 65%N 42 ++ [66%N] in
  mac_ok alt = true /\ alt <> macA /\ b64dec alt = b64dec macA.
Proof. vm_compute. repeat split; auto; discriminate. Qed.
