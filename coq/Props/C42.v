(* Props/C42.v — property C42: socket listeners serve connections independently
   and shut down only when idle. The invariant and the lemmas are in Proofs/C42.v.

   Vocabulary (Model/C42.v). The listener (RunUnix / RunTcp, same text) is a
   state machine with ONE EVENT PER CRITICAL SECTION OR BLOCKING CALL of the Go
   code: AcceptRet c (Accept returned c; c is open but not yet counted), Count c
   (active++, disarm, wg.Add, go serve), Start c (notifyTransport returned nil:
   the serve-start hook accepted, or the transport was already bound; a
   connection the hook REFUSES has no Start and goes from Count straight to
   Done, so the hook's verdict sequence is part of the schedule), Serve c (one
   serveOne iteration on c's own reader / writer, only after Start c), Done c (active--, arm(idle) when the count reaches zero
   and no shutdown was requested, wg.Done), TimerFire g (the runtime expires
   timer generation g and starts its callback goroutine), Callback g (under the
   lock: if its timer is still the current one and active == 0 then shutdown =
   true and the listener is closed),
   AcceptFail, FinalDisarm, Return (wg.Wait passed). A schedule is an ARBITRARY
   list of events; an event that is not enabled is skipped. [run k (init k)
   sched] is the state after the schedule; every theorem below quantifies over
   all schedules, all connection ids, and both the code ([cf_gencheck] = true:
   the callback checks that its timer is still the current one) and the code
   before that fix ([cf_gencheck] = false) unless it says otherwise. Ghost fields: [serving] = counted and not done, [accepted], [finished],
   the step clock, [armlog] (generation -> step at which it was armed),
   [last_count] / [last_done] (step of the last Count / Done), [late] (the
   connection that sat between AcceptRet and Count when the listener closed). *)
From VR Require Import Model.C42 Proofs.C42.
From VR Require Model.C02 Proofs.C02.
From Coq Require Import ZArith.

(* The listener goes from open to closed ONLY by a timer callback that finds,
   under the lock, the counter at zero - and the counter is the number of
   registered connections that are not done, so no registered connection is
   open at that moment; the callback sets the shutdown flag in the same
   critical section. (Return also closes the listener, but the loop leaves
   Accept only after the listener was closed.) *)
Theorem shutdown_only_when_idle : forall k sched e,
  let s := run k (init k) sched in
  closed s = false -> closed (exec k s e) = true ->
  (exists g, e = Callback g) /\ active s = 0%Z /\ serving s = [] /\ shutdown (exec k s e) = true.
Proof. intros k sched e. apply closes_only_idle, inv_reach. Qed.

(* The counter IS the number of open registered connections - [serving] =
   counted by the loop and not yet done, whether or not the serve-start hook
   accepted them - in every reachable state: for every schedule and therefore
   for every verdict sequence of the hook (a refused connection is counted by
   the loop, never served, and uncounted by its goroutine). At most one timer is
   pending and it is the one in the variable. *)
Theorem counter_is_open_count : forall k sched,
  let s := run k (init k) sched in
  active s = Z.of_nat (length (serving s)) /\ wg s = Z.of_nat (length (serving s))
  /\ (pendt s = [] \/ exists g, tvar s = Some g /\ pendt s = [g]).
Proof. intros k sched. pose proof (inv_reach k sched) as Hinv. split; [apply Hinv | split; apply Hinv]. Qed.

(* a connection is served only after the hook accepted it *)
Theorem served_only_after_hook : forall k sched c,
  let s := run k (init k) sched in
  mem c (started s) = false -> sessions (exec k s (Serve c)) = sessions s.
Proof. intros k sched c s H. unfold exec. cbn [step]. rewrite H, Bool.andb_false_r. reflexivity. Qed.

(* The variant that counts LATE - active++ / disarm() done by the connection's
   goroutine only once the hook accepted it, while Done still decrements every
   connection - breaks the invariant and the property: the hook refuses
   connection 1 (counter -1), connection 2 is accepted and held (counter 0),
   connection 3 comes and goes (counter 1, then 0: the idle timer is armed),
   the timer fires and its callback closes the listener while connection 2 is
   open and being served - and not in the accept window ([late] = None). On the
   code the same schedule leaves the listener open with the counter at 1 and no
   timer pending. *)
Theorem late_count_variant_refuted :
  let s := run_late code_cfg (init code_cfg) w_late_count in
  closed s = true /\ serving s = [2%nat] /\ active s = 0%Z /\ looppend s = None /\ late s = None
  /\ active (run_late code_cfg (init code_cfg) [AcceptRet 1; Count 1; Done 1]%nat) = (-1)%Z.
Proof. vm_compute. repeat split. Qed.

Theorem late_count_schedule_on_the_code :
  let s := run code_cfg (init code_cfg) w_late_count in
  closed s = false /\ serving s = [2%nat] /\ active s = 1%Z /\ pendt s = [].
Proof. vm_compute. auto. Qed.

(* Never while one is open - precisely: in every reachable state with the
   listener closed, any connection that is open (counted, or returned by Accept
   and not yet counted) is the ONE connection that Accept had already returned
   when the callback closed the listener and that the loop had not yet counted. *)
Theorem open_after_close_was_in_accept_window : forall k sched c,
  let s := run k (init k) sched in
  closed s = true -> In c (open_conns s) -> late s = Some c.
Proof. intros k sched c s Hc. apply (i_late k s (inv_reach k sched) Hc). Qed.

(* FULL STATEMENT (false for the code, see the witness): [closed s = true -> open_conns s = []].
   The accept window is real: Accept returns connection 2, the callback of the
   expired timer takes the lock first and sees active == 0, closes the
   listener, then the loop counts and serves connection 2. The connection is
   still served to completion (returns_after_all_done); no NEW dial succeeds. *)
Theorem accept_window_refutes_full_statement :
  let s := run code_cfg (init code_cfg) w_accept_window in
  closed s = true /\ serving s = [2%nat] /\ late s = Some 2%nat /\ is_returned s = false.
Proof. vm_compute. auto. Qed.

(* The idle period. Whenever a callback closes the listener, its timer g is
   still the current one (the code checks timer == self under the lock), g was
   armed at a step n with the counter at zero, and NO connection was registered
   and none finished at any later step: the whole life of the timer that shuts
   the listener down was a period with zero open registered connections, and
   it began at the last Done (or at the start). Stale timers are ignored. *)
Theorem idle_period_respected : forall k sched g,
  cf_gencheck k = true ->
  let s := run k (init k) sched in
  closed s = false -> closed (exec k s (Callback g)) = true ->
  tvar s = Some g /\
  exists n, lookup g (armlog s) = Some n /\ (last_count s <= n)%nat /\ (last_done s <= n)%nat /\ serving s = [].
Proof.
  intros k sched g Hk s Hc Hx. destruct (callback_closes k s g Hc Hx) as (_ & _ & Ht). specialize (Ht Hk).
  split; [exact Ht | exact (current_timer_idle k s g (inv_reach k sched) Ht)].
Qed.

(* Before the fix "ignore a stale idle-timer callback in the socket listeners"
   the callback had no such check ([cf_gencheck] = false). Timer 1 fires,
   connection 2 is accepted, counted, served and done (which arms timer 2)
   before callback 1 gets the lock; callback 1 then sees active == 0 and closes
   the listener although a connection was registered (step 6) and finished
   (step 7) after timer 1 was armed (step 3): zero idle time after the last
   Done. (The window is a few microseconds wide and cannot be forced from
   outside RunUnix / RunTcp: mu and the timer are locals of the function.) *)
Theorem idle_period_legacy_refuted :
  let s := run legacy_cfg (init legacy_cfg) w_stale in
  closed s = false /\ closed (exec legacy_cfg s (Callback 1)) = true
  /\ lookup 1%nat (armlog s) = Some 3%nat /\ last_count s = 6%nat /\ last_done s = 7%nat /\ tvar s = Some 2%nat.
Proof. vm_compute. repeat split. Qed.

(* the same schedule on the code: the stale callback does nothing *)
Theorem stale_callback_ignored : 
  let s := run code_cfg (init code_cfg) w_stale in
  closed s = false /\ closed (exec code_cfg s (Callback 1)) = false.
Proof. vm_compute. auto. Qed.

(* for the record: even without the check the statement held whenever the
   callback ran right after its timer fired *)
Theorem legacy_idle_period_if_prompt : forall k sched g,
  let s0 := run k (init k) sched in
  mem g (pendt s0) = true ->
  let s := exec k s0 (TimerFire g) in
  closed s = false -> closed (exec k s (Callback g)) = true ->
  exists n, lookup g (armlog s) = Some n /\ (last_count s <= n)%nat /\ (last_done s <= n)%nat /\ serving s = [].
Proof.
  intros k sched g s0 Hm s _ _.
  apply (current_timer_idle k s g); [apply inv_exec, inv_reach | exact (fire_keeps_current k s0 g (inv_reach k sched) Hm)].
Qed.

(* Run returns only after every connection goroutine finished: in a returned
   state the listener is closed, nothing is being served or waiting to be
   counted, and every connection Accept ever returned is finished. *)
Theorem returns_after_all_done : forall k sched,
  let s := run k (init k) sched in
  is_returned s = true ->
  closed s = true /\ serving s = [] /\ looppend s = None /\ forall c, In c (accepted s) -> In c (finished s).
Proof. intros k sched. exact (returned_all_done k _ (inv_reach k sched)). Qed.

(* Connections are independent. Whatever the schedule (listener events, other
   connections' serve steps, timers - interleaved in any way), whatever the
   other connections send, at every moment what connection c has received is a
   prefix of the ONE stream list that the C02 per-connection reader model
   assigns to c's own requests on a fresh connection. *)
Theorem connections_independent : forall k1 k2 sched1 sched2 c,
  cf_gate k1 = cf_gate k2 -> cf_calls k1 c = cf_calls k2 c ->
  exists r1 r2,
    out_of (run k1 (init k1) sched1) c ++ r1 = C02.run_conn (cf_gate k1) (cf_calls k1 c)
    /\ out_of (run k2 (init k2) sched2) c ++ r2 = C02.run_conn (cf_gate k1) (cf_calls k1 c).
Proof.
  intros k1 k2 s1 s2 c Hg Hc.
  destruct (view_is_prefix k1 _ c (inv_reach k1 s1)) as [r1 E1].
  destruct (view_is_prefix k2 _ c (inv_reach k2 s2)) as [r2 E2].
  exists r1, r2. split; [exact E1|]. now rewrite Hg, Hc.
Qed.

(* composed with C02: for in-scope calls that stream list is the per-call responses, in request order *)
Theorem connection_view_is_per_call : forall k sched c,
  forallb C02.in_scope (cf_calls k c) = true ->
  exists rest, out_of (run k (init k) sched) c ++ rest = concat (map (C02.serve_call (cf_gate k)) (cf_calls k c)).
Proof.
  intros k sched c Hs. destruct (view_is_prefix k _ c (inv_reach k sched)) as [r E]. exists r.
  rewrite E. unfold C02.run_conn. apply Proofs.C02.stays_in_frame, Proofs.C02.scope_forall, Hs.
Qed.

(* Transport details are invisible. Which connections ship their parameter
   batches through a shared-memory segment of their own ([i_shm]) and whether
   the connections of a talk run concurrently or take turns call by call
   ([TalkRR]: init A, init B, pointer A, pointer B, ...) change NOTHING in
   what the model assigns to the run: the probes, and every connection's view,
   which is what its own calls get alone, inline, on a fresh pipe server (each
   connection has its own reader, writer and segment cache). spec_ok judges the
   implementation's views of such runs against that same alone run. *)
Theorem transport_details_invisible : forall i shm ops',
  map norm_op ops' = map norm_op (i_ops i) -> model (with_transport i shm ops') = model i.
Proof.
  intros i shm ops' H. unfold model, ops_of. rewrite trun_transport. cbn [with_transport i_ops]. rewrite H. reflexivity.
Qed.

(* The timed run that the harness forces from outside is a schedule of the
   machine, so everything above applies to it. *)
Theorem timed_run_is_a_schedule : forall i,
  exists sched, t_s (fst (trun i (tinit i) (ops_of i))) = run (cfg_of i) (init (cfg_of i)) sched.
Proof. intros i. exact (timed_run_is_schedule i (ops_of i) (tinit i)). Qed.

(* The property in the decidable form evaluated on the implementation's
   observables: for EVERY timed schedule of open / talk / close / wait the
   probes of the machine are those of the reference monitor (the listener has
   stopped at a probe exactly when some wait ended with no connection open for
   the required time - startup grace max(idle, 60 s) before the first
   connection, the idle timeout after - never while one is open, never
   earlier; dials succeed exactly while it has not stopped; the Unix socket
   file is there with mode 0600 exactly until then), and every connection that
   talked read exactly what its calls get alone on a fresh connection. *)
Theorem spec_holds_on_model : forall i, spec_ok i (model i) = true.
Proof.
  intros i. unfold spec_ok, model.
  pose proof (trun_sim i (ops_of i) (tinit i) (minit i) (sim_init i)) as EP.
  pose proof (trun_keeps i _ (top_views i) (ops_of i) _ (views_init i)) as HV.
  assert (length (ops_of i) = length (i_ops i)) as HLen by apply map_length.
  destruct (trun i (tinit i) (ops_of i)) as [t ps]. cbn [fst snd] in EP, HV. cbn [o_probes o_views o_alone].
  rewrite EP, (list_eqb_refl probe_safe probe_safe_refl), mrun_length, HLen, Nat.eqb_refl. cbn [andb].
  rewrite map_length. unfold conn_ids. rewrite seq_length, Nat.eqb_refl, andb_true_r.
  apply orb_true_iff. right.
  rewrite (map_ext _ _ (fun c => view_of_views i t c HV)).
  apply list_eqb_refl. intros l. apply list_eqb_refl. apply stream_eqb_refl.
Qed.

(* a stopped monitor has no open connection and has seen the whole period *)
Example monitor_stop_is_safe : forall i m d,
  m_stopped m = false -> m_stopped (fst (mstep i m (Wait d))) = true ->
  m_open m = [] /\ (m_zero_at m + m_need m <=? m_now m + d) = true.
Proof.
  intros i m d H0 H1. cbn [mstep fst m_stopped] in H1. rewrite H0 in H1. cbn [orb negb] in H1.
  rewrite !Bool.andb_true_iff in H1. destruct H1 as (((_ & _) & H2) & H3). split; [now destruct (m_open m) | exact H3].
Qed.

(* non-vacuity: a schedule in which the listener is held up by an open
   connection far past the timeout, stops one period after the close, and
   refuses the next dial *)
Example premises_satisfiable :
  let i := {| i_unix := true; i_idle := 300; i_gate := false; i_hook := []; i_shm := []; i_conns := [[]; []];
              i_ops := map Plain [Open 0; Wait 900; Close 0; Wait 100; Wait 500; Open 1]%nat |} in
  map p_ret (o_probes (model i)) = [false; false; false; false; true; true]
  /\ map p_ok (o_probes (model i)) = [true; true; true; true; true; false]
  /\ closed (run code_cfg (init code_cfg) [AcceptRet 1; Count 1; Done 1; TimerFire 1]%nat) = false
  /\ closed (exec code_cfg (run code_cfg (init code_cfg) [AcceptRet 1; Count 1; Done 1; TimerFire 1]%nat) (Callback 1)) = true.
Proof. vm_compute. auto. Qed.

(* non-vacuity with the hook: it refuses connection 0 (closed unserved), B = 1
   is held, C = 2 comes and goes, and three idle periods later a dial still
   succeeds and Run has not returned *)
Example hook_premises_satisfiable :
  let i := {| i_unix := false; i_idle := 300; i_gate := false; i_hook := [true]; i_shm := []; i_conns := [[]; []; []; []];
              i_ops := map Plain [Open 0; Open 1; Open 2; Close 2; Wait 900; Open 3]%nat |} in
  map p_refused (o_probes (model i)) = [true; false; false; false; false; false]
  /\ map p_ok (o_probes (model i)) = [true; true; true; true; true; true]
  /\ map p_ret (o_probes (model i)) = [false; false; false; false; false; false].
Proof. vm_compute. auto. Qed.
