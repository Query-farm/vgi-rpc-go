(* Props/C11.v — property C11: a stream behaves the same over HTTP as over a
   pipe. The simulation and the cache lemmas are in Proofs/C11.v.

   CLIENT VIEW = header stream, then in order every data batch (schema, rows,
   values, user metadata), every log message (level, text, extras) and the
   terminating error (type, text). Projected out, because the transports are
   ALLOWED to differ there: token sentinel batches and the cutting of the output
   into HTTP responses, the request id echoed on log/error batches, the HTTP
   status and X-VGI-RPC-Error header, the schema of an error-only stream.

   The generic theorems quantify over EVERY deterministic step function, every
   state codec and AEAD that round-trip (the only premises about gob and
   XChaCha20-Poly1305), every batch limit L >= 0, every response-size cut
   predicate, every cache size (0 = disabled) with any initial contents that do
   not contradict this call, and every routing function request -> instance.
   [vw] is any projection of one batch under its stream's schema. *)
From VR Require Import Model.C11 Proofs.C11.

(* the simulation step: whatever instance serves the request and whatever its
   cache holds, the cursor sealed from live state s re-opens to exactly s and
   this call's fixed half, and the cache stays consistent *)
Theorem sealed_cursor_reopens :
  forall (state sbytes token ctoken : Type) (ser : state -> sbytes) (deser : sbytes -> option state)
         (seal_cur : bytes * sbytes -> token) (open_cur : token -> option (bytes * sbytes))
         (seal_call : callinfo -> ctoken) (open_call : ctoken -> option callinfo)
         (cmax : nat) (mth : bytes) (info : callinfo),
  (forall s, deser (ser s) = Some s) ->
  (forall x, open_cur (seal_cur x) = Some x) ->
  (forall x, open_call (seal_call x) = Some x) ->
  ci_method info = mth ->
  forall (c : cache) (s : state),
  cache_ok (ci_id info) info c ->
  exists c', open_request deser open_cur open_call cmax mth c (seal_cur (ci_id info, ser s)) (seal_call info)
             = (Some (ci_id info, s, info), c') /\ cache_ok (ci_id info) info c'.
Proof. exact @open_request_ok. Qed.

(* producers: /init folds the first turns, every continuation runs up to L more *)
Theorem http_refines_pipe_producer :
  forall (state inp sbytes token ctoken V : Type) (step : state -> inp -> tres state)
         (ser : state -> sbytes) (deser : sbytes -> option state)
         (seal_cur : bytes * sbytes -> token) (open_cur : token -> option (bytes * sbytes))
         (seal_call : callinfo -> ctoken) (open_call : ctoken -> option callinfo)
         (L : nat) (cut : list frame -> bool) (cmax : nat) (route : nat -> nat)
         (mth : bytes) (schema_of : callinfo -> bytes) (refusal : frame)
         (env : nat -> (nat -> cache) -> (nat -> cache))
         (vw : bytes -> frame -> list V) (info : callinfo) (schema : bytes),
  (forall s, deser (ser s) = Some s) ->
  (forall x, open_cur (seal_cur x) = Some x) ->
  (forall x, open_call (seal_call x) = Some x) ->
  (forall k cs, caches_ok (ci_id info) info cs -> caches_ok (ci_id info) info (env k cs)) ->
  ci_method info = mth ->
  schema_of info = schema ->
  forall (caches : nat -> cache) (s0 : state) (pre : list frame) (ticks : list inp),
  caches_ok (ci_id info) info caches ->
  resps_view vw (http_prod step ser deser seal_cur open_cur seal_call open_call L cut cmax route mth
                   schema_of refusal env info schema caches s0 pre ticks)
  = flat_map (vw schema) (pre ++ pipe_loop step inl s0 ticks).
Proof. exact @http_prod_view. Qed.

(* exchange: one request per input batch. Premises beyond the codecs: an
   exchange collector cannot finish (OutputCollector.Finish refuses), a cast
   refusal projects the same under the empty schema of the HTTP 400 stream, and
   the two HTTP casts (registered schema before the tokens are opened, runtime
   schema from the call token after) compose to the pipe's cast on every input
   of this run. *)
Theorem http_refines_pipe_exchange :
  forall (state inp raw mid sbytes token ctoken V : Type) (step : state -> inp -> tres state)
         (cast_p : raw -> inp + frame) (cast1 : raw -> mid + frame) (cast2 : callinfo -> mid -> inp + frame)
         (ser : state -> sbytes) (deser : sbytes -> option state)
         (seal_cur : bytes * sbytes -> token) (open_cur : token -> option (bytes * sbytes))
         (seal_call : callinfo -> ctoken) (open_call : ctoken -> option callinfo)
         (cmax : nat) (route : nat -> nat) (mth : bytes) (schema_of : callinfo -> bytes)
         (refusal : frame) (env : nat -> (nat -> cache) -> (nat -> cache))
         (vw : bytes -> frame -> list V) (info : callinfo) (schema : bytes),
  (forall s, deser (ser s) = Some s) ->
  (forall x, open_cur (seal_cur x) = Some x) ->
  (forall x, open_call (seal_call x) = Some x) ->
  (forall k cs, caches_ok (ci_id info) info cs -> caches_ok (ci_id info) info (env k cs)) ->
  ci_method info = mth ->
  schema_of info = schema ->
  (forall s i s' o f, step s i = TOk s' o f -> f = false) ->
  (forall r e, cast_p r = inr e -> vw [] e = vw schema e) ->
  forall (caches : nat -> cache) (s0 : state) (pre : list frame) (ins : list raw),
  (forall r, In r ins -> cast_http cast1 cast2 info r = cast_p r) ->
  caches_ok (ci_id info) info caches ->
  resps_view vw (http_exch step cast1 cast2 ser deser seal_cur open_cur seal_call open_call cmax route mth
                   schema_of refusal env info schema caches s0 pre ins)
  = flat_map (vw schema) (pre ++ pipe_loop step cast_p s0 ins).
Proof. exact @http_exch_view. Qed.

Lemma concat_chunks_aux {A} (L fuel : nat) (xs : list A) : concat (chunks_aux fuel L xs) = xs.
Proof.
  revert xs; induction fuel as [|f IH]; intro xs; cbn [chunks_aux concat].
  - apply app_nil_r.
  - destruct xs as [|x xs]; [reflexivity|]. cbn [concat]. rewrite IH. apply firstn_skipn.
Qed.

(* cutting a producer's output into responses of L batches loses and reorders nothing (L = 0: one response) *)
Theorem producer_chunks_concat : forall (A : Type) (L : nat) (xs : list A), concat (chunks L xs) = xs.
Proof.
  intros A L xs. destruct L as [|l]; cbn [chunks concat]; [apply app_nil_r | apply concat_chunks_aux].
Qed.

(* the cast premise of the exchange theorem holds for the repaired code on every
   method kind (static, dynamic) and every input column (equal, castable,
   uncastable): the runtime input schema rides the call token *)
Theorem repaired_http_casts_like_pipe : forall i r,
  is_producer (i_kind i) = false -> In r (raws i) ->
  cast_http (cast_reg (i_kind i)) cast_rt (call_info false (i_kind i) (i_ocol i)) r = cast_pipe r.
Proof. intros i r Hp _. exact (repaired_casts_agree _ _ r Hp). Qed.

(* THE PROPERTY in decidable form, on the executable model that is compared with
   the real Server / HttpServer on every run: for every scripted stream call
   (6 method kinds incl. dynamic, any init logs / requested level / init failure /
   header, any list of scripted turns, any inputs incl. castable-but-unequal and
   uncastable ones) and every HTTP configuration (L, cap, cache size, routing
   list, compression), the pipe view equals the HTTP view. No premise. *)
Theorem http_refines_pipe : forall i, spec_ok i (model i) = true.
Proof. exact model_meets_spec. Qed.

(* OVERLAPPING calls on the same instances. [env] in http_refines_pipe_producer and
   http_refines_pipe_exchange is everything the other calls do to every
   instance's cache between two requests of this call; its premise is met by any request of a call with another call
   id: its cache lookup / miss-path insert (resolveCall) and its /init insert
   (packCallTokenFor), including the LRU evictions they cause. *)
Theorem other_call_keeps_this_calls_entry :
  forall (ctoken : Type) (open_call : ctoken -> option callinfo) (cid : bytes) (info : callinfo)
         (max : nat) (cid' : bytes) (ct : ctoken) (c : cache),
  beqb cid cid' = false -> cache_ok cid info c ->
  cache_ok cid info (snd (resolve open_call max c cid' ct))
  /\ forall info', cache_ok cid info (cput max cid' info' c).
Proof.
  intros ctoken open_call cid info max cid' ct c Hne H.
  assert (Hother : forall v, beqb cid cid' = true -> v = info) by (intros v E; congruence).
  split; [|intro info'; apply cache_ok_cput; [apply Hother | exact H]].
  unfold resolve. destruct (cget max cid' c) as [[v c']|] eqn:Eg; [exact (cache_ok_cget _ _ _ _ _ _ _ H Eg)|].
  destruct (open_call ct) as [i'|]; [|exact H]. destruct (beqb (ci_id i') cid'); [|exact H].
  apply cache_ok_cput; [apply Hother | exact H].
Qed.

(* the property on a HISTORY (Model/C11H.v: the form compared with the real code):
   any list of calls opened on the same servers, any interleaving of the client's
   steps; every call's HTTP view equals its own pipe view *)
Theorem http_refines_pipe_history : forall h, C11H.spec_ok h (C11H.model h) = true.
Proof. exact history_meets_spec. Qed.

(* the code before the repair (call token without the runtime input schema):
   dynamic exchange method, runtime input schema {x:int64}; the client sends
   {x:int32} (pipe: values 11, 23; HTTP: the state read the batch as sent) or a
   field named y (pipe: TypeError; HTTP: the turns ran). Both witnesses are in
   corpus/C11.jsonl and are replayed on the implementation first. *)
Theorem http_refines_pipe_legacy_refuted :
  exists i j, spec_ok i (legacy_model i) = false /\ spec_ok j (legacy_model j) = false /\ i_col i <> i_col j.
Proof. exists (dyn_cast_witness CI32), (dyn_cast_witness CBadName). destruct dyn_cast_legacy_refuted as [H1 H2]. split; [exact H1|]. split; [exact H2|]. discriminate. Qed.

(* ... and it was wrong only there *)
Theorem legacy_agreed_where_cast_safe : forall i, cast_safe i = true -> spec_ok i (legacy_model i) = true.
Proof.
  intros i Hs. unfold spec_ok, legacy_model. cbn [o_pipe o_http].
  rewrite (views_agree true i (or_intror Hs)). apply view_eqb_refl.
Qed.

(* non-vacuity: the premises hold for the scripted state with identity codecs,
   and a concrete run is cut into several responses on several instances *)
Example premises_satisfiable :
  (forall s : sstate, Some ((fun x => x) s) = Some s)
  /\ (forall s x s' o f, sstep false s x = TOk s' o f -> f = false)
  /\ caches_ok cid0 (call_info false MDynExch (str "bravo")) (fun _ => [])
  /\ ci_inschema (call_info false MDynExch (str "bravo")) = in_schema
  /\ ci_schema (call_info false MDynExch (str "bravo")) = str "bravo:int64"
  /\ beqb cid0 (str "other") = false
  /\ cast_safe (dyn_cast_witness CI32) = false.
Proof. split; [reflexivity|]. split; [exact sstep_exch_nofin|]. split; [intro n; apply cache_ok_nil|]. repeat split; vm_compute; reflexivity. Qed.

Example nonvacuous :
  let i := {| i_kind := MProdH; i_reqid := str "r"; i_loglevel := str "INFO";
              i_initlogs := [ {| lg_level := str "INFO"; lg_msg := str "hi"; lg_extras := [] |} ];
              i_initfail := None; i_header := Some 7%Z; i_ocol := str "v";
              i_turns := map emit_turn [1; 2; 3; 4; 5]%Z; i_col := CI64; i_ins := [[]; []; []; []; []; []; []];
              i_L := 2; i_capevery := false; i_cmax := 0; i_route := [0; 1; 2]%nat; i_compress := true |} in
  length (o_http (model i)) = 3%nat
  /\ map rs_frames (http_resps i) = chunks 2 (loop i)
  /\ spec_ok i (model i) = true
  /\ spec_ok (dyn_cast_witness CI32) (model (dyn_cast_witness CI32)) = true.
Proof. vm_compute. repeat split; reflexivity. Qed.
