(* Props/C10.v — property C10: the protocol-version gate admits exactly
   same-major.minor clients. The lemmas the proofs rest on are in Proofs/C10.v. *)
From VR Require Import Model.C10 Proofs.C10.

(* the accepted grammar is exactly  a "." b "." c  with each component 0|[1-9][0-9]* *)
Theorem parse_accepts_canonical : forall a b c,
  canon_part a = true -> canon_part b = true -> canon_part c = true ->
  parse (a ++ DOT :: b ++ DOT :: c) = Some (a, b, c).
Proof.
  intros a b c Ha Hb Hc. unfold parse. change (a ++ DOT :: b ++ DOT :: c) with (join [DOT] [a; b; c]).
  rewrite split_join by (discriminate || (repeat constructor; now apply digits_nodot, canon_digits)).
  now rewrite Ha, Hb, Hc.
Qed.

Theorem parse_accepts_only_canonical : forall s a b c,
  parse s = Some (a, b, c) ->
  s = a ++ DOT :: b ++ DOT :: c /\ canon_part a = true /\ canon_part b = true /\ canon_part c = true.
Proof.
  intros s a b c. unfold parse. pose proof (join_split DOT s) as J.
  destruct (split_on DOT s) as [|x [|y [|z [|w t]]]]; try discriminate.
  destruct (canon_part x && canon_part y && canon_part z) eqn:E; [|discriminate].
  intro H. injection H as -> -> ->. apply andb_true_iff in E as [E E3]. apply andb_true_iff in E as [E1 E2].
  split; [now rewrite <- J | auto].
Qed.

(* comparing components by length then bytewise IS numeric comparison, for
   components of any number of digits (no machine-int bound) *)
Theorem component_order_is_numeric : forall a b,
  canon_part a = true -> canon_part b = true -> cmp_part a b = N.compare (num a) (num b).
Proof. exact cmp_part_numeric. Qed.

(* a refusal names the side that must upgrade *)
Theorem direction_names_right_side : forall sv cv sma smi sp ma mi pa,
  parse sv = Some (sma, smi, sp) -> parse cv = Some (ma, mi, pa) ->
  gate (sma, smi, sp) (Some cv) =
    if same_major_minor sv cv then Admit else if client_older sv cv then ClientTooOld else ServerTooOld.
Proof.
  (* the gate compares components with [cmp_part], the specification compares the numbers they
     denote with [N.eqb] and [N.ltb]: by [cmp_part_numeric] both read the same table *)
  intros sv cv sma smi sp ma mi pa Hs Hc.
  destruct (parse_accepts_only_canonical _ _ _ _ Hs) as (_ & S1 & S2 & _), (parse_accepts_only_canonical _ _ _ _ Hc) as (_ & C1 & C2 & _).
  unfold gate, same_major_minor, client_older.
  rewrite Hs, Hc, (cmp_part_numeric ma sma C1 S1), (cmp_part_numeric mi smi C2 S2), !N.eqb_compare, !N.ltb_compare.
  destruct (num ma ?= num sma), (num mi ?= num smi); reflexivity.
Qed.

(* a declared client version is admitted iff numerically same major and minor *)
Theorem admitted_iff_same_major_minor : forall sv cv sma smi sp,
  parse sv = Some (sma, smi, sp) ->
  (gate (sma, smi, sp) (Some cv) = Admit <-> same_major_minor sv cv = true).
Proof.
  intros sv cv sma smi sp Hs. destruct (parse cv) as [[[ma mi] pa]|] eqn:Hc.
  - rewrite (direction_names_right_side sv cv sma smi sp ma mi pa Hs Hc).
    destruct (same_major_minor sv cv); [tauto | ]. destruct (client_older sv cv); split; discriminate.
  - unfold gate, same_major_minor. rewrite Hs, Hc. split; discriminate.
Qed.

(* whole decision incl. absent / malformed versions, __describe__ exemption and
   the no-declared-version case, in the decidable form evaluated on the
   implementation's observables *)
Theorem spec_holds_on_model : forall i,
  (forall sv, i_server i = Some sv -> exists p, parse sv = Some p) ->
  spec_ok i (model i) = true.
Proof.
  intros i Hsrv. unfold spec_ok, model. destruct (i_server i) as [sv|] eqn:ES; [|reflexivity].
  destruct (is_describe (i_route i)); [reflexivity|].
  destruct (Hsrv sv eq_refl) as [[[sma smi] sp] Hp]. rewrite Hp.
  destruct (i_client i) as [cv|] eqn:EC.
  - destruct (parse cv) as [[[ma mi] pa]|] eqn:Hc.
    + rewrite (direction_names_right_side sv cv sma smi sp ma mi pa Hp Hc).
      destruct (same_major_minor sv cv) eqn:ESM; cbn [o_dispatched o_verdict o_kind]; [reflexivity|].
      destruct (client_older sv cv); cbn [o_dispatched o_verdict o_kind Bool.eqb orb andb];
        now rewrite beqb_refl.
    + unfold gate. rewrite Hc. unfold same_major_minor. rewrite Hp, Hc.
      cbn [o_dispatched o_verdict o_kind Bool.eqb orb andb]. now rewrite beqb_refl.
  - cbn [gate o_dispatched o_verdict o_kind Bool.eqb orb andb]. now rewrite beqb_refl.
Qed.

(* the unrepaired gate (strconv.Atoi clamps) violated the property *)
Theorem gate_legacy_refuted :
  exists sv cv p, parse sv = Some p /\ same_major_minor sv cv = false /\ gate_legacy p (Some cv) = Admit.
Proof. exact legacy_refuted. Qed.

Example nonvacuous :
  parse (str "2.10.3") = Some (str "2", str "10", str "3")
  /\ gate (str "2", str "10", str "3") (Some (str "2.9.0")) = ClientTooOld
  /\ gate (str "2", str "10", str "3") (Some (str "2.10.77")) = Admit
  /\ gate (str "2", str "10", str "3") (Some (str "02.10.0")) = Malformed.
Proof. vm_compute. repeat split; reflexivity. Qed.
