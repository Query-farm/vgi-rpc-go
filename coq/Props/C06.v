(* Props/C06.v — property C06: pipe streams obey the lockstep contract.
   The lemmas on the loop, the plan and single turns are in Proofs/C06.v.
   The theorems on one stream's loop are stated over
   [loop m rid cast canc sc k ins]: the lockstep loop of serveStream for mode m,
   request id rid, input-cast outcome cast, a state that has (canc) or lacks the
   cancel hook, the state's script sc from turn number k on, and ANY client
   input list ins.  [plan m sc k (live ins)] is what each turn WOULD do on the
   inputs before the first cancel batch (a pure map, no early exit); the theorems
   say which prefix of it the loop runs and what it writes.  These are by induction
   on ins, for every script and every input list, no bound on either; the theorems
   on single turns, the header stream, input casts and histories are case splits
   or unfoldings of the model. *)
From VR Require Import Model.C06 Proofs.C06.
Local Open Scope nat_scope.

(* The loop, completely: it runs the planned turns up to and including the first
   one that does not continue (nrun), flushes the batches of those turns in turn
   order, adds exactly one exception batch iff that last turn failed, and calls
   the cancel hook (cancel_part) only if every planned turn continued. *)
Theorem lockstep_loop_shape : forall m rid canc sc k ins,
  let P := plan m sc k (live ins) in
  let run := firstn (nrun P) P in
  fst (loop m rid None canc sc k ins) = concat (map res_frames run) ++ res_exc rid (last_opt run)
  /\ snd (loop m rid None canc sc k ins) = map fst run ++ cancel_part canc k ins P run.
Proof. exact loop_char. Qed.

(* Exchange: exactly one data batch per input batch, in input order, each
   preceded by that turn's logs (exch_frames), as long as the script emits. *)
Theorem exchange_one_data_batch_per_input : forall rid canc sc k ins,
  (forall j, j < length (live ins) -> t_act (nth j sc (default_turn Exchange)) = AEmit) ->
  fst (loop Exchange rid None canc sc k ins) = exch_frames sc (live ins)
  /\ count is_data (exch_frames sc (live ins)) = length (live ins)
  /\ count is_exc (exch_frames sc (live ins)) = 0
  /\ count is_turn_call (snd (loop Exchange rid None canc sc k ins)) = length (live ins).
Proof. exact exchange_one_per_input. Qed.

(* Finish is refused on an exchange, and a refusal the state ignores changes nothing: the turn is judged as if
   Finish had not been called (still one data batch required, the stream never ends on it). *)
Theorem refused_finish_has_no_effect_on_exchange : forall t s,
  run_turn Exchange (with_act t AEmitFinishIgnored) s = run_turn Exchange (with_act t AEmit) s
  /\ run_turn Exchange (with_act t AFinishIgnored) s = run_turn Exchange (with_act t ANoEmit) s
  /\ (forall fs, run_turn Exchange (with_act t AFinishIgnored) s <> TStop fs)
  /\ (forall fs, run_turn Exchange (with_act t AEmitFinishIgnored) s <> TStop fs).
Proof. intros t s. split; [reflexivity|]. split; [reflexivity|]. split; intros fs; discriminate. Qed.

Theorem exchange_data_values_in_input_order : forall sc lv,
  concat (map data_value (filter is_data (exch_frames sc lv))) = exch_values sc lv.
Proof.
  intros sc lv. revert sc; induction lv as [|it r IH]; intro sc; [reflexivity|].
  cbn [exch_frames exch_values]. rewrite !filter_app, filter_turn_logs.
  cbn [filter data_frame is_data app map concat data_value]. now rewrite IH.
Qed.

(* Either mode: while no turn fails or finishes, one data batch and one turn per input. *)
Theorem one_data_batch_per_input_while_continuing : forall m rid canc sc k ins,
  forallb is_cont (plan m sc k (live ins)) = true ->
  count is_data (fst (loop m rid None canc sc k ins)) = length (live ins)
  /\ count is_exc (fst (loop m rid None canc sc k ins)) = 0
  /\ count is_turn_call (snd (loop m rid None canc sc k ins)) = length (live ins).
Proof. exact loop_continuing_counts. Qed.

(* Producer (stated for either mode; only a producer turn can yield TStop): one
   data batch per tick before the finishing turn, that turn's own batches, then
   the stream ends at once: the ticks behind it (post) produce nothing, run no
   turn, and no cancel hook. *)
Theorem producer_until_finish_then_end : forall m rid canc sc k ins pre c fs post,
  plan m sc k (live ins) = pre ++ (c, TStop fs) :: post -> forallb is_cont pre = true ->
  let out := fst (loop m rid None canc sc k ins) in
  out = concat (map res_frames pre) ++ fs
  /\ count is_exc out = 0
  /\ count is_data (concat (map res_frames pre)) = length pre /\ count is_data fs <= 1
  /\ snd (loop m rid None canc sc k ins) = map fst pre ++ [c].
Proof.
  intros m rid canc sc k ins pre c fs post HP Hpre. cbn zeta.
  destruct (loop_first_stop m rid canc sc k ins pre (c, TStop fs) post HP Hpre eq_refl)
    as (Hf & Hc & He & Hd & Hxe & Hxd).
  unfold res_frames in Hxe, Hxd. cbn [snd tres_frames] in Hxe, Hxd.
  rewrite Hf, Hc. cbn [res_frames snd tres_frames res_exc app fst]. rewrite app_nil_r, count_app, He, Hxe.
  repeat split; auto.
Qed.

(* A failing turn (error, panic, no data batch, second Emit, Finish on an
   exchange) ends the stream with exactly one exception batch; nothing of the
   failing turn is flushed; no later turn runs (the trace is a prefix of the plan). *)
Theorem failing_turn_exactly_one_exception_then_end : forall m rid canc sc k ins pre c e post,
  plan m sc k (live ins) = pre ++ (c, TFail e) :: post -> forallb is_cont pre = true ->
  let fs := fst (loop m rid None canc sc k ins) in
  fs = concat (map res_frames pre) ++ [exc_frame rid e]
  /\ count is_exc fs = 1 /\ count is_data fs = length pre
  /\ snd (loop m rid None canc sc k ins) = map fst pre ++ [c].
Proof.
  intros m rid canc sc k ins pre c e post HP Hpre. cbn zeta.
  destruct (loop_first_stop m rid canc sc k ins pre (c, TFail e) post HP Hpre eq_refl) as (Hf & Hc & He & Hd & _).
  rewrite Hf, Hc. cbn [res_frames snd tres_frames res_exc app fst]. rewrite !count_app, He, Hd.
  repeat split. cbn. lia.
Qed.

Theorem finish_is_refused_on_exchange : forall t s,
  (t_act t = AFinish \/ t_act t = AEmitFinish) ->
  run_turn Exchange t s = TFail e_finish_exchange
  /\ (exists fs, run_turn Producer t s = TStop fs)
  /\ fst e_finish_exchange = exc_runtime_error /\ snd e_finish_exchange <> [] /\ c06_finish_producer_ok = 1%Z.
Proof. exact finish_refused_on_exchange. Qed.

Theorem turn_contract_violations_fail : forall m t s,
  (t_act t = ANoEmit -> run_turn m t s = TFail e_no_data)
  /\ (t_act t = AEmitTwice -> run_turn m t s = TFail e_emit_twice)
  /\ (forall f, t_act t = AFail f -> run_turn m t s = TFail (turn_exc f))
  /\ fst e_no_data = exc_runtime_error /\ snd e_no_data <> [] /\ snd e_emit_twice <> [].
Proof.
  intros m t s. unfold run_turn.
  split; [intros H; rewrite H; reflexivity|].
  split; [intros H; rewrite H; reflexivity|].
  split; [intros f H; rewrite H; reflexivity|].
  split; [reflexivity|]. split; vm_compute; discriminate.
Qed.

(* A cancel batch reached by the loop: the hook is invoked exactly once (iff the
   state has it), no turn runs for the cancel batch or for anything behind it. *)
Theorem cancel_hook_once_no_further_turn : forall m rid canc sc k l1 l2,
  live l1 = l1 -> forallb is_cont (plan m sc k l1) = true ->
  fst (loop m rid None canc sc k (l1 ++ Cancel :: l2)) = concat (map res_frames (plan m sc k l1))
  /\ snd (loop m rid None canc sc k (l1 ++ Cancel :: l2)) =
       map fst (plan m sc k l1) ++ (if canc then [CCancel (k + length l1)] else []).
Proof. exact cancel_once_no_further_turn. Qed.

(* For every input, script and cast outcome: the hook runs at most once, never
   without the interface, and only as the last call of the stream. *)
Theorem cancel_hook_at_most_once_and_last : forall m rid cast canc sc k ins,
  let tr := snd (loop m rid cast canc sc k ins) in
  count is_cancel_call tr <= 1
  /\ (canc = false -> count is_cancel_call tr = 0)
  /\ count is_cancel_call (removelast tr) = 0.
Proof.
  intros m rid cast canc sc k ins. cbn zeta. revert sc k.
  induction ins as [|it rest IH]; intros sc k; [cbn; repeat split; lia|].
  cbn [loop]. destruct (is_cancel it).
  - destruct canc; cbn; repeat split; try lia; discriminate.
  - destruct cast as [e|]; [cbn; repeat split; lia|].
    destruct (IH (tl sc) (S k)) as (I1 & I2 & I3). unfold count in *.
    destruct (run_turn m _ _); cbn [snd filter]; rewrite mkcall_not_cancel; try (cbn; repeat split; lia).
    repeat split; try assumption.
    destruct (snd (loop m rid None canc (tl sc) (S k) rest)) as [|c l]; [reflexivity|].
    change (removelast (?x :: c :: l)) with (x :: removelast (c :: l)).
    cbn [filter]. now rewrite mkcall_not_cancel.
Qed.

Theorem turns_never_exceed_inputs : forall m rid cast canc sc k ins,
  count is_turn_call (snd (loop m rid cast canc sc k ins)) <= length ins.
Proof.
  intros m rid cast canc sc k ins.
  pose proof (turns_le_live m rid cast canc sc k ins). pose proof (live_length ins). lia.
Qed.

(* A header returned by the init handler of a header-declaring method is its own
   IPC stream, first, holding the init logs and exactly one data batch (the
   header); the output stream that follows starts directly with the loop. *)
Theorem header_is_own_stream_first : forall i h,
  i_init_fail i = None -> header_of i = Some h ->
  exists hs out,
    call_streams i = [hs; out]
    /\ st_schema hs = hdr_schema
    /\ st_frames hs = init_frames [] (i_loglevel i) (i_init_logs i) ++ [FData 1 [h] []]
    /\ count is_data (st_frames hs) = 1 /\ count is_exc (st_frames hs) = 0
    /\ st_schema out = out_schema /\ st_frames out = fst (run_loop i).
Proof.
  intros i h Hi Hh. unfold call_streams. rewrite Hi, Hh. eexists; eexists. split; [reflexivity|].
  cbn [st_schema st_frames]. unfold init_frames. rewrite !count_app, C04.logs_no_data, C04.logs_no_exc.
  repeat split.
Qed.

Theorem no_header_no_extra_stream : forall i,
  i_init_fail i = None -> header_of i = None ->
  call_streams i =
    [ {| st_schema := out_schema;
         st_frames := init_frames (i_reqid i) (i_loglevel i) (i_init_logs i) ++ fst (run_loop i) |} ].
Proof. intros i Hi Hh. unfold call_streams. now rewrite Hi, Hh. Qed.

(* castable-but-unequal input schemas behave exactly like the declared one *)
Theorem castable_schemas_like_exact : forall m,
  cast_error m DeclX SInt32 = cast_error m DeclX SExact /\ cast_error m DeclX SNullable = cast_error m DeclX SExact
  /\ cast_error m DeclX SExact = None.
Proof. intro m. destruct m; repeat split. Qed.

(* the decidable contract (spec_call_ok: layout of the streams, header, turn-call
   prefix, per-turn batches in order, one exception in last position, cancel hook,
   sentinel call answered) holds on the model for every input *)
Theorem spec_holds_on_model_call : forall i, spec_call_ok i (model_call i) = true.
Proof.
  intro i. unfold spec_call_ok, model_call. cbn [o_broken o_trace o_streams negb andb]. unfold call_trace. cbn [app].
  rewrite Z.eqb_refl. cbn [andb]. rewrite last_opt_snoc, removelast_last. unfold sentinel_x at 1 2. rewrite Z.eqb_refl. cbn [andb].
  unfold call_streams. destruct (i_init_fail i) as [f|] eqn:Ef.
  - cbn [app]. rewrite stream_eqb_refl. cbn [st_schema st_frames andb]. rewrite !beqb_refl. reflexivity.
  - destruct (header_of i) as [h|] eqn:Eh; cbn [app]; rewrite stream_eqb_refl; cbn [st_schema st_frames andb].
    + rewrite !beqb_refl, frames_eqb_refl. apply body_ok_model.
    + rewrite beqb_refl, strip_prefix_app. apply body_ok_model.
Qed.

(* A call's inputs are cast against the input schema ITS OWN init handler declared
   (a dynamic method declares it per call): inputs equal to the declared schema are
   never refused, whatever other schemas exist. *)
Theorem declared_schema_accepts_its_own_inputs : forall m,
  cast_error m DeclX SExact = None /\ cast_error m DeclY SBadName = None /\ cast_error m DeclXZ SExtraCol = None
  /\ (forall d s, cast_error Producer d s = None)
  /\ cast_error Exchange DeclY SExact <> None /\ cast_error Exchange DeclXZ SExact <> None
  /\ cast_error Exchange DeclX SBadName <> None /\ cast_error Exchange DeclX SExtraCol <> None.
Proof. intro m. destruct m; repeat split; try discriminate; intros; reflexivity. Qed.

(* Histories: several stream calls on one server. The response and call trace of
   the n-th call are those of that call alone — they depend on no earlier call (its
   mode, declared input schema, script, inputs) and on no later one. *)
Theorem history_call_independent : forall h n i,
  nth_error h n = Some i -> nth_error (model h) n = Some (model_call i).
Proof. intros h n i H. now apply map_nth_error. Qed.

Theorem history_compositional : forall h1 h2, model (h1 ++ h2) = model h1 ++ model h2.
Proof. intros. apply map_app. Qed.

(* spec_ok on a history is exactly the per-call contract on every call's own observables *)
Theorem history_spec_is_per_call : forall h os,
  spec_ok h os = true <->
  length h = length os /\ forall n i o, nth_error h n = Some i -> nth_error os n = Some o -> spec_call_ok i o = true.
Proof.
  induction h as [|i h IH]; intros [|o os]; cbn [spec_ok length]; split; try discriminate.
  - intros _. split; [reflexivity|]. intros [|n] i o H; discriminate.
  - reflexivity.
  - intros [H _]. discriminate.
  - intros [H _]. discriminate.
  - intro H. apply andb_true_iff in H as [H1 H2]. apply IH in H2 as [L F]. split; [now rewrite L|].
    intros [|n] i' o' Hi Ho; cbn [nth_error] in Hi, Ho.
    + injection Hi as <-. injection Ho as <-. exact H1.
    + now apply (F n).
  - intros [L F]. apply andb_true_iff. split.
    + apply (F 0%nat); reflexivity.
    + apply IH. split; [now injection L|]. intros n i' o' Hi Ho. now apply (F (S n)).
Qed.

Theorem spec_holds_on_model : forall h, spec_ok h (model h) = true.
Proof.
  induction h as [|i h IH]; [reflexivity|]. cbn [model map spec_ok].
  rewrite spec_holds_on_model_call. exact IH.
Qed.

(* non-vacuity: the premises above are met by concrete streams *)
Definition ex_turn (a : act) (v : Z) : turn :=
  {| t_logs := [ {| C04.lg_level := str "INFO"; C04.lg_msg := str "m"; C04.lg_extras := [] |} ];
     t_act := a; t_value := v; t_meta := [] |}.

Example nonvacuous :
  (* exchange premise: two inputs, script of one emitting turn (the second uses the default) *)
  (forall j, j < length (live [Data [1%Z; 2%Z]; Data [3%Z]]) ->
     t_act (nth j [ex_turn AEmit 5%Z] (default_turn Exchange)) = AEmit)
  (* failing turn in the middle *)
  /\ (exists pre c e post,
        plan Producer [ex_turn AEmit 1%Z; ex_turn ANoEmit 2%Z; ex_turn AEmit 3%Z] 0 (live [Tick; Tick; Tick])
          = pre ++ (c, TFail e) :: post /\ forallb is_cont pre = true /\ length pre = 1 /\ length post = 1)
  (* finishing turn with ticks behind it *)
  /\ (exists pre c fs post,
        plan Producer [ex_turn AEmit 1%Z; ex_turn AEmitFinish 2%Z] 0 (live [Tick; Tick; Tick])
          = pre ++ (c, TStop fs) :: post /\ forallb is_cont pre = true /\ length pre = 1 /\ count is_data fs = 1)
  (* cancel in the middle *)
  /\ (live [Data [4%Z]] = [Data [4%Z]] /\ forallb is_cont (plan Exchange [] 0 [Data [4%Z]]) = true
      /\ snd (loop Exchange [] None true [] 0 ([Data [4%Z]] ++ Cancel :: [Data [5%Z]])) = [CExchange 0 4%Z; CCancel 1])
  (* header *)
  /\ (let i := {| i_mode := Producer; i_declares_header := true; i_x := 0%Z; i_reqid := str "r"; i_loglevel := [];
                  i_init_logs := []; i_init_fail := None; i_header := Some 42%Z; i_canceller := false;
                  i_turns := [ex_turn AEmit 1%Z]; i_schema := SEmpty; i_items := [Tick];
                  i_dynamic := false; i_declared := DeclX |} in
      i_init_fail i = None /\ header_of i = Some 42%Z /\ length (call_streams i) = 2).
Proof.
  split; [|split; [|split; [|split]]].
  - intros j Hj. cbn in Hj. destruct j as [|[|j]]; [reflexivity | reflexivity | lia].
  - eexists [_], _, _, [_]. vm_compute. repeat split.
  - eexists [_], _, _, [_]. vm_compute. repeat split.
  - vm_compute. repeat split.
  - vm_compute. repeat split.
Qed.
