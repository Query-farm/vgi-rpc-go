(* Props/C40.v — property C40: under any concurrent mix of requests to one
   server the serve-start hook commits once (and is re-run after a failure
   rather than skipped), once-computed values are computed once, and every
   request observes the same transport kind and hash.  The invariants the
   theorems are read off are in Proofs/C40.v.

   [reach c sched] is the state of the notifyTransport machine of Model/C40.v
   after an ARBITRARY schedule (list of [Th t | Peek]; a step that is not
   enabled is skipped), for an arbitrary configuration c: hook present or not,
   any number of threads, each announcing any (kind, capabilities) binding, any
   hook outcome script.  No fairness is assumed.  [same c b]: every thread
   announces binding b (HTTP serving: all requests announce (http, nil)).
   Of a thread's pc: [holding] = it holds the gate (PCheck .. PRelease);
   [succeeded] / [failed] = its call has returned nil / its hook's error, or
   only has the gate left to release.  [news cs] are the bindings stored by the
   commits cs; [oks_only_head outs] = no hook return but the newest is a success.

   Data-race freedom of the real memory accesses is NOT a theorem: it is
   exercised by the harness under the race detector (a test, see props/C40.json). *)
From VR Require Import Model.C40 Proofs.C40.
Import ListNotations.
Open Scope nat_scope.

(* The binding is stored at most once when everybody announces the same
   binding, and then holds that binding; in general every store changes it. *)
Theorem commit_at_most_once : forall c b sched, same c b ->
  length (s_commits (reach c sched)) <= 1
  /\ (s_bound (reach c sched) = unbound \/ s_bound (reach c sched) = b).
Proof.
  intros c b sched H. pose proof (I_chain _ _ (reach_Inv c sched)) as C.
  destruct (commits_same c b _ H (reach_Inv c sched)) as [E|E]; rewrite E in *; cbn in *; split; auto.
  right. apply C.
Qed.

Theorem every_commit_changes_the_binding : forall c sched o n,
  In (o, n) (s_commits (reach c sched)) -> o <> n.
Proof. intros c sched o n. apply chain_in with (b := s_bound (reach c sched)), reach_Inv. Qed.

(* Hook executions are mutually exclusive. *)
Theorem hooks_never_overlap : forall c sched,
  s_inhook (reach c sched) <= 1
  /\ (forall r, In r (s_runs (reach c sched)) -> h_overlap r = false)
  /\ (forall t t', is_inhook (s_pcs (reach c sched) t) = true ->
                   is_inhook (s_pcs (reach c sched) t') = true -> t = t').
Proof.
  intros c sched. pose proof (reach_Inv c sched) as Hinv. split; [apply Hinv|]. split.
  - intros r Hr. apply (I_runs _ _ Hinv r Hr).
  - intros t t' A B. apply (holder_unique c _ t t' Hinv); apply inhook_holding; assumption.
Qed.

(* A second caller arriving while the first is anywhere between taking the
   gate and returning (in particular inside the hook) blocks: it does not
   return an error and does not skip ahead. *)
Theorem second_caller_blocks : forall c sched t t',
  holding (s_pcs (reach c sched) t) = true -> s_pcs (reach c sched) t' = PStart ->
  step c (reach c sched) t' = None.
Proof.
  intros c sched t t' A B. unfold step. destruct (negb (Nat.ltb t' (nthreads c))); auto.
  rewrite B, (holding_gate _ _ _ (reach_Inv c sched) A). reflexivity.
Qed.

(* A failing hook leaves the binding untouched and its caller returns the
   error; the next caller that finds its binding uncommitted calls the hook. *)
Theorem failed_hook_not_committed : forall c s t s',
  s_pcs s t = PInHook false -> step c s t = Some s' ->
  s_bound s' = s_bound s /\ s_commits s' = s_commits s /\ s_pcs s' t = PRelease RErr.
Proof.
  intros c s t s' A H. unfold step in H. destruct (negb (Nat.ltb t (nthreads c))); [discriminate|].
  rewrite A in H. injection H as <-. cbn. rewrite upd_same. auto.
Qed.

Theorem failed_hook_rerun : forall c s t s',
  s_pcs s t = PCheck -> s_bound s <> bind_of c t -> c_hook c = true -> step c s t = Some s' ->
  s_pcs s' t = PHookEnter.
Proof.
  intros c s t s' A B Hk H. unfold step in H. destruct (negb (Nat.ltb t (nthreads c))); [discriminate|].
  rewrite A in H. apply bind_eqb_neq in B. rewrite B, Hk in H. injection H as <-. apply upd_same.
Qed.

(* No caller reports success unless a hook run for its binding returned nil
   before, and its binding was stored before. *)
Theorem success_only_after_successful_hook : forall c sched t,
  c_hook c = true -> succeeded (s_pcs (reach c sched) t) = true -> bind_of c t <> unbound ->
  exists t', In (t', true) (s_outs (reach c sched)) /\ bind_of c t' = bind_of c t.
Proof.
  intros c sched t Hk A B. pose proof (reach_Inv c sched) as Hinv.
  destruct (succeeded_was_bound _ _ _ Hinv A) as [_ [E|E]]; [contradiction|].
  apply (I_okc _ _ Hinv Hk), ok_binds_in in E. destruct E as [t' [E1 E2]]. eauto.
Qed.

Theorem success_only_after_commit : forall c sched t,
  succeeded (s_pcs (reach c sched) t) = true -> bind_of c t <> unbound ->
  In (bind_of c t) (news (s_commits (reach c sched))).
Proof.
  intros c sched t A B. destruct (succeeded_was_bound _ _ _ (reach_Inv c sched) A) as [_ [E|E]]; [contradiction|exact E].
Qed.

Theorem error_only_after_own_hook_failed : forall c sched t,
  failed (s_pcs (reach c sched) t) = true ->
  c_hook c = true /\ In (t, false) (s_outs (reach c sched)).
Proof. intros c sched t. apply failed_out, reach_Inv. Qed.

Theorem commits_only_after_successful_hook : forall c sched b,
  c_hook c = true -> In b (news (s_commits (reach c sched))) ->
  exists t, In (t, true) (s_outs (reach c sched)) /\ b = bind_of c t.
Proof. intros c sched b Hk A. apply ok_binds_in, (I_okc _ _ (reach_Inv c sched) Hk), A. Qed.

(* With one binding: after the successful run the hook is never called again
   (only the newest return can be a success). *)
Theorem no_hook_run_after_success : forall c b sched, same c b ->
  oks_only_head (s_outs (reach c sched)).
Proof. intros c b sched H. apply (S_last _ _ _ (reach_InvS c b sched H)). Qed.

(* Every thread that returned success reads the same committed binding. *)
Theorem all_observers_agree : forall c b sched, same c b ->
  (forall t v, In (t, v) (s_reads (reach c sched)) -> v = b)
  /\ (forall t, succeeded (s_pcs (reach c sched) t) = true -> s_bound (reach c sched) = b).
Proof.
  intros c b sched H. split.
  - intros t v A. apply (S_reads _ _ _ (reach_InvS c b sched H) _ A).
  - intros t. apply (succeeded_bound c b _ t H), reach_Inv.
Qed.

(* HTTP serving: every request announces (http, nil) whatever its own
   attributes are (TLS or plaintext, route, protocol version, forwarding
   headers ...): for ANY number of requests, any hook script and any schedule
   the binding is stored at most once, every dispatched request reads
   (http, nil), and no hook run follows the successful one.  (The harness runs
   real requests with differing attributes as the callers of this model.) *)
Definition http_nil : binding := (2, 0)%N.
Definition http_cfg (hook : bool) (n : nat) (outcomes : list bool) : cfg :=
  {| c_hook := hook; c_binds := repeat http_nil n; c_outcomes := outcomes |}.

Theorem http_requests_bind_once : forall hook n outcomes sched,
  let s := reach (http_cfg hook n outcomes) sched in
  length (s_commits s) <= 1
  /\ (s_bound s = unbound \/ s_bound s = http_nil)
  /\ (forall t v, In (t, v) (s_reads s) -> v = http_nil)
  /\ (forall r, In r (s_runs s) -> h_bind r = http_nil)
  /\ oks_only_head (s_outs s).
Proof.
  intros hook n outcomes sched s.
  assert (Hs : same (http_cfg hook n outcomes) http_nil).
  { intros t Ht. apply (repeat_spec n), (nth_In _ unbound Ht). }
  destruct (commit_at_most_once _ _ sched Hs) as [A B]. destruct (all_observers_agree _ _ sched Hs) as [C _].
  repeat split; auto.
  - intros r Hr. destruct (I_runs _ _ (reach_Inv _ sched) r Hr) as (_ & _ & -> & L & _). apply Hs, L.
  - apply (no_hook_run_after_success _ _ sched Hs).
Qed.

(* Nobody (successful caller, outside observer, the hook itself) observes a
   binding that was not stored before; the hook never sees its own. *)
Theorem no_kind_observed_before_commit : forall c sched v,
  In v (map snd (s_reads (reach c sched))) \/ In v (s_peeks (reach c sched))
  \/ In v (map h_seen (s_runs (reach c sched))) ->
  v = unbound \/ In v (news (s_commits (reach c sched))).
Proof. intros c sched v. apply (I_obs _ _ (reach_Inv c sched)). Qed.

Theorem hook_never_sees_its_own_binding : forall c sched r,
  In r (s_runs (reach c sched)) -> h_seen r <> h_bind r /\ h_bind r = bind_of c (h_tid r).
Proof. intros c sched r A. destruct (I_runs _ _ (reach_Inv c sched) r A) as (_ & B & C & _). auto. Qed.

(* Once cells (protocol hash, pages, health body): f starts at most once;
   every reader sees the one cached value, which some execution of f produced;
   the value never changes afterwards. *)
Theorem once_computed_once : forall cands sched, o_count (oreach cands sched) <= 1.
Proof. intros cands sched. apply (OInv_count cands), oreach_OInv. Qed.

Theorem once_readers_agree : forall cands sched t v,
  oread (oreach cands sched) t = Some v ->
  o_val (oreach cands sched) = Some v /\ o_count (oreach cands sched) = 1 /\ In v cands.
Proof.
  intros cands sched t v R. pose proof (oreach_OInv cands sched) as Hinv.
  apply (OInv_read _ _ _ _ Hinv) in R. destruct (OInv_val _ _ _ Hinv R). auto.
Qed.

Theorem once_value_stable : forall cands sched more v,
  o_val (oreach cands sched) = Some v -> o_val (oreach cands (sched ++ more)) = Some v.
Proof.
  intros cands sched more v. unfold oreach. rewrite orun_app.
  pose proof (oreach_OInv cands sched) as Hinv. revert Hinv. unfold oreach.
  generalize (orun cands sched oinit). induction more as [|t r IH]; intros s Hinv H; cbn; auto.
  apply IH; [apply OInv_exec | apply oexec_val]; auto.
Qed.

(* Pooled codec writers: for every sequence of check-outs and returns (a
   return whose final flush FAILED included), no encoder is in the pool twice
   or in the pool while checked out, so two responses in flight never hold the
   same encoder.  Data-race freedom of the encoder itself is the race test. *)
Theorem pool_holds_each_encoder_once : forall ops,
  NoDup (p_pool (prun false ops pinit) ++ map snd (p_held (prun false ops pinit))).
Proof. intros ops. apply (PInv_run ops pinit PInv_init). Qed.

Theorem responses_in_flight_never_share_an_encoder : forall ops r1 r2 e,
  In (r1, e) (p_held (prun false ops pinit)) -> In (r2, e) (p_held (prun false ops pinit)) ->
  NoDup (map fst (p_held (prun false ops pinit))) -> r1 = r2.
Proof. intros ops r1 r2 e H1 H2 _. exact (pool_exclusive _ r1 r2 e (PInv_run ops pinit PInv_init) H1 H2). Qed.

(* the variant in which a failing Close returns the encoder twice: after one
   aborted response two later overlapping responses share encoder 0 *)
Theorem double_put_refuted :
  let s := prun true [CGet 0; CPut 0 true; CGet 1; CGet 2] pinit in
  p_held s = [(2, 0); (1, 0)]
  /\ hrun true hinit [HAbort 1 10; HOverlap 1 [7; 8]%N] = [[]; [RBad; RBad]].
Proof. vm_compute. auto. Qed.

(* The driver events the harness forces are instances of schedules, and the
   decidable form of the property holds on every model run. *)
Theorem coarse_is_fine : forall c evs s, exists sched, run_evs c evs s = run c sched s.
Proof.
  intros c evs. induction evs as [|e r IH]; intros s; cbn [run_evs fold_left]; [exists []; reflexivity|].
  destruct (do_ev_is_run c s e) as [s1 H1]. destruct (IH (do_ev c s e)) as [s2 H2].
  exists (s1 ++ s2). rewrite run_app, <- H1. exact H2.
Qed.

Theorem spec_ok_model : forall i, spec_ok i (model i) = true.
Proof.
  intros [c evs|cands evs|n|g r|lvl h].
  - cbn [model spec_ok negb andb]. destruct (coarse_is_fine c evs init) as [sched ->].
    apply notify_spec_holds; [apply reach_Inv|].
    intros b Hb. apply reach_InvS, same_binds_same, Hb.
  - cbn [model spec_ok negb andb]. apply once_spec_holds. apply OInv_run_oevs, OInv_init.
  - cbn. rewrite N.eqb_refl. reflexivity.
  - reflexivity.
  - cbn [model spec_ok]. apply hrun_spec. split; apply PInv_init.
Qed.

(* The second mutex is what the property rests on: in the same machine with
   the gate never held (the one-mutex design the code comment describes) two
   first callers both run the hook, overlapping. *)
Definition c_two : cfg := {| c_hook := true; c_binds := [(2, 0); (2, 0)]%N; c_outcomes := [] |}.
Theorem without_gate_refuted : exists sched,
  let s := run_nogate c_two sched init in
  length (s_runs s) = 2 /\ existsb h_overlap (s_runs s) = true.
Proof. exists [Th 0; Th 0; Th 0; Th 1; Th 1; Th 1]. vm_compute. auto. Qed.

(* the kinds the shipped transports announce are not the zero value *)
Theorem real_kinds_are_not_the_zero_kind :
  hd [] c40_kinds = [] /\ forallb (fun k => negb (beqb k [])) (tl c40_kinds) = true
  /\ length c40_kinds = 5.
Proof. vm_compute. auto. Qed.

Example same_satisfiable : same c_two (2, 0)%N.
Proof. intros t Ht. destruct t as [|[|t]]; cbn in *; auto; lia. Qed.

(* a failing first run, a blocked second caller, then a successful re-run *)
Definition c_retry : cfg := {| c_hook := true; c_binds := [(2, 0); (2, 0)]%N; c_outcomes := [false; true] |}.
Example retry_run :
  let s := reach c_retry [Th 0; Th 0; Th 0; Th 1; Th 0; Th 0; Peek; Th 1; Th 1; Th 1; Th 1; Th 1; Th 1; Th 1] in
  s_pcs s 0 = PDone RErr /\ s_pcs s 1 = PDone ROk /\ rev (s_outs s) = [(0, false); (1, true)]
  /\ s_commits s = [(unbound, (2, 0)%N)] /\ s_reads s = [(1, (2, 0)%N)] /\ s_peeks s = [unbound].
Proof. vm_compute. repeat split. Qed.

Example blocked_state :
  let s := reach c_retry [Th 0; Th 0; Th 0] in
  holding (s_pcs s 0) = true /\ is_inhook (s_pcs s 0) = true /\ s_pcs s 1 = PStart.
Proof. vm_compute. auto. Qed.

Example once_run :
  let s := oreach [7; 8; 9]%N [1; 0; 1; 0; 2] in
  o_count s = 1 /\ o_val s = Some 8%N /\ map (oread s) [0; 1; 2] = [Some 8; Some 8; Some 8]%N.
Proof. vm_compute. auto. Qed.
