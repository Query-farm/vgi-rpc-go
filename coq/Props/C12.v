(* Props/C12.v — property C12: a continuation is accepted only if its cursor was sealed by
   a server holding the same token key and is unaltered, and — whenever the server has to
   consult it — so is its call token; any modified, truncated, re-versioned, re-encoded or
   foreign-key token is refused with a client error and no state method, rehydrate callback
   or dispatch hook runs; failures for bad signatures are indistinguishable from one another
   in the response.  The lemmas the proofs rest on are in Proofs/C12.v.

   Token text = stdbase64(version byte :: nonce ++ ciphertext).  base64 is DEFINED
   ([b64_lenient] = encoding/base64 StdEncoding.DecodeString, [b64enc] = EncodeToString);
   the AEAD (XChaCha20-Poly1305 with gob / zstd / the payload layout folded in) is an
   ORACLE: [openx key aad (nonce ++ ct)], [sealx key nonce aad plaintext].  Premises, stated
   in each theorem that needs them:
     INT-CTXT (ciphertext integrity, ideal form)
        forall k a c p, openx k a c = Some p -> exists n, c = sealx k n a p
        — only what was sealed under (k, a) opens under (k, a);
     KEY/AAD BINDING
        openx k2 a2 (sealx k1 n a1 p) = Some p' -> k2 = k1 /\ a2 = a1.
   Keys are the NORMALISED keys (normalizeTokenKey): see norm_key_identifies.

   WHICH REFUSALS MAY DIFFER.  The code has three responses for a token that fails
   authentication, all 400, all computed from the token text and the slot alone (never from
   the key, the identity or what was sealed):
     LMalformed        not base64 / not the canonical text / fewer than 41 envelope bytes;
     LVersion v e      first envelope byte v is not the slot's e — the body names v and e;
     LSignature        every well-formed envelope the AEAD does not open: flipped tag, nonce
                       or ciphertext bit, truncated or extended ciphertext, another key,
                       another slot's or identity's associated data.  ONE body.
   Failures that only a holder of the key can reach (unknown codec tag, bad zstd, bad gob,
   expired) are different responses again; they are not authenticity failures. *)
From VR Require Import Model.C12 Proofs.C12.

(* Tie to the compiled code: when Gen/Consts.v was generated the real openToken
   answered the hook's probes (bad tag / nonce / ciphertext bit, truncated, extended,
   another key, another AAD: one message; not base64 / too short / non-canonical / unknown
   codec tag: another; wrong version: a third naming only the two version bytes) as the
   model's classes say, and the envelope geometry is version + nonce + tag *)
Theorem compiled_refusal_classes_are_the_modelled_ones : c12_classes_ok = 1%Z.
Proof. reflexivity. Qed.

Theorem compiled_envelope_geometry :
  (c12_min_len = 1 + c12_nonce_len + c12_tag_len)%Z /\ (c12_key_size = 32)%Z.
Proof. split; reflexivity. Qed.

(* Any text that is not, byte for byte, the canonical encoding of version :: a ciphertext
   sealed under THIS key for THIS slot — modified, truncated, extended, re-versioned,
   re-encoded (url alphabet, padding stripped or added, CR/LF, slack bits), another key's —
   fails authentication, and the response label is the one its public shape fixes. *)
Theorem altered_refused :
  forall (K : Type) (sealx : K -> N -> bytes -> payload -> bytes)
         (openx : K -> bytes -> bytes -> option payload),
  (forall k a c p, openx k a c = Some p -> exists n, c = sealx k n a p) ->
  forall k s t,
  ~ (exists n p, t = b64enc (ver_of s :: sealx k n (aad_of s) p)) ->
  exists f, open_token K openx true k s t = inl f /\ auth_fail f = true
            /\ label_of s f = shape_label s (shape_of true s t).
Proof.
  intros K sealx openx Hi k s t Hn.
  destruct (open_token_authenticated K openx true k s t) as [f Hf Ha|body p Hs Ho _].
  - exists f. repeat split; auto. eapply open_token_fail_label; eauto.
  - exfalso. apply Hn. destruct (opened_was_sealed K sealx openx Hi k true s t body p Hs Ho) as (n & _ & Hc).
    exists n, p. now apply Hc.
Qed.

(* A well-formed envelope sealed under another key, or for another slot / identity *)
Theorem foreign_key_refused :
  forall (K : Type) (sealx : K -> N -> bytes -> payload -> bytes)
         (openx : K -> bytes -> bytes -> option payload),
  (forall k1 k2 n a1 a2 p p', openx k2 a2 (sealx k1 n a1 p) = Some p' -> k2 = k1 /\ a2 = a1) ->
  forall k s t k' n a p,
  shape_of true s t = ShWell (sealx k' n a p) -> (k' <> k \/ a <> aad_of s) ->
  open_token K openx true k s t = inl FSignature.
Proof.
  intros K sealx openx Hb k s t k' n a p Hs Hk.
  pose proof (open_token_by_shape K openx true k s t) as H. rewrite Hs in H.
  destruct (openx k (aad_of s) (sealx k' n a p)) as [p'|] eqn:Eo; [|exact H].
  exfalso. destruct (Hb _ _ _ _ _ _ _ Eo) as [E1 E2]. destruct Hk as [Hk|Hk]; apply Hk; now symmetry.
Qed.

(* "another key" is modulo normalizeTokenKey: a 32-byte key equal to the SHA-256 of a key of
   any other length is a different operator key and the same AEAD key *)
Theorem norm_key_identifies : forall (sha : bytes -> bytes) key,
  N.of_nat (length (sha key)) = Z.to_N c12_key_size -> N.of_nat (length key) <> Z.to_N c12_key_size ->
  sha key <> key /\ norm_key sha (sha key) = norm_key sha key.
Proof.
  intros sha key Hl Hk. split; [intro E; rewrite E in Hl; contradiction|].
  unfold norm_key. rewrite Hl, N.eqb_refl. apply N.eqb_neq in Hk. now rewrite Hk.
Qed.

(* In EVERY run of the handler (any AEAD, any cache, any request) a rehydrate callback,
   dispatch hook or state method occurs in the trace only after the cursor opened, the call
   was resolved (cache hit on the authenticated call id, or the call token opened) and the
   method check passed. *)
Theorem no_user_code_before_both_open :
  forall (K : Type) (openx : K -> bytes -> bytes -> option payload) strict k cold c q p a post,
  fst (handle K openx strict k cold c q) = p ++ a :: post -> user_code a = true ->
  In (AOpenCursor true) p /\ (In (ACacheGet true) p \/ In (AOpenCall true) p) /\ In (AMethodCheck true) p.
Proof. intros K openx strict k cold c q. exact (ran_guarded K openx strict k _ _ _ _ (handle_cases K openx strict k cold c q)). Qed.

(* ... and the success flags are sound: every run either answers 200 after the cursor and
   (on a miss) the call token opened for the same call id and this route's method, running
   rehydrate, hook start, state method, hook end in that order; or answers 400 with an error
   label and NO user code at all; a cursor failure fixes the label. *)
Theorem every_run_accepts_after_opens_or_refuses_without_user_code :
  forall (K : Type) (openx : K -> bytes -> bytes -> option payload) strict k cold c q,
  let tr := fst (handle K openx strict k cold c q) in
  (last_resp tr = (200, LOk)
   /\ map ev_code (filter user_code tr) = [1; 2; if q_cancel q then 5 else 3; 4]
   /\ exists tc cid r0, q_cursor q = Some tc /\ open_token K openx strict k SCursor tc = inr (cid, r0)
      /\ ((cold = false /\ cache_get c cid = Some (q_route q))
          \/ exists tk, q_call q = Some tk /\ open_token K openx strict k SCall tk = inr (cid, q_route q)
                        /\ (cold = true \/ cache_get c cid = None)))
  \/ (exists l, last_resp tr = (400, l) /\ l <> LOk /\ filter user_code tr = []
      /\ (forall tc f, q_cursor q = Some tc -> open_token K openx strict k SCursor tc = inl f ->
                       l = label_of SCursor f)).
Proof.
  intros K openx strict k cold c q tr.
  destruct (handle_cases K openx strict k cold c q) as [tc cid r0 _ Hr Hev Hq Ho Hc|l Hr Hne Hf]; [left | right].
  - split; [exact Hr|]. split; [exact Hev|]. exists tc, cid, r0. auto.
  - exists l. repeat split; auto. intros tc f H1 H2.
    rewrite (cursor_failure_response K openx strict k cold c q tc f H1 H2) in Hr. now inversion Hr.
Qed.

(* With INT-CTXT: if any user code runs, or the answer is 200, the cursor text is exactly a
   token sealed under this key, and so is the call token unless the cache answered. *)
Theorem accepted_only_if_sealed_and_unaltered :
  forall (K : Type) (sealx : K -> N -> bytes -> payload -> bytes)
         (openx : K -> bytes -> bytes -> option payload),
  (forall k a c p, openx k a c = Some p -> exists n, c = sealx k n a p) ->
  forall k cold c q,
  let tr := fst (handle K openx true k cold c q) in
  (exists a, In a tr /\ user_code a = true) \/ fst (last_resp tr) = 200 ->
  exists tc, q_cursor q = Some tc
    /\ (exists n p, tc = b64enc (ver_of SCursor :: sealx k n (aad_of SCursor) p))
    /\ ((cold = false /\ exists cid, cache_get c cid = Some (q_route q))
        \/ exists tk, q_call q = Some tk
                      /\ exists n p, tk = b64enc (ver_of SCall :: sealx k n (aad_of SCall) p)).
Proof.
  intros K sealx openx Hi k cold c q tr H.
  destruct (handle_cases K openx true k cold c q) as [tc cid r0 _ Hr _ Hq Ho Hc|l Hr _ Hf].
  - exists tc. split; [exact Hq|]. split; [exact (accepted_sealed K sealx openx Hi k _ _ _ Ho)|].
    destruct Hc as [[-> Hc]|(tk & Hk & Ho2 & _)]; [left; eauto|].
    right. exists tk. split; [exact Hk|]. exact (accepted_sealed K sealx openx Hi k _ _ _ Ho2).
  - exfalso. fold tr in Hf, Hr. destruct H as [(a & Ha & Hu)|H].
    + pose proof (filter_nil_no_user _ _ Hf Ha) as Hx. congruence.
    + rewrite Hr in H. discriminate.
Qed.

(* The refusal of a token that fails authentication is a function of its public shape
   alone: two servers with ANY keys and ANY ciphers that both refuse the text for
   authenticity give the same label — nothing about the key, the identity or the sealed
   content is revealed. *)
Theorem refusal_reveals_only_public_shape :
  forall (K1 K2 : Type) (openx1 : K1 -> bytes -> bytes -> option payload)
         (openx2 : K2 -> bytes -> bytes -> option payload) strict k1 k2 s t f1 f2,
  open_token K1 openx1 strict k1 s t = inl f1 -> auth_fail f1 = true ->
  open_token K2 openx2 strict k2 s t = inl f2 -> auth_fail f2 = true ->
  label_of s f1 = label_of s f2 /\ label_of s f1 = shape_label s (shape_of strict s t).
Proof.
  intros K1 K2 o1 o2 strict k1 k2 s t f1 f2 H1 A1 H2 A2.
  rewrite (open_token_fail_label K1 o1 strict k1 s t f1 H1 A1).
  rewrite (open_token_fail_label K2 o2 strict k2 s t f2 H2 A2). auto.
Qed.

(* Every signature failure — any two well-formed envelopes, any two keys, ciphers, caches,
   routes, call tokens — produces the identical run and the identical response. *)
Theorem bad_signature_uniform :
  forall (K1 K2 : Type) (openx1 : K1 -> bytes -> bytes -> option payload)
         (openx2 : K2 -> bytes -> bytes -> option payload) k1 k2 cold1 cold2 c1 c2 q1 q2 t1 t2 b1 b2,
  q_cursor q1 = Some t1 -> q_cursor q2 = Some t2 ->
  shape_of true SCursor t1 = ShWell b1 -> shape_of true SCursor t2 = ShWell b2 ->
  openx1 k1 (aad_of SCursor) b1 = None -> openx2 k2 (aad_of SCursor) b2 = None ->
  fst (handle K1 openx1 true k1 cold1 c1 q1) = fst (handle K2 openx2 true k2 cold2 c2 q2)
  /\ fst (handle K1 openx1 true k1 cold1 c1 q1)
     = [AReadBody; AParseRequest; AOpenCursor false; ARespond 400 LSignature].
Proof.
  intros K1 K2 o1 o2 k1 k2 cold1 cold2 c1 c2 q1 q2 t1 t2 b1 b2 Q1 Q2 S1 S2 O1 O2.
  pose proof (open_token_by_shape K1 o1 true k1 SCursor t1) as H1. rewrite S1, O1 in H1.
  pose proof (open_token_by_shape K2 o2 true k2 SCursor t2) as H2. rewrite S2, O2 in H2.
  rewrite (cursor_failure_response K1 o1 true k1 cold1 c1 q1 t1 _ Q1 H1).
  rewrite (cursor_failure_response K2 o2 true k2 cold2 c2 q2 t2 _ Q2 H2). auto.
Qed.

(* For every table of sealed reference tokens, route, cache mode and sequence of presented
   mutations: accepted => the cursor text (and with the cache off the call-token text) is
   byte for byte a token sealed under this key; refused => 400, an error label, no user code;
   a cursor that is malformed / re-versioned / well-formed but not sealed under this key gets
   exactly LMalformed / LVersion / LSignature; equal labels <=> byte-identical bodies. *)
Theorem spec_holds_on_model : forall i, spec_ok i (model i) = true.
Proof. intro i. apply spec_run_model. Qed.

(* before fix 99fee40 (no canonical-text check).  What held then: the DECODED envelope of an accepted token was sealed under this key *)
Theorem legacy_accepts_only_sealed_envelopes :
  forall (K : Type) (sealx : K -> N -> bytes -> payload -> bytes)
         (openx : K -> bytes -> bytes -> option payload),
  (forall k a c p, openx k a c = Some p -> exists n, c = sealx k n a p) ->
  forall k s t x, open_token K openx false k s t = inr x ->
  exists n p, b64_lenient t = Some (ver_of s :: sealx k n (aad_of s) p).
Proof.
  intros K sealx openx Hi k s t x H.
  destruct (open_token_authenticated K openx false k s t) as [f Hf _|body p Hs Ho _]; [congruence|].
  destruct (opened_was_sealed K sealx openx Hi k false s t body p Hs Ho) as (n & Hd & _). eauto.
Qed.

(* what did not: the TEXT.  A newline inserted into a genuine cursor, CR LF appended to it,
   or one bit flipped in the character holding the slack bits ("w" -> "7") was accepted *)
Theorem altered_text_refused_legacy_refuted :
  (exists i, spec_ok i (model_legacy i) = false /\ i_fams i = [FOne (MIns 0 10 10) MNone])
  /\ (exists i, spec_ok i (model_legacy i) = false /\ i_fams i = [FOne (MAppend 0 [13; 10]) MNone])
  /\ (exists i, spec_ok i (model_legacy i) = false /\ i_fams i = [FOne (MFlip 0 57 6) MNone]
                /\ map o_acc (model_legacy i) = [true] /\ map o_acc (model i) = [false]).
Proof.
  split; [|split].
  - exists (legacy_input (MIns 0 10 10)). split; vm_compute; reflexivity.
  - exists (legacy_input (MAppend 0 [13; 10])). split; vm_compute; reflexivity.
  - destruct legacy_slack_flip as (_ & _ & C & D & E & _).
    exists (legacy_input (MFlip 0 57 6)). repeat split; assumption.
Qed.

(* the two AEAD premises are satisfiable together, by an AEAD that opens what it sealed *)
Example aead_premises_satisfiable :
  (forall k a c p, sym_openx k a c = Some p -> exists n, c = sym_sealx k n a p)
  /\ (forall k1 k2 n a1 a2 p p', sym_openx k2 a2 (sym_sealx k1 n a1 p) = Some p' -> k2 = k1 /\ a2 = a1)
  /\ sym_openx 7 (aad_of SCursor) (sym_sealx 7 3 (aad_of SCursor) (PCursor false 9)) = Some (PCursor false 9)
  /\ sym_openx 8 (aad_of SCursor) (sym_sealx 7 3 (aad_of SCursor) (PCursor false 9)) = None.
Proof.
  split; [exact sym_int_ctxt|]. split; [exact sym_binds|].
  destruct sym_correct_example as (A & B & _). auto.
Qed.

(* a genuine token is accepted by the model, every kind of altered one refused with the
   label of its class, under the symbolic AEAD: the hypotheses of the theorems above are met
   by concrete texts on both sides *)
Example premises_satisfiable :
  let t := b64enc (ver_of SCursor :: sym_sealx 7 3 (aad_of SCursor) (PCursor false 9)) in
  open_token N sym_openx true 7 SCursor t = inr (9, RProd)
  /\ open_token N sym_openx true 8 SCursor t = inl FSignature
  /\ open_token N sym_openx true 7 SCall t = inl (FVersion (ver_of SCursor))
  /\ open_token N sym_openx true 7 SCursor (t ++ [10]) = inl FNonCanonical
  /\ open_token N sym_openx false 7 SCursor (t ++ [10]) = inr (9, RProd)
  /\ open_token N sym_openx true 7 SCursor (firstn 40 t) = inl FShort
  /\ open_token N sym_openx true 7 SCursor (map url1 t ++ [45]) = inl FBase64
  /\ shape_of true SCursor t = ShWell (sym_sealx 7 3 (aad_of SCursor) (PCursor false 9)).
Proof. cbv zeta. repeat split; vm_compute; reflexivity. Qed.
