(* Props/C43.v — property C43: for every dispatch the OpenTelemetry hook ends each
   recording span it started exactly once, marks it as an error exactly when the
   call failed, parents it on the caller's traceparent when one was sent, and
   counts the request once in the request metric with the matching status.
   The lemmas are in Proofs/C43.v.  The OTel SDK is an oracle: the
   theorems hold for EVERY sampler (and, where stated, every propagator). *)
From VR Require Import Model.C43 Proofs.C43 Lib.Lists.

(* Every history (any calls, any schedule of Begin / Finish steps, interleaved or
   not, including ill-formed steps), every sampler, every propagator: no span is
   ended twice, only spans that were started recording are ended, and once no
   call is left running every recording span that was started has been ended. *)
Theorem recording_span_ended_once :
  forall (extract : bytes -> bytes -> option sctx) (sampler : option sctx -> bool) g calls sched,
  let r := run extract sampler g calls init_state sched in
  let flat := concat (snd r) in
  NoDup (ended_of flat)
  /\ (forall x, In x (ended_of flat) -> In x (started_rec flat))
  /\ ((forall k t, lookup k (st_calls (fst r)) <> Some (Running t)) ->
      forall x, In x (started_rec flat) -> In x (ended_of flat)).
Proof.
  intros extract sampler g calls sched. cbn zeta.
  destruct (run_life extract sampler g calls sched init_state [] sdk_books_init live_owned_init) as [(ND & P & _) HL].
  cbn [app] in *. split; [exact (NoDup_app_l _ _ (Permutation.Permutation_NoDup P ND))|]. split.
  - intros x Hx. apply (Permutation.Permutation_in x (Permutation.Permutation_sym P)), in_or_app. now left.
  - intros NR x Hx. apply (Permutation.Permutation_in x P), in_app_or in Hx as [H | H]; [exact H|].
    destruct (HL x H) as (k & t & p & Hk & _). exfalso. exact (NR k t Hk).
Qed.

(* Every history, every sampler: segment by segment (one segment per dispatch step)
   the backend saw exactly what the dispatch layer's plan demands — at most one
   server span started per dispatch, named after the method and parented on the
   caller's traceparent whatever span is already current in the dispatch context
   (under that ambient span, or root, when absent / invalid / propagation off); a span
   ended there is ended once with status Error iff the dispatch failed (error
   recorded iff configured, error type attached), Ok otherwise; exactly one
   counter increment and one duration sample per ended dispatch labelled
   ok / error; nothing at all for a dispatch that never reaches the hook, no span
   events with tracing off, no metric events with metrics off. *)
Theorem every_dispatch_reported_with_its_outcome :
  forall (sampler : option sctx -> bool) g calls sched,
  segs_ok g (snd (plan calls [] sched))
          (snd (run (extract_fn (g_propagate g)) sampler g calls init_state sched)) = true.
Proof.
  intros sampler g calls sched. apply (run_ok sampler g calls sched init_state), toks_ok_init.
Qed.

(* The same two, in the decidable form that the correspondence check evaluates on
   the implementation's observables. *)
Theorem spec_holds_on_model : forall i, spec_ok i (model i) = true.
Proof.
  intro i. unfold spec_ok, model, run_input. cbn [o_segs o_exported].
  set (g := i_cfg i). set (smp := sampler_fn (g_sampler g)).
  pose proof (every_dispatch_reported_with_its_outcome smp g (i_calls i) (i_sched i)) as A.
  assert (B := proj2 (run_ok smp g (i_calls i) (i_sched i) init_state (toks_ok_init g (i_calls i)))).
  destruct (recording_span_ended_once (extract_fn (g_propagate g)) smp g (i_calls i) (i_sched i)) as (ND & Sub & C).
  cbn zeta in ND, Sub, C. cbn [init_state st_calls tbl_of map] in B.
  destruct (plan (i_calls i) [] (i_sched i)) as [tbl ps]. cbn [fst snd] in A, B.
  set (r := run (extract_fn (g_propagate g)) smp g (i_calls i) init_state (i_sched i)) in *.
  rewrite A, (proj2 (nodupb_by_NoDup Nat.eqb Nat.eqb_eq _) ND : nodup_n _ = true), (list_eqb_refl _ bev_eqb_refl). cbn [andb]. rewrite andb_true_r.
  apply andb_true_iff. split.
  - (* [mem_n] is [mem_nat] under its second name in the model *)
    apply forallb_forall. intros x Hx. apply mem_nat_In. auto.
  - destruct (none_running [] tbl) eqn:NR; [|reflexivity].
    apply forallb_forall. intros x Hx. apply mem_nat_In. apply C; [|exact Hx].
    intros k t Hk. apply (none_running_lookup tbl [] NR k (fun F => F)).
    rewrite B, lookup_tbl, Hk. reflexivity.
Qed.

(* error status iff the call failed: any End event OnDispatchEnd produces *)
Theorem error_iff_failed : forall g s t i err e,
  In e (snd (hook_end g s t i err)) -> is_end e = true ->
  (ev_status e = Some SError <-> err <> None) /\ (ev_status e = Some SOk <-> err = None).
Proof.
  intros g s t i err e H He.
  assert (Hm : ~ In e (end_metrics g i err)).
  { intro Hm. pose proof (proj2 (filter_In is_end e _) (conj Hm He)) as F.
    now rewrite (proj1 (proj2 (metrics_filters g i err))) in F. }
  assert (E : exists sid p, e = end_ev g sid p err).
  { destruct (hook_end_shape g s t i err) as [_ | sid p _ _]; cbn [snd] in H.
    - contradiction.
    - destruct H as [<- | H]; [eauto | contradiction]. }
  destruct E as (sid & p & ->).
  destruct err as [ty|]; cbn [end_ev ev_status].
  - (* failed: the status is Error *)
    split; split; intro Q; [discriminate | reflexivity | discriminate | discriminate].
  - (* succeeded: the status is Ok *)
    split; split; intro Q; [discriminate | now elim Q | reflexivity | reflexivity].
Qed.

(* parent = the caller's traceparent when a well-formed one was sent (W3C version 00:
   32 + 16 lower-case hex digits, not all zero, flags <= 3) — for EVERY ambient span
   context [n_amb i] the dispatch context may already carry (none, a recording local
   span, a remote one): the caller's trace id, span id, remote flag and tracestate win *)
Theorem parent_is_traceparent : forall sampler g s i tr sp fl,
  g_tracing g = true -> g_propagate g = true -> n_tp i = tp00 tr sp fl ->
  part_ok 32 tr = true -> part_ok 16 sp = true -> part_ok 2 fl = true ->
  (flags_val fl <=? 3)%N = true -> all_zero tr = false -> all_zero sp = false ->
  snd (hook_start (extract_fn (g_propagate g)) sampler g s i) =
  [BStart (s_next s)
          (sampler (Some {| x_trace := tr; x_span := sp; x_sampled := N.odd (flags_val fl);
                            x_remote := true; x_tstate := n_ts i |}))
          (span_name i) true
          (Some {| op_trace := tr; op_span := sp; op_same := true; op_remote := true; op_tstate := n_ts i |})].
Proof.
  intros sampler g s i tr sp fl T P E H1 H2 H3 H4 H5 H6. unfold hook_start, extract_fn.
  rewrite T, P, E. cbn [negb snd]. now rewrite (parse_tp00 tr sp fl H1 H2 H3 H4 H5 H6).
Qed.

(* ... and when none was sent the span stays under the ambient span context: a child
   of the span already current in the dispatch context, a root span when there is none. *)
Theorem ambient_parent_when_no_traceparent : forall sampler g s i,
  g_tracing g = true -> n_tp i = [] ->
  snd (hook_start (extract_fn (g_propagate g)) sampler g s i) =
  [BStart (s_next s) (sampler (n_amb i)) (span_name i) true (option_map opar_of (n_amb i))].
Proof.
  intros sampler g s i T E. unfold hook_start, extract_fn. rewrite T, E.
  destruct (g_propagate g); reflexivity.
Qed.

(* the request metric: exactly one increment (and one duration sample) per
   OnDispatchEnd, labelled with the dispatch's method, type and ok / error *)
Theorem counted_once_with_status : forall g s t i err,
  filter is_metric (snd (hook_end g s t i err)) =
  if g_metrics g then [BCount (n_method i) (n_mtype i) (status_label err) 1%Z;
                       BHist (n_method i) (n_mtype i) (status_label err) 1%Z] else [].
Proof.
  intros g s t i err. destruct (metrics_filters g i err) as (_ & _ & M).
  destruct (hook_end_shape g s t i err) as [_ | sid p _ _]; cbn [snd filter]; [exact M|].
  rewrite (proj2 (proj2 (end_ev_kind g sid p err))). exact M.
Qed.

(* even a second OnDispatchEnd with the same token does not end the span again *)
Theorem second_end_does_not_end_again : forall g s t i err i' err',
  filter is_end (snd (hook_end g (fst (hook_end g s t i err)) t i' err')) = [].
Proof.
  intros g s t i err i' err'.
  destruct (hook_end_shape g (fst (hook_end g s t i err)) t i' err') as [_ | sid p Ht L].
  - exact (proj1 (proj2 (metrics_filters g i' err'))).
  - (* the first End took the span off the live list *)
    exfalso. apply end_live in L as [_ D]. exact (D p Ht).
Qed.

(* disabled tracing / a non-recording span does nothing to spans *)
Theorem tracing_off_does_nothing : forall extract sampler g s i t err,
  g_tracing g = false ->
  hook_start extract sampler g s i = (s, {| tk_span := None |}, [])
  /\ (tk_span t = None -> fst (hook_end g s t i err) = s /\ filter is_end (snd (hook_end g s t i err)) = []).
Proof.
  intros extract sampler g s i t err T. unfold hook_start. rewrite T. split; [reflexivity|]. intro Ht.
  destruct (hook_end_shape g s t i err) as [_ | sid p Q _]; [|congruence].
  split; [reflexivity | exact (proj1 (proj2 (metrics_filters g i err)))].
Qed.

Theorem nonrecording_span_untouched : forall g s sid p i err,
  mem_nat sid (s_live s) = false ->
  fst (hook_end g s {| tk_span := Some (sid, p) |} i err) = s
  /\ filter is_end (snd (hook_end g s {| tk_span := Some (sid, p) |} i err)) = [].
Proof.
  intros g s sid p i err M.
  destruct (hook_end_shape g s {| tk_span := Some (sid, p) |} i err) as [_ | sid' p' Q L].
  - split; [reflexivity | exact (proj1 (proj2 (metrics_filters g i err)))].
  - inversion Q; subst. apply mem_nat_In in L. congruence.
Qed.

(* non-vacuity: the traceparent premises are met by the W3C example header, and a
   concrete interleaved history really records, ends and counts spans *)
Example premises_satisfiable :
  let tr := str "0af7651916cd43dd8448eb211c80319c" in
  let sp := str "b7ad6b7169203331" in
  part_ok 32 tr = true /\ part_ok 16 sp = true /\ part_ok 2 (str "01") = true
  /\ (flags_val (str "01") <=? 3)%N = true /\ all_zero tr = false /\ all_zero sp = false
  /\ parse_tp (str "00-0af7651916cd43dd8448eb211c80319c-b7ad6b7169203331-01")
     = Some {| p_trace := tr; p_span := sp; p_sampled := true |}.
Proof. vm_compute. repeat split; reflexivity. Qed.

Example history_nontrivial :
  let g := {| g_tracing := true; g_metrics := true; g_recexc := true; g_propagate := true; g_sampler := SParentAlways |} in
  let amb := {| x_trace := str "a1a1a1a1a1a1a1a1a1a1a1a1a1a1a1a1"; x_span := str "a2a2a2a2a2a2a2a2"; x_sampled := true;
                x_remote := false; x_tstate := [] |} in
  let c0 := {| c_http := false; c_kind := KUnary; c_tp_meta := str "00-0af7651916cd43dd8448eb211c80319c-b7ad6b7169203331-01";
               c_tp_hdr := []; c_tstate := str "vendor=1"; c_amb := Some amb; c_badparams := false; c_init := OPanic; c_turns := []; c_inputs := [] |} in
  let c1 := {| c_http := true; c_kind := KExch; c_tp_meta := []; c_tp_hdr := []; c_tstate := []; c_amb := Some amb; c_badparams := false; c_init := OOk;
               c_turns := [TEmit; TErr]; c_inputs := [ITick; ITick; ITick] |} in
  let o := model {| i_cfg := g; i_calls := [c0; c1]; i_sched := [Begin 0; Begin 1; Finish 0; Finish 1] |} in
  length (o_segs o) = 6%nat /\ length (o_exported o) = 4%nat
  /\ nth 2 (o_segs o) [] =
     [BEnd 0 SError true (str "RuntimeError") true
        (Some {| op_trace := str "0af7651916cd43dd8448eb211c80319c"; op_span := str "b7ad6b7169203331"; op_same := true;
                 op_remote := true; op_tstate := str "vendor=1" |});
      BCount (str "unary") (str "unary") (str "error") 1; BHist (str "unary") (str "unary") (str "error") 1]
  /\ nth 1 (o_segs o) [] =
     [BStart 1 true (str "vgi_rpc/exch") true
        (Some {| op_trace := x_trace amb; op_span := x_span amb; op_same := true; op_remote := false; op_tstate := [] |})].
Proof. vm_compute. repeat split; reflexivity. Qed.
