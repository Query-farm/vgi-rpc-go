(* Props/C34.v — property C34: the shared-memory allocator keeps its table
   consistent.  The lemmas are in Proofs/C34.v.

   Reading guide.  [tbl] is the allocation table held in the segment header, a
   list of (absolute offset, length).  [Inv size t] says: every region starts at
   or after the end of the one before it (the first at or after the header size
   HDR), has positive length, the last one ends at or before [size]; the table
   has at most MAXA entries; and [size] < 2^64.  [step] is one call of
   allocateLocked / AllocateAndWrite's admission / FreeOffset / Reset as the Go
   code performs it, uint64 wrap-around included; [spec_step] is the reference
   allocator defined through the gap list.  HDR, MAXA and all header offsets are
   regenerated from the compiled Go code on every run (Gen/Consts.v). *)
From VR Require Import Model.C34 Proofs.C34.
Open Scope N_scope.

(* 1. Every reachable table satisfies the invariant: any operation list, of any
      length, on a segment of any size that ShmCreate accepts. *)
Theorem inv_all_reachable : forall size ops,
  HDR <= size -> size < W -> Inv size (run size ops).
Proof.
  intros size ops H1 H2. apply run_inv_from, inv_nil; assumption.
Qed.

(* ... which is, spelled out: every region lies inside the data area and is
   non-empty; regions are in offset order and pairwise disjoint (for every pair
   i < j, region i ends at or before region j starts); at most MAXA of them. *)
Theorem inv_readable : forall size t, Inv size t ->
  Forall (fun e => HDR <= fst e /\ 0 < snd e /\ fst e + snd e <= size) t
  /\ ForallOrdPairs (fun a b => fst a + snd a <= fst b) t
  /\ N.of_nat (length t) <= MAXA.
Proof.
  intros size t (Hc & Hl & _). destruct (chain_facts _ _ _ Hc) as [A B]. repeat split; assumption.
Qed.

(* 2. Allocation is first fit, with exactly three reasons to refuse.  On success
      the offset is the start of the FIRST gap (in address order) that is large
      enough, the new table is the old one with (off, n) inserted in offset order
      and nothing else changed, and the invariant still holds.  It refuses only
      when the request is not positive, the table already holds MAXA regions, or
      EVERY gap is smaller than the request.  Since [alloc] computes with wrapping
      uint64 arithmetic and [gaps] with unbounded numbers, this also says that no
      wrap-around occurs under the invariant. *)
Theorem alloc_first_fit : forall size t n, Inv size t ->
  match alloc size n t with
  | Some (off, t') =>
      (0 < n)%Z /\ N.of_nat (length t) < MAXA /\
      exists pre g post,
        gaps size t = pre ++ g :: post /\
        Forall (fun x => snd x < Z.to_N n) pre /\ Z.to_N n <= snd g /\
        off = fst g /\ t' = insert_sorted (off, Z.to_N n) t /\ Inv size t'
  | None =>
      (n <= 0)%Z \/ MAXA <= N.of_nat (length t) \/ Forall (fun x => snd x < Z.to_N n) (gaps size t)
  end.
Proof.
  intros size t n HI. pose proof (alloc_inv size n t) as Hinv.
  rewrite (alloc_eq_spec _ _ _ HI) in *. unfold spec_alloc in *.
  destruct (n <=? 0)%Z eqn:En; [left; lia|].
  destruct (MAXA <=? N.of_nat (length t)) eqn:Em; [right; left; lia|].
  unfold first_gap_ge in *.
  pose proof (Lists.find_first (fun x : N * N => Z.to_N n <=? snd x) (gaps size t)) as Hf.
  destruct (find (fun x : N * N => Z.to_N n <=? snd x) (gaps size t)) as [g|].
  - destruct Hf as (pre & post & E1 & E2 & E3).
    split; [lia|]. split; [lia|]. exists pre, g, post.
    split; [exact E1|]. split.
    { eapply Forall_impl; [|exact E2]. cbv beta. intros a Ha. lia. }
    split; [lia|]. split; [reflexivity|]. split; [reflexivity|].
    eapply Hinv; [exact HI | reflexivity].
  - right; right. eapply Forall_impl; [|exact Hf]. cbv beta. intros a Ha. lia.
Qed.

(* canFitLocked answers exactly whether allocateLocked would succeed *)
Theorem canfit_iff_alloc : forall size n t,
  canfit size n t = match alloc size n t with Some _ => true | None => false end.
Proof. exact canfit_alloc. Qed.

(* 3. Free removes exactly the region starting at that offset — the table loses
      one entry, every other entry stays, in order — and fails exactly when no
      region starts there. *)
Theorem free_exact : forall size t off, Inv size t ->
  match free off t with
  | Some t' =>
      (exists l, In (off, l) t) /\
      t' = filter (fun e => negb (fst e =? off)) t /\
      length t = S (length t') /\ Inv size t'
  | None => forall l, ~ In (off, l) t
  end.
Proof.
  intros size t off HI. pose proof HI as (Hc & _).
  pose proof (free_inv size off t) as Hinv. pose proof (free_chain off size t HDR) as Hch.
  rewrite (free_eq_spec off _ _ _ Hc) in *. unfold spec_free in *.
  destruct (existsb (starts_at off) t) eqn:Ex.
  - apply existsb_exists in Ex. destruct Ex as ([o l] & Hin & Hst). unfold starts_at in Hst. cbn [fst] in Hst.
    assert (o = off) by lia. subst o.
    split; [exists l; exact Hin|]. split; [reflexivity|].
    split; [apply (Hch _ Hc eq_refl) | apply (Hinv _ HI eq_refl)].
  - intros l Hin. assert (Ht : existsb (starts_at off) t = true).
    { apply existsb_exists. exists (off, l). split; [exact Hin|]. unfold starts_at. cbn [fst]. lia. }
    congruence.
Qed.

(* 4. The header layout recovered from the compiled code is the documented one
      (magic VGIS at 0, version 1 u32 at 4, data_size u64 at 8, count u32 at 16,
      entries of 16 bytes from 24 with the length at +8; 65536-byte header, 4094
      entries) and the table fits inside the header. *)
Theorem header_layout_documented :
  shm_magic = [86; 71; 73; 83] /\ VERSION = 1 /\ HDR = 65536 /\ MAXA = 4094 /\
  OFF_MAGIC = 0%nat /\ OFF_VER = 4%nat /\ OFF_DS = 8%nat /\ OFF_COUNT = 16%nat /\
  OFF_ENTRIES = 24%nat /\ ENTRY = 16%nat /\ LEN_OFF = 8%nat /\
  shm_fixed_size = Z.of_nat OFF_ENTRIES /\ shm_entry_size = Z.of_nat ENTRY /\
  (shm_fixed_size + shm_entry_size * shm_max_allocs <= shm_header_size)%Z.
Proof. exact layout_constants. Qed.

(* A peer that validates the header and reads the table through the layout
   constants gets back exactly the segment size and the table, whatever stale
   bytes follow the live entries. *)
Theorem header_roundtrip : forall size t junk,
  HDR <= size -> Inv size t ->
  decode_header (encode_header size t ++ junk) = Some (size, t).
Proof. intros size t junk _. apply decode_encode_header. Qed.

(* 5. On every reachable state the code-shaped step and the reference allocator
      agree (result and next table). *)
Theorem step_refines_spec : forall size t o, Inv size t ->
  step size t o = spec_step size t o /\ Inv size (snd (step size t o)).
Proof. exact step_spec. Qed.

(* 6. The decidable form evaluated on the implementation's observables: for every
      input, the model's history satisfies it (each result and each table is the
      reference allocator's, every snapshot satisfies the invariant, every header
      image decodes to (size, table)). *)
Theorem spec_holds_on_model : forall i, spec_ok i (model i) = true.
Proof.
  intro i.
  unfold spec_ok, model.
  destruct (MAXINT <? i_size i)%Z eqn:Emax; [reflexivity|].
  destruct (i_size i <=? HDRz)%Z eqn:Eh; [reflexivity|].
  assert (Hs : HDR <= Z.to_N (i_size i)).
  { unfold HDR, HDRz in *. destruct layout_constants as (_ & _ & EH & _). unfold HDR in EH. lia. }
  assert (Hw : Z.to_N (i_size i) < W) by (unfold MAXINT, W in *; lia).
  destruct (run_obs_spec _ (i_ops i) [] (inv_nil _ Hs Hw)) as [E1 E2].
  destruct (run_obs (Z.to_N (i_size i)) [] (i_ops i)) as [os tf]. cbn [fst snd] in *.
  rewrite E1. destruct (i_child i); cbn [osnap_ok]; [exact (snap_ok_model _ _ E2) | reflexivity].
Qed.

(* 7. The invariant premise is essential: on a table that violates it (entries
      out of order, as a misbehaving peer could leave them — ShmAttach validates
      magic, version and data_size but not the table) the wrapping subtraction
      makes allocateLocked return a region that ends beyond the segment. *)
Theorem alloc_outside_invariant_unsafe :
  exists size t n off t',
    ~ Inv size t /\ alloc size n t = Some (off, t') /\ size < off + Z.to_N n.
Proof.
  exists (HDR + 100), [(HDR + 50, 10); (HDR + 20, 10)], 60%Z, (HDR + 60),
         [(HDR + 50, 10); (HDR + 60, 60); (HDR + 20, 10)].
  split; [|split; vm_compute; reflexivity].
  intro HI. apply inv_b_iff in HI. vm_compute in HI. discriminate.
Qed.

(* non-vacuity: a fragmented table satisfying the invariant on which allocation
   skips a gap that is too small, takes the middle gap, and free / refusal / the
   header round trip all show their non-trivial side *)
Example premises_satisfiable :
  let size := HDR + 100 in
  let t := [(HDR + 4, 10); (HDR + 40, 20)] in
  Inv size t
  /\ gaps size t = [(HDR, 4); (HDR + 14, 26); (HDR + 60, 40)]
  /\ alloc size 5 t = Some (HDR + 14, [(HDR + 4, 10); (HDR + 14, 5); (HDR + 40, 20)])
  /\ alloc size 41 t = None
  /\ free (HDR + 40) t = Some [(HDR + 4, 10)]
  /\ free (HDR + 41) t = None
  /\ run size [Alloc 4; Alloc 10; Alloc 26; Alloc 20; Free (HDR + 14); Free HDR; Reset; Alloc 100] = [(HDR, 100)]
  /\ decode_header (encode_header size t ++ [7; 7; 7]) = Some (size, t).
Proof.
  cbv zeta. split; [apply inv_b_iff; vm_compute; reflexivity|].
  repeat split; vm_compute; reflexivity.
Qed.
