(* Props/C32.v — property C32: a parallel range fetch terminates with exactly the
   bytes of the resource or an error, and hedged duplicates never change the
   result.  The lemmas the theorems below rest on are in Proofs/C32.v.

   Quantification.  [plan] is any chunk plan (list of the resource's consecutive
   pieces), [ans] ANY assignment of an answer (failure, or any status, any framing, any
   body) to every attempt, [slow] ANY time oracle for the hedge decision,
   [hedging]/[maxh] any hedging setting, [sched] ANY order in which the results
   of in-flight attempts reach the receive loop (no bound on its length).
   The only premise on the server is [honest]: a 206 answer of exactly the
   requested length carries the requested bytes (the code checks status and
   length, it cannot check content).

   Runtime residue (not a theorem): [Waiting] means the loop is blocked on an
   attempt that is really in flight; that such an attempt completes in bounded
   wall-clock time is the http.Client timeout chosen by the caller. *)
From VR Require Import Model.C32 Proofs.C32.
Open Scope nat_scope.

(* Every iteration of the receive loop strictly decreases
   (attempts not yet received) + (hedges that can still be launched). *)
Theorem step_decreases : forall plan ans slow hedging maxh s a,
  live s = true ->
  measure (length plan) (recv plan ans slow hedging maxh (take_out s a) a) < measure (length plan) s.
Proof. intros plan ans slow hedging maxh s a L. rewrite <- (step_measure plan ans slow hedging maxh s a L). apply Nat.lt_succ_diag_r. Qed.

(* The loop never blocks on the channel with nothing in flight. *)
Theorem never_stuck_with_nothing_in_flight : forall plan ans slow hedging maxh sched s,
  run plan ans slow hedging maxh sched (init plan) <> Stuck s.
Proof. exact never_stuck. Qed.

(* Termination: if the loop is still waiting after the results delivered so far,
   fewer than 2 * (number of chunks) results were delivered and some attempt is
   still in flight.  So after at most 2n deliveries the loop has exited. *)
Theorem terminates : forall plan ans slow hedging maxh sched s,
  run plan ans slow hedging maxh sched (init plan) = Waiting s ->
  length sched < 2 * length plan /\ inflight s <> [].
Proof.
  intros plan ans slow hedging maxh sched s E.
  pose proof (run_init_inv plan ans slow hedging maxh sched) as H. rewrite E, init_measure in H. destruct H as (_ & L & F & M). split; [|exact F].
  unfold live in L. apply andb_true_iff in L as [_ L]. apply Nat.ltb_lt in L. unfold measure in M. lia.
Qed.

(* What comes out: an error, or exactly the resource — for every schedule,
   every answer assignment by an honest server, every hedge oracle. *)
Theorem result_exact_or_error : forall res cs ans slow hedging maxh sched s,
  0 < cs -> honest (chunks cs res) ans ->
  run (chunks cs res) ans slow hedging maxh sched (init (chunks cs res)) = Done s ->
  assemble s = RError \/ assemble s = RBytes res.
Proof.
  intros res cs ans slow hedging maxh sched s Hcs Hh E.
  destruct (done_cases _ _ _ _ _ _ _ Hh E) as [A _ | k A _ _]; rewrite A, ?(chunks_concat cs res Hcs); auto.
Qed.

(* Hedged duplicates, part 1: the first result stored for a chunk is never replaced. *)
Theorem first_result_wins : forall plan ans slow hedging maxh s a i d,
  nth i (results s) None = Some d ->
  nth i (results (recv plan ans slow hedging maxh (take_out s a) a)) None = Some d.
Proof. intros plan ans slow hedging maxh s a i d H. now apply recv_first_wins. Qed.

(* part 2: two admitted answers for the same chunk carry the same bytes. *)
Theorem duplicates_carry_same_bytes : forall plan ans a b da db,
  honest plan ans -> fst a = fst b ->
  accept (want plan (fst a)) (ans a) = Some da -> accept (want plan (fst b)) (ans b) = Some db -> da = db.
Proof. intros plan ans a b da db H E A B. apply H in A. apply H in B. congruence. Qed.

(* part 3: hedging cannot turn a fetch that would succeed into a failure or into
   other bytes: if every first request is answered acceptably then, whatever
   duplicates are launched, however they are answered (including failures) and
   in whatever order everything arrives, the call returns exactly the resource. *)
Theorem hedges_do_not_change_result : forall res cs ans slow hedging maxh sched s,
  0 < cs -> honest (chunks cs res) ans ->
  (forall i, i < length (chunks cs res) -> exists d, accept (want (chunks cs res) i) (ans (i, false)) = Some d) ->
  run (chunks cs res) ans slow hedging maxh sched (init (chunks cs res)) = Done s ->
  assemble s = RBytes res.
Proof.
  intros res cs ans slow hedging maxh sched s Hcs Hh Ho E.
  destruct (done_cases _ _ _ _ _ _ _ Hh E) as [A _ | k _ Hk Hrej]; [now rewrite A, (chunks_concat cs res Hcs)|].
  destruct (Ho k Hk) as [d A]. congruence.
Qed.

(* part 4: when both requests for a chunk are answered equally (un)acceptably, the
   outcome is a function of the answers alone: no schedule and no hedge decision
   can change it.  (Used by the free-running correspondence cases, where neither
   is observed.) *)
Theorem duplicate_blind_outcome : forall res cs ans slow hedging maxh sched s,
  0 < cs -> honest (chunks cs res) ans ->
  (forall i, is_some (accept (want (chunks cs res) i) (ans (i, true)))
             = is_some (accept (want (chunks cs res) i) (ans (i, false)))) ->
  run (chunks cs res) ans slow hedging maxh sched (init (chunks cs res)) = Done s ->
  assemble s = if forallb (fun i => is_some (accept (want (chunks cs res) i) (ans (i, false))))
                          (seq 0 (length (chunks cs res)))
               then RBytes res else RError.
Proof.
  intros res cs ans slow hedging maxh sched s Hcs Hh Hsame E.
  destruct (done_cases _ _ _ _ _ _ _ Hh E) as [A H | k A Hk Hrej]; rewrite A, ?(chunks_concat cs res Hcs).
  - rewrite (proj2 (forallb_forall _ _)); [reflexivity|]. intros i Hi. apply in_seq in Hi.
    destruct (H i) as [[|] Q]; [lia | rewrite <- Hsame |]; now destruct (accept _ _).
  - (* chunk k's first request is refused *)
    destruct (forallb _ _) eqn:F; [|reflexivity]. rewrite forallb_forall in F.
    specialize (F k). rewrite Hrej in F. discriminate F. apply in_seq. lia.
Qed.

(* The admission test depends on the status and the bytes received, never on how
   the body's end was signalled (declared Content-Length, chunked, connection
   close): in particular a 206 body of the wrong length is refused under every
   framing, also when it ended with a clean EOF and no declared length. *)
Theorem framing_irrelevant : forall w st f1 f2 b, accept w (Resp st f1 b) = accept w (Resp st f2 b).
Proof. reflexivity. Qed.

Theorem wrong_length_refused : forall w st f b, length b <> w -> accept w (Resp st f b) = None.
Proof.
  intros w st f b H. unfold accept. destruct (length b =? w) eqn:E; [apply Nat.eqb_eq in E; contradiction|].
  now rewrite andb_false_r.
Qed.

(* Unset (zero / negative) parallelism is replaced by a positive worker count. *)
Theorem parallelism_positive : forall p, (0 < eff_parallel p)%Z.
Proof. intro p. unfold eff_parallel, default_parallel. destruct (p <=? 0)%Z eqn:E; lia. Qed.

(* The same in the decidable form evaluated on the implementation's observables:
   against an honest scripted server the whole call (HEAD probe, plain-GET fall
   back, size cap, parallel path) never hangs and returns an error or the resource. *)
Theorem spec_holds_on_model : forall i, spec_ok i (model i) = true.
Proof.
  intro i. unfold spec_ok. destruct (honest_b i) eqn:H; [|reflexivity].
  destruct (model_cases i) as [Hs| |].
  - pose proof (parallel_ok i Hs H) as K.
    destruct (parallel i) as [b| | | |]; [exact K | now rewrite K | contradiction | reflexivity | reflexivity].
  - pose proof (simple_ok i H) as K. now destruct (simple i).
  - reflexivity.
Qed.

(* The loop before the repair: a failed chunk followed by a success leaves it
   blocked with nothing in flight (the repaired model returns an error). *)
Theorem blocks_forever_legacy_refuted :
  exists i, honest_b i = true /\ parallel_legacy i = OHang /\ model i = OError.
Proof. exists legacy_block_witness. exact legacy_blocks. Qed.

(* The admission test before the repair: a server that ignores Range and answers
   200 with the whole body yields wrong bytes and no error. *)
Theorem whole_body_legacy_refuted :
  exists i b, honest_b i = true /\ parallel_legacy i = OBytes b /\ b <> i_res i /\ model i = OError.
Proof.
  exists legacy_whole_witness, [1; 2; 1; 2]%N. repeat split; try reflexivity. discriminate.
Qed.

(* non-vacuity: an honest answer assignment that answers every first request
   acceptably exists for a ragged three-chunk plan, and the run on it is [Done]. *)
Example premises_satisfiable :
  let res := [10; 20; 30; 40; 50; 60; 70]%N in
  let plan := chunks 3 res in
  let ans := fun a : attempt => Resp 206 Chunked (nth (fst a) plan []) in
  length plan = 3 /\ honest plan ans
  /\ (forall i, i < length plan -> exists d, accept (want plan i) (ans (i, false)) = Some d)
  /\ exists s, run plan ans (fun _ _ => true) true 4%Z [(2, false); (0, false); (1, false); (1, true)] (init plan) = Done s
               /\ assemble s = RBytes res.
Proof.
  cbv zeta. split; [reflexivity|]. split; [|split].
  - intros a d H. unfold accept in H. destruct (_ && _); [now inversion H | discriminate].
  - intros i Hi. exists (nth i (chunks 3 [10; 20; 30; 40; 50; 60; 70]%N) []).
    unfold accept, want. now rewrite N.eqb_refl, Nat.eqb_refl.
  - (* vm_compute first: [reflexivity] alone unifies the unknown state against the unevaluated run, very slowly *)
    eexists. split; vm_compute; reflexivity.
Qed.
