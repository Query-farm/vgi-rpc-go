(* Props/C38.v — property C38: access-log records are schema-valid and describe
   the call. The lemmas are in Proofs/C38.v.

   [assemble d] is the record AccessLogHook.OnDispatchEnd writes for dispatch
   info [d] (configuration included); [run_from init_state ops] is a history of
   requests against nodes sharing the token key (node 1 keeps no call-state
   cache), pipe calls and direct hook invocations; [record_ok] is the spec's
   shape decided on one record and is the very function the correspondence
   check evaluates on every captured line. *)
From VR Require Import Model.C38 Proofs.C38.

(* Every record has the required fields with the right types, no duplicate key,
   a 32-hex stream id iff it is a stream record, trace/span both-or-neither and
   well-formed, payload XOR omitted-marker (never both), non-negative counters
   and byte counts — for ALL dispatch infos that respect the DispatchInfo
   contract (a stream id, when supplied, is 32 lowercase hex; counters >= 0). *)
Theorem record_ok_always : forall d, dinfo_wf d = true -> record_ok (assemble d) = true.
Proof. exact record_ok_assemble. Qed.

(* Trace correlation, for every provider behaviour (absent, panicking, any two
   strings): both ids are logged and are exactly the provider's well-formed
   pair, or neither is. *)
Theorem trace_both_or_neither : forall d,
  match lookup K_trace_id (assemble d), lookup K_span_id (assemble d) with
  | Some t, Some s => exists t' s', t = JStr t' /\ s = JStr s' /\ d_trace d = PRet t' s'
                                    /\ lower_hex 32 t' = true /\ lower_hex 16 s' = true
  | None, None => True
  | _, _ => False
  end.
Proof.
  intro d.
  pose proof (trace_fields d) as H. destruct (tr_of d) as [[t s]|] eqn:E.
  - destruct H as [-> ->]. apply trace_ctx_some in E as [E [H1 H2]]. exists t, s. auto.
  - destruct H as [-> ->]. exact I.
Qed.

Theorem trace_valid_is_emitted : forall d t s,
  d_trace d = PRet t s -> lower_hex 32 t = true -> lower_hex 16 s = true ->
  lookup K_trace_id (assemble d) = Some (JStr t) /\ lookup K_span_id (assemble d) = Some (JStr s).
Proof.
  intros d t s E H1 H2. pose proof (trace_fields d) as H. unfold tr_of in H. rewrite E in H. cbn [trace_ctx] in H.
  rewrite H1, H2 in H. exact H.
Qed.

(* A record that carries request bytes carries either the base64 payload (debug)
   or the marker plus the omitted size (not debug), never both, never neither;
   a record without request bytes carries none of the three fields. *)
Theorem payload_or_marker : forall d,
  (has_payload d = true ->
     if d_debug d
     then lookup K_request_data (assemble d) = Some (payload_data (d_payload d))
          /\ lookup K_truncated (assemble d) = None /\ lookup K_original_request_bytes (assemble d) = None
     else lookup K_request_data (assemble d) = None
          /\ lookup K_truncated (assemble d) = Some (JStr al_payload_omitted)
          /\ lookup K_original_request_bytes (assemble d) = Some (JInt (payload_len (d_payload d))))
  /\ (has_payload d = false ->
      lookup K_request_data (assemble d) = None /\ lookup K_truncated (assemble d) = None
      /\ lookup K_original_request_bytes (assemble d) = None).
Proof.
  intro d. lk d. split; intro P; rewrite P; destruct (d_debug d); cbn [andb negb]; auto.
Qed.

(* ... whatever the size of the request: [payload_data] is the base64 text for
   a payload given in full and, for a large payload handed over by size only,
   a string of exactly the base64 length — and the two forms agree: base64 of
   n bytes has 4 * ceil(n / 3) characters, for every byte string. *)
Theorem payload_size_any : forall s, Z.of_nat (length (b64 s)) = b64len (N.of_nat (length s)).
Proof.
  fix IH 1. intros [|a [|b [|c t]]]; try reflexivity.
  cbn [b64 length]. rewrite !Nat2Z.inj_succ, IH. unfold b64len. rewrite !Nat2N.inj_succ, !N2Z.inj_succ.
  replace (Z.succ (Z.succ (Z.succ (Z.of_N (N.of_nat (length t))))) + 2)%Z
    with ((Z.of_N (N.of_nat (length t)) + 2) + 1 * 3)%Z by lia.
  rewrite Z.div_add by lia. lia.
Qed.

(* Redaction by key name, for every claim list and every key predicate: keys are
   kept, every matched key's value is replaced, nothing else changes. *)
Theorem redacted_by_key : forall (f : bytes -> bool) claims,
  keys (redact_with f claims) = keys claims
  /\ (forall k v, In (k, v) (redact_with f claims) -> f k = true -> v = JStr al_redacted)
  /\ (forall k v, In (k, v) claims -> f k = false -> In (k, v) (redact_with f claims)).
Proof.
  intros f c. split; [apply redact_with_keys | split]; [apply redact_with_hit | apply redact_with_miss].
Qed.

(* The default policy (the compiled pattern, regenerated into Gen/Consts.v)
   covers the credential-shaped and OIDC personal-data claim names, in any
   letter case and as substrings, and matches "name" only as the whole key. *)
Theorem default_policy_covers_pii :
  forallb sensitive canonical_sensitive = true /\ forallb (fun k => negb (sensitive k)) canonical_plain = true.
Proof. exact default_policy_on_canonical_keys. Qed.

(* Whatever claims a record carries are the redaction of the caller's claims
   under the installed policy's key predicate (default pattern, custom key set,
   or the explicit opt-out) ... *)
Theorem claims_logged_are_redacted : forall d a out,
  d_auth d = Some a -> lookup K_claims (assemble d) = Some out ->
  exists f, redact_pred (d_redactor d) = Some f /\ out = JObj (redact_with f (a_claims a)).
Proof.
  intros d a out Ha. rewrite claims_lookup, Ha, claims_field_eq.
  destruct (redact_pred (d_redactor d)) as [f|]; [|discriminate]. destruct (a_claims a); [discriminate|].
  intro H; inversion H. now exists f.
Qed.

(* ... and a redactor that panics fails closed: no claims at all. *)
Theorem claims_fail_closed : forall d, d_redactor d = RPanic -> lookup K_claims (assemble d) = None.
Proof.
  intros d H. rewrite claims_lookup. destruct (d_auth d); [|reflexivity].
  now rewrite claims_field_eq, H.
Qed.

(* Byte counts: request_bytes is the declared body length, response_bytes is
   the sum over the chain of writes that passed the counting writer, and chains
   compose additively. *)
Theorem byte_counts : forall d g, d_egress d = Some g ->
  lookup K_request_bytes (assemble d)
    = Some (JInt (if (0 <? g_content_length g)%Z then g_content_length g else 0%Z))
  /\ lookup K_response_bytes (assemble d) = Some (JInt (fold_left Z.add (g_writes g) 0%Z)).
Proof. intros d g H. destruct (egress_lookup d) as [-> ->]. rewrite H. split; reflexivity. Qed.

Theorem writer_chain_sum : forall l1 l2,
  fold_left Z.add (l1 ++ l2) 0%Z = (fold_left Z.add l1 0 + fold_left Z.add l2 0)%Z.
Proof.
  intros l1 l2. rewrite fold_left_app. apply fold_add_shift.
Qed.

(* Stream id stability, for every history of any length (any interleaving of
   streams, nodes with and without the call-state cache, tampered or missing
   call tokens, cancels, and ANY placement of hooks: the /init may have been
   served by a process that logs nothing, a hook may appear later, other nodes
   may log): the id is fixed at /init, travels in the call token, and every
   continuation that logs a record logs exactly that id — the id the init
   logged, if the init was logged at all. *)
Theorem stream_id_stable : forall ops j node c t cancel q fresh h r,
  nth_error ops j = Some (OCont node c t cancel q fresh h) ->
  In r (nth j (run_from init_state ops) []) ->
  exists node0 q0 sid h0,
    nth_error ops c = Some (OInit node0 q0 sid true h0)
    /\ (sid <> [] -> sid_of r = Some sid)
    /\ (h0 = true ->
        nth c (run_from init_state ops) [] = [assemble (dinfo_of q0 true true sid sid false true)]
        /\ (sid <> [] -> sid_of (assemble (dinfo_of q0 true true sid sid false true)) = Some sid)).
Proof.
  intros ops j node c t cancel q fresh h r Hj Hr.
  destruct (logged_at ops j _ r Hj Hr) as [sid [[node0 [q0 [h0 Hc]]] ->]].
  exists node0, q0, sid, h0. split; [exact Hc|]. split.
  - intro Hne. now apply sid_of_dinfo.
  - intros ->. split.
    + exact (init_logged ops c _ _ _ _ Hc).
    + intro Hne. now apply sid_of_dinfo.
Qed.

(* Hence: any two records of one stream (its init and any of its continuations,
   as identified by the tokens echoed, not by the logged id) carry one and the
   same 32-hex id. *)
Theorem one_stream_one_id : forall ops, input_wf ops = true -> forall c j1 j2 o1 o2 r1 r2,
  nth_error ops j1 = Some o1 -> nth_error ops j2 = Some o2 ->
  in_stream c j1 o1 = true -> in_stream c j2 o2 = true ->
  In r1 (nth j1 (run_from init_state ops) []) -> In r2 (nth j2 (run_from init_state ops) []) ->
  exists sid, lower_hex 32 sid = true /\ sid_of r1 = Some sid /\ sid_of r2 = Some sid.
Proof.
  intros ops Hwf c j1 j2 o1 o2 r1 r2 H1 H2 I1 I2 R1 R2. exists (sid_at ops c).
  destruct (stream_record_sid ops Hwf c j1 o1 r1 H1 I1 R1) as [X Y1].
  destruct (stream_record_sid ops Hwf c j2 o2 r2 H2 I2 R2) as [_ Y2]. auto.
Qed.

(* The whole property in the decidable form the correspondence check evaluates
   on the implementation's lines: every record of every well-formed history is
   record_ok, carries redacted claims (none when the redactor fails), payload or
   marker exactly on unary / init records, byte counts equal to the wire
   measurements, and every record of one stream the stream's first logged id. *)
Theorem spec_holds_on_model : forall i, input_wf i = true -> spec_ok i (model i) = true.
Proof.
  intros ops Hwf. unfold spec_ok. unfold model at 2. apply spec_from_intro; [apply run_from_length|].
  intros j o r Hj Hr. cbn [Nat.add]. pose proof (Lists.forallb_nth _ _ _ _ Hwf Hj) as Ho.
  pose proof (fun c Hin => same_sid_model ops Hwf c j o r Hj Hin Hr) as Hsame.
  pose proof (logged_at ops j o r Hj Hr) as L.
  destruct o as [d|q|q sid|node q sid opened h|node c t cancel q fresh h|q|]; cbn [op_wf] in Ho; cbn [describes logs] in *;
    [| | | | |destruct L..].
  - subst r. rewrite record_ok_assemble by exact Ho.
    rewrite claims_part_assemble, payload_or_marker_assemble, payload_described_assemble. now destruct (has_payload d).
  - subst r. apply logged_ok; [exact Ho | discriminate | reflexivity].
  - subst r. apply andb_true_iff in Ho as [Ho Hsid].
    apply logged_ok; [exact Ho | intros _; now destruct sid | reflexivity].
  - subst r. rewrite (Hsame j (Nat.eqb_refl j)), andb_true_r. apply andb_true_iff in Ho as [Ho Hsid].
    apply logged_ok; [exact Ho | intros _; now destruct sid | reflexivity].
  - (* continuation: the id is the one minted by the init, which is well-formed *)
    rewrite (Hsame c (Nat.eqb_refl c)), andb_true_r. destruct L as [sid [[node0 [q0 [h0 Hc]]] ->]].
    pose proof (init_hex _ _ _ _ _ _ _ Hwf Hc) as Hhex.
    apply logged_ok; [exact Ho | intros _; now destruct sid | reflexivity].
Qed.

(* The premise "the request declared its length" is necessary: for a body sent
   without Content-Length the emitter logs request_bytes = 0 while bytes crossed
   the wire (accesslog: r.ContentLength <= 0 => 0). *)
Theorem undeclared_length_refuted :
  exists q g, q_egress q = Some g /\ g_content_length g = (-1)%Z /\ (0 < q_wire_request q)%Z
    /\ has_payload_p (q_payload q) = true /\ spec_ok [OUnary q] (model [OUnary q]) = false.
Proof.
  exists (example_q (-1) 408 PNone RDefault). eexists. split; [reflexivity|].
  repeat split; vm_compute; reflexivity.
Qed.

(* non-vacuity: a well-formed history with a stream opened on the caching node
   and continued on the cache-less one; both records carry the minted id; and a
   history whose /init is served without a hook, logged only from the two
   continuations on, which both carry the id minted at /init *)
Example premises_satisfiable :
  input_wf example_history = true
  /\ map (fun x => map sid_of (ob_records x)) (model example_history)
     = [[Some (str "0123456789abcdef0123456789abcdef")]; [Some (str "0123456789abcdef0123456789abcdef")]]
  /\ dinfo_wf example_dinfo = true /\ trace_ctx (d_trace example_dinfo) <> None
  /\ input_wf example_late_hook = true
  /\ map (fun x => map sid_of (ob_records x)) (model example_late_hook)
     = [[]; []; [Some (str "0123456789abcdef0123456789abcdef")]; [Some (str "0123456789abcdef0123456789abcdef")]].
Proof.
  repeat split; try (vm_compute; reflexivity). vm_compute. discriminate.
Qed.
