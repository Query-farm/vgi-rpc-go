(* Props/C14.v — property C14: tokens minted by one stream method, when presented to a
   different method's continuation route, are refused with a client error; the other
   method's code (RehydrateFunc, dispatch hook, Produce / Exchange / OnCancel) never runs
   on the foreign state and the request never aborts the connection.  For all ordered
   pairs of registered stream methods (producer, exchange, dynamic) and all token sets
   minted by the first.  Lemmas in Proofs/C14.v.

   The AEAD (XChaCha20-Poly1305 with gob / zstd / base64 folded in) is an oracle: theorems
   1-3 hold for EVERY [seal]/[open] with [open a (seal n a p) = Some p] (explicit premise).
   Theorems 4-5 are about whole histories over the symbolic ideal AEAD the executable
   model uses (a ciphertext is its nonce, associated data and plaintext). *)
From VR Require Import Model.C14 Proofs.C14.

(* 0. tie: when Gen/Consts.v was generated, the call token sealed by the function
   /init uses (packCallTokenFor) and the cache entry it stores both named the minting
   method, on four probe names (vgirpc/verif_c14.go) *)
Theorem compiled_call_token_names_its_method : c14_call_names_method = 1%Z.
Proof. reflexivity. Qed.

(* 1. one continuation: a foreign method's tokens are refused, nothing runs
   [info] minted call c (its name is what every call token of c and every cache entry of
   c carries: premises [cache_names], [slot_names] — which the invariant of the reachable
   states gives, Proofs/C14.v: [inv_cache_names], [inv_slot_names], [reach_inv]); the cursor (any state s, as minted or re-enveloped) is
   presented at the route of [info'], a method with a different name, with ANYTHING in
   the call-token slot, any cache contents (hit or miss, enabled or not), cancel flag on
   or off, any body, working or failing RehydrateFunc.  The response is the 400 error
   (TypeError of the input cast when that fires first, RuntimeError otherwise), no panic,
   the trace of rehydrate / hook / Produce / Exchange / OnCancel is empty, no cursor is
   returned, and whatever the miss path stores in the cache still names the minter. *)
Theorem foreign_method_refused_400_no_code_runs :
  forall (CT : Type) (seal : N -> bytes -> payload -> CT) (open : bytes -> CT -> option payload),
  (forall n a p, open a (seal n a p) = Some p) ->
  forall reg route info info' c s n (re : bool) b cancel rfail cache_on ch tk,
  lookup reg route = Some info' -> m_name info' <> m_name info ->
  cache_names cache_on ch c (m_name info) -> slot_names CT open tk c (m_name info) ->
  let cur := mint CT seal n (PCursor c s) in
  let out := continue_dec CT open reg route b cancel rfail cache_on ch
               (Some (if re then reenvelope CT KCursor cur else cur)) tk in
  o_res out = R 400 (if cast_blocks info' b cancel then c14_exc_cast else exc_runtime_error) false [] false
  /\ o_next out = None
  /\ (forall c' r, o_put out = Some (c', r) -> c' = c /\ r_meth r = m_name info).
Proof.
  intros CT seal open Hos reg route info info' c s n re b cancel rfail on ch tk Hl Hne Hc Hs cur out.
  subst out cur.
  replace (if re then _ else _) with (mint CT seal n (PCursor c s)) by (destruct re; reflexivity).
  destruct (cont_cases CT open reg route b cancel rfail on ch (Some (mint CT seal n (PCursor c s))) tk)
    as [exc -> -> | info0 tcur c0 s0 call stored El Ecast [= <-] Ho Er Hout].
  - rewrite Hl. repeat split; intros; discriminate.
  - rewrite Hl in El. injection El as <-. rewrite Ecast.
    rewrite (open_cursor_mint CT seal open Hos) in Ho. injection Ho as <- <-.
    (* whatever resolveCall hands back names the minter, so the method check fires *)
    pose proof (resolve_names CT open _ _ _ _ _ _ _ Hc Hs Er) as Hn.
    destruct Hout as [-> | (Hm & _)]; [|congruence].
    split; [reflexivity|]. split; [reflexivity|]. intros c' r H. destruct stored; inversion H; subst; auto.
Qed.

(* 2. liveness: a method's own tokens at its own route run exactly one turn *)
Theorem own_method_accepted :
  forall (CT : Type) (seal : N -> bytes -> payload -> CT) (open : bytes -> CT -> option payload),
  (forall n a p, open a (seal n a p) = Some p) ->
  forall reg route info c s n n' r b cancel cache_on ch,
  lookup reg route = Some info ->
  r_meth r = m_name info -> state_fits (m_mode info) (st_ty s) = true ->
  cache_names cache_on ch c (m_name info) ->
  cast_blocks info b cancel = false ->
  let out := continue_dec CT open reg route b cancel false cache_on ch
               (Some (mint CT seal n (PCursor c s))) (Some (mint CT seal n' (PCall c r))) in
  o_res out = R 200 [] false (turn_trace route info s cancel) (negb cancel)
  /\ o_next out = (if cancel then None else Some (c, {| st_ty := st_ty s; st_pos := st_pos s + 1 |})).
Proof. exact own_tokens_one_turn. Qed.

(* 3. the cursor is bound to ITS call token by the call id
   cursor of call c + the call token of another call c' (minted by any method, also by
   the route's own), no cache entry for c: refused at EVERY route, nothing runs, nothing
   is stored. *)
Theorem cursor_bound_to_its_call_token :
  forall (CT : Type) (seal : N -> bytes -> payload -> CT) (open : bytes -> CT -> option payload),
  (forall n a p, open a (seal n a p) = Some p) ->
  forall reg route b cancel rfail cache_on ch c c' s n n' r,
  (cache_on = false \/ cache_get c ch = None) -> c' <> c ->
  let out := continue_dec CT open reg route b cancel rfail cache_on ch
               (Some (mint CT seal n (PCursor c s))) (Some (mint CT seal n' (PCall c' r))) in
  r_status (o_res out) = match lookup reg route with Some _ => 400 | None => 404 end
  /\ r_trace (o_res out) = [] /\ r_panic (o_res out) = false /\ r_tok (o_res out) = false
  /\ o_next out = None /\ o_put out = None.
Proof.
  intros CT seal open Hos reg route b cancel rfail on ch c c' s n n' r Hmiss Hne out.
  (* the exit is one before the call is resolved: resolveCall has neither a hit nor a call
     token of call c *)
  destruct (cont_cases CT open reg route b cancel rfail on ch
              (Some (mint CT seal n (PCursor c s))) (Some (mint CT seal n' (PCall c' r))))
    as [exc E _ | info tcur c0 s0 call stored _ _ [= <-] Ho Er _].
  - subst out. rewrite E. repeat split.
  - exfalso. rewrite (open_cursor_mint CT seal open Hos) in Ho. injection Ho as <- <-.
    apply resolve_some in Er. destruct stored.
    + destruct Er as (t & [= <-] & Hk). rewrite (open_call_mint CT seal open Hos) in Hk. congruence.
    + destruct Er as [-> Hg]. destruct Hmiss; congruence.
Qed.

(* 4. the property in decidable form, for EVERY history and EVERY registry
   [spec_ok] (Model/C14.v) recomputes from the input history alone who minted which
   token, and demands of the per-request responses: never a panic; a cursor minted by a
   method other than the route's => 400 (404 when the route is not registered), no user
   code, no cursor; anything else that is not a cursor => 4xx, no user code; own cursor +
   own call token as minted => exactly one turn; whatever ran, ran as the route's method.
   Histories: /init of any method on either of two processes sharing the key, cache
   reset / disabled / enabled per process, continuations at any route with any minted
   tokens in either slot (as minted or re-enveloped). *)
Theorem every_history_satisfies_the_property : forall i, spec_ok i (model i) = true.
Proof.
  intros i. unfold spec_ok, model. destruct (reg_ok (i_reg i)) eqn:Hreg.
  - exact (spec_run_model _ Hreg _ _ _ (inv_st0 _)).
  - rewrite run_length. apply Nat.eqb_refl.
Qed.

(* 5. the same, readable: in every reachable state (so: every cache content a
   history can produce, on either process) a cursor that a history says was minted by
   method m is refused at every other route, nothing runs *)
Theorem foreign_refused_in_every_reachable_state :
  forall reg pre, reg_ok reg = true ->
  let s := exec sym_ct sym_seal reg (continue_dec sym_ct sym_open) (st0 sym_ct) pre in
  let ptoks := ptoks_after reg (st0 sym_ct) [] pre in
  forall i route id re call cancel b rfail m c,
    nth_error ptoks id = Some (KCursor, m, c) -> m <> route ->
    let x := snd (step sym_ct sym_seal reg (continue_dec sym_ct sym_open) s
                       (OCont i route (TTok id re) call cancel b rfail)) in
    r_status x = match lookup reg route with Some _ => 400 | None => 404 end
    /\ r_trace x = [] /\ r_panic x = false /\ r_tok x = false.
Proof.
  intros reg pre Hreg s ptoks i route id re call cancel b rfail m c Hn Hne x. subst x. cbn [step snd].
  assert (Hinv : inv reg s ptoks) by (apply reach_inv; [exact Hreg | apply inv_st0]).
  (* the request is refused, or its cursor is one the route's own method minted *)
  destruct (cont_hist_cases reg s ptoks i route (TTok id re) call cancel b rfail Hreg Hinv)
    as [exc -> | m' c' info s0 stored Hp _ _ _ [-> | (-> & _)]]; [repeat split.. |].
  cbn [pderef] in Hp. congruence.
Qed.

(* 5b. eviction is sound, for every capacity
   The call-state cache is a bounded LRU (get hit = move to front; put of a known call =
   update + move to front; put of a new call = push front, then trim the back down to the
   capacity; capacity 0 = disabled).  Capacities are part of the history ([OOn inst cap]
   for ANY cap, also mid-history; [OOff]; [OReset]), so theorems 4 and 5 hold for every
   capacity and every eviction order.  What makes them go through is exposed here: *)

(* the list operations never invent or re-label a binding *)
Theorem lru_put_sound : forall cap c r ch c0 r0,
  cache_get c0 (cache_put cap c r ch) = Some r0 ->
  (c0 = c /\ r0 = r) \/ (c0 <> c /\ cache_get c0 ch = Some r0).
Proof. exact get_put. Qed.

Theorem lru_hit_only_reorders : forall c ch c0, cache_get c0 (touch c ch) = cache_get c0 ch.
Proof. exact get_touch. Qed.

Theorem lru_within_capacity : forall cap c r ch, (length (cache_put cap c r ch) <= cap)%nat.
Proof. exact length_put. Qed.

(* after ANY history, on either process, whatever its capacity is at that point: the cache
   holds at most capacity entries, and an entry found under call id c is exactly the fixed
   half that /init minted for c - method name included - never another call's *)
Theorem reachable_cache_entries_are_the_minted_calls :
  forall reg pre, reg_ok reg = true ->
  let s := exec sym_ct sym_seal reg (continue_dec sym_ct sym_open) (st0 sym_ct) pre in
  let ptoks := ptoks_after reg (st0 sym_ct) [] pre in
  forall i,
    (length (ch_of _ s i) <= cap_of _ s i)%nat
    /\ forall c r, cache_get c (ch_of _ s i) = Some r ->
         exists k m info, In (k, m, c) ptoks /\ lookup reg m = Some info /\ r = resolved_for info c.
Proof.
  intros reg pre Hreg s ptoks i.
  destruct (reach_inv reg Hreg pre _ _ (inv_st0 reg)) as (_ & Hc & Hl). split; [apply Hl | apply Hc].
Qed.

(* 6. the code before commit e4cc5ac violated the property *)
(* a producer-only state's tokens at an exchange route: after rehydrate and the hook ran,
   the unchecked type assertion panics out of ServeHTTP *)
Theorem producer_token_at_exchange_route_panics_legacy_refuted :
  exists i, reg_ok (i_reg i) = true
    /\ (exists x, In x (model_legacy i) /\ r_panic x = true /\ r_trace x <> [])
    /\ spec_ok i (model_legacy i) = false.
Proof.
  exists legacy_panic_witness. destruct legacy_panic_run as (Hr & Hm & Hs).
  split; [exact Hr|]. split; [|exact Hs]. rewrite Hm.
  eexists. split; [right; left; reflexivity|]. split; [reflexivity | discriminate].
Qed.

(* two methods sharing one state type: the exchange method's code runs on the
   producer's state *)
Theorem shared_state_type_runs_foreign_code_legacy_refuted :
  exists i, reg_ok (i_reg i) = true
    /\ (exists x, In x (model_legacy i) /\ r_status x = 200 /\ In (AExchange 1) (r_trace x))
    /\ spec_ok i (model_legacy i) = false.
Proof.
  exists legacy_shared_witness. destruct legacy_shared_run as (Hr & Hm & Hs).
  split; [exact Hr|]. split; [|exact Hs]. rewrite Hm.
  eexists. split; [right; left; reflexivity|]. split; [reflexivity|]. right; right; left; reflexivity.
Qed.

(* non-vacuity: the premises of 1-3 and 5 are met by concrete, non-trivial values *)
Example premises_of_1_2_3_satisfiable :
  (forall n a p, sym_open a (sym_seal n a p) = Some p)
  /\ (exists info info', lookup std_reg 7 = Some info' /\ lookup std_reg 6 = Some info
        /\ m_name info' <> m_name info
        /\ cache_names true [(5, {| r_meth := m_name info; r_schema := true; r_stream := 5 |})] 5 (m_name info)
        /\ slot_names sym_ct sym_open
             (Some (mint sym_ct sym_seal 1 (PCall 5 {| r_meth := m_name info; r_schema := true; r_stream := 5 |})))
             5 (m_name info)
        /\ state_fits (m_mode info) (m_sty info) = true
        /\ cast_blocks info Tick false = false).
Proof.
  split; [exact sym_open_seal|].
  eexists _, _. split; [reflexivity|]. split; [reflexivity|]. split; [vm_compute; discriminate|].
  split; [|split; [|split; reflexivity]].
  - intros r _ H. vm_compute in H. inversion H. reflexivity.
  - intros t r Ht Ho. inversion Ht; subst t. vm_compute in Ho. inversion Ho. reflexivity.
Qed.

Example premises_of_5_satisfiable :
  reg_ok std_reg = true
  /\ nth_error (ptoks_after std_reg (st0 sym_ct) [] [OInit false 6; OInit true 7; OReset false]) 0
     = Some (KCursor, 6%nat, 0).
Proof. split; vm_compute; reflexivity. Qed.

(* an eviction actually happens: capacity 1, /prod/init (call 0) then /e2/init (call 1) -
   call 0's entry is gone; its cursor at e2's route without the call token is a miss (400),
   with its call token the miss path reads "prod" (400) and stores call 0 again, evicting
   call 1; prod's own route then hits (one turn) and e2's own cursor misses (400) *)
Example eviction_happens_capacity_1 :
  let ops := [OOn false 1; OInit false 0; OInit false 7] in
  ch_of _ (exec sym_ct sym_seal std_reg (continue_dec sym_ct sym_open) (st0 sym_ct) ops) false
  = [(1, {| r_meth := str "e2"; r_schema := true; r_stream := 1 |})]
  /\ model {| i_reg := std_reg;
              i_ops := ops ++ [OCont false 7 (TTok 0 false) TNone false Data false;
                               OCont false 7 (TTok 0 false) (TTok 1 false) false Data false;
                               OCont false 0 (TTok 0 false) TNone false Tick false;
                               OCont false 7 (TTok 2 false) TNone false Data false] |}
     = [R 0 [] false [] false; R 200 [] false [] true; R 200 [] false [] true;
        R 400 exc_runtime_error false [] false; R 400 exc_runtime_error false [] false;
        R 200 [] false [ARehyd 1 0; AHook 0 false; AProduce 1] true;
        R 400 exc_runtime_error false [] false].
Proof. vm_compute. split; reflexivity. Qed.
