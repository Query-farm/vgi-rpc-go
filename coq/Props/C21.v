(* Props/C21.v — property C21: the native HTTP client returns the server's stream
   and never replays a cursor.  The lemmas are in Proofs/C21.v.
   [smodel i] runs the client state machine of Model/C21.v (openStream, Exchange,
   Next, Cancel, Close, post, parseMain, parseIPCStream) against the scripted
   stateless server through the fault schedule [i_faults i]; inputs range over
   ALL scripts, ALL client call sequences and ALL fault schedules (no bound). *)
From VR Require Import Model.C21 Proofs.C21.
Import ListNotations.

(* (1) On an exchange stream no cursor is ever POSTed twice, whatever the calls
   made and whatever faults hit which POSTs (Cancel's POST included). *)
Theorem cursor_never_replayed : forall i,
  i_exchange i = true -> NoDup (posted_cursors (smodel i)).
Proof.
  intros i Hex. unfold smodel. destruct (model_meets true i) as (r0 & rs & -> & M). exact (m_cursors M Hex).
Qed.

(* (2) After ANY call on an exchange stream that POSTed and failed — transport
   error, timeout, non-2xx, undecodable / over-limit / malformed / truncated body,
   trailing bytes, schema drift, missing cursor, wrong batch count, error header,
   server exception — every later call leaves the network untouched and yields
   no batch. *)
Theorem no_post_after_ambiguous : forall i r0 pre r post,
  i_exchange i = true -> smodel i = r0 :: pre ++ r :: post ->
  o_posts r <> [] -> is_err (o_res r) = true ->
  Forall (fun r' => o_posts r' = [] /\ is_ok (o_res r') = false) post.
Proof.
  intros i r0 pre r post Hex Hm Hp He. destruct (model_meets true i) as (r0' & rs & Hm' & M).
  unfold smodel in Hm. rewrite Hm in Hm'. injection Hm' as <- <-. exact (poison_split _ _ _ _ (m_poison M Hex) Hp He).
Qed.

(* (3) The k-th call being Exchange x: if its single POST reached the server and
   the answer reached the client intact ([good]), and the server's answer holds
   one data batch carrying a new cursor, then the client returns exactly that
   batch (rows, values, user metadata: the token keys are not part of [item]),
   delivered exactly the server's logs, and had sent x uncancelled. *)
Theorem exchange_returns_server_batch_stripped : forall i k x bad r p it,
  nth_error (i_ops i) k = Some (OpExchange x bad) -> nth_error (tl (smodel i)) k = Some r ->
  o_posts r = [p] -> good p = true -> items_of true (p_frames p) = [it] -> has_token (p_frames p) = true ->
  o_res r = ROk it /\ o_logs r = logs_in (p_frames p) /\ p_x p = x /\ p_cancel p = false.
Proof.
  intro i. unfold smodel. destruct (model_meets true i) as (r0 & rs & -> & M). pose proof (m_exch M) as H.
  cbn [tl]. revert H. generalize (i_ops i). clear M.
  intros ops H k; revert ops rs H.
  induction k as [|k IH]; intros [|op ops] [|r1 rs] H x bad r p it Ho Hr Hp Hg Hit Htk;
    cbn [nth_error] in Ho, Hr; try discriminate; cbn [exch_ok] in H; apply andb_true_iff in H as [H H'].
  - injection Ho as ->. injection Hr as ->. unfold exch_one in H. rewrite Hp, Hg, Hit, Htk in H.
    apply andb_true_iff in H as [[H1%negb_true_iff H2%Z.eqb_eq]%andb_true_iff
                                  [H3%result_eqb_eq H4%(list_eqb_eq N.eqb N.eqb_eq)]%andb_true_iff].
    auto.
  - exact (IH _ _ H' _ _ _ _ _ Ho Hr Hp Hg Hit Htk).
Qed.

(* (4) Producer streams, when no fault removes the continuation marker: the batches
   handed out by Next are, in order, a prefix of the data items of the responses
   that reached the client intact.  (That end-of-stream is reported only when
   nothing delivered is left unreturned is the REnd clause of [prod_ok], part of
   [sspec_ok] below.) *)
Theorem producer_returns_delivered_in_order : forall i,
  i_exchange i = false -> no_lossy (smodel i) = true ->
  exists rest, all_delivered (smodel i) = returned (smodel i) ++ rest.
Proof.
  intros i Hex Hnl. unfold smodel in *. destruct (model_meets true i) as (r0 & rs & Hm & M). rewrite Hm in *.
  destruct (prod_prefix _ _ _ (m_prod M Hex Hnl)) as [rest Hr]. exists rest.
  unfold all_delivered, returned in *. cbn [flat_map]. rewrite Hr. pose proof (m_first M). now destruct (o_res r0).
Qed.

(* (5) A server exception that reached the client intact surfaces from that very
   call as an RpcError carrying the server's exception type — at init, on any
   exchange / producer / cancel turn, with or without a matching schema. *)
Theorem exception_is_typed : forall i r p ty,
  In r (smodel i) -> In p (o_posts r) -> seen p = true -> first_exc (p_frames p) = Some ty ->
  o_res r = RErr (ERpc ty).
Proof.
  intros i r p ty Hr Hp Hs He. pose proof (proj2 (smodel_accounted i r p Hr Hp) eq_refl) as Hty.
  unfold typed_post in Hty. rewrite Hs, He in Hty. now apply result_eqb_eq.
Qed.

(* (5b) A response that does not match its declaration is never accepted: whenever
   the fault on a POST is not transparent (transport failure, non-2xx status, size
   cap, unknown or undecodable encoding, garbage / empty / truncated body, trailing
   bytes, schema drift, spurious error header) the call fails; on an exchange
   stream so does a response that lost its cursor. *)
Theorem mismatching_responses_rejected : forall i r p,
  In r (smodel i) -> In p (o_posts r) -> transparent (p_fault p) = false ->
  (lossy (p_fault p) = false \/ reaches_parser (p_fault p) = false
   \/ (i_exchange i = true /\ p_cancel p = false)) ->
  is_err (o_res r) = true.
Proof.
  intros i r p Hr Hp Ht Hside. pose proof (proj1 (smodel_accounted i r p Hr Hp)) as H.
  unfold rej_post in H. rewrite Ht, orb_false_r in H. destruct (is_err (o_res r)); [reflexivity|].
  destruct Hside as [Hl|[Hl|[Hex Hc]]]; rewrite ?Hl, ?Hex, ?Hc, ?andb_false_r in H; exact H.
Qed.

(* (5c) Content coding, on the two headers a response can declare it on.  The client
   accepts a response only if the header it reads - the standard Content-Encoding,
   or X-VGI-Content-Encoding when the standard one is absent - is absent or names a
   supported coding the body really is in; otherwise the call fails, on every route
   (init, exchange turn, producer turn, cancel), whatever else the fault did - so an
   unsupported coding on the standard header only, on the custom header only, or on
   both is always refused (and, by (2), poisons an exchange stream). *)
Theorem encoding_mismatch_refused : forall i r p,
  In r (smodel i) -> In p (o_posts r) -> enc_accepts (f_enc (p_fault p)) = false ->
  is_err (o_res r) = true.
Proof.
  intros i r p Hr Hp He. apply (mismatching_responses_rejected i r p Hr Hp).
  - unfold transparent. rewrite He. now rewrite andb_false_r.
  - right; left. unfold reaches_parser. rewrite He. now rewrite andb_false_r.
Qed.

Theorem encoding_accepted_iff : forall e,
  enc_accepts e = true <->
  (enc_std e = COk \/ (enc_std e = CAbsent /\ (enc_custom e = COk \/ enc_custom e = CAbsent))).
Proof.
  destruct e; cbn; split; intro H; try discriminate; auto; destruct H as [H|[H1 [H|H]]]; discriminate.
Qed.

(* (6) The whole property in the decidable form evaluated on the implementation's
   observables: well-formed POSTs, typed exceptions, rejection, open contract, no cursor
   replay, poisoning, exchange returns, producer returns. *)
Theorem spec_holds_on_model : forall i, sspec_ok i (smodel i) = true.
Proof.
  intro i. unfold smodel. destruct (model_meets true i) as (r0 & rs & -> & M). unfold sspec_ok.
  rewrite (m_wf M), (meets_typed _ _ _ M), (meets_rej _ _ _ _ M), (m_open M). cbn [andb].
  assert (Hstop : (if is_err (o_res r0) then is_nil rs else true) = true)
    by (destruct (is_err (o_res r0)) eqn:E; [now rewrite (m_stop M E)|reflexivity]).
  rewrite Hstop. cbn [andb]. destruct (i_exchange i) eqn:Ek.
  - now rewrite (m_poison M Ek), (m_exch M), (proj2 (nodupb_NoDup _) (m_cursors M Ek)).
  - destruct (no_lossy (r0 :: rs)) eqn:Hnl; [|reflexivity]. exact (m_prod M Ek Hnl).
Qed.

(* (7) Client histories.  [model] of a whole case = (earlier calls made on the same
   HttpClient, each of which made it accept some schema under some other
   declaration; then the stream).  What the stream observes does not depend on
   those earlier calls at all: the verdict on a response is a function of the
   declared schema, the wire schema and the body only. *)
Theorem verdict_independent_of_history : forall h1 h2 s,
  snd (model {| i_hist := h1; i_in := s |}) = snd (model {| i_hist := h2; i_in := s |}).
Proof. reflexivity. Qed.

(* (7b) In particular a response whose schema was rewritten (to ANY other schema,
   whether or not this client accepted that schema earlier for another declaration)
   is refused, whatever calls came before. *)
Theorem drifted_schema_rejected_whatever_the_history : forall h s r p,
  In r (snd (model {| i_hist := h; i_in := s |})) -> In p (o_posts r) ->
  f_body (p_fault p) = BDrift -> f_net (p_fault p) = NetOk -> is_err (o_res r) = true.
Proof. intros h s r p Hr Hp Hb _. exact (drifted_schema_rejected s r p Hr Hp Hb). Qed.

(* (8) The whole property with histories, in the form evaluated on the implementation. *)
Theorem spec_holds_on_model_with_history : forall i, spec_ok i (model i) = true.
Proof.
  intro i. unfold spec_ok, model. cbn [fst snd]. rewrite spec_holds_on_model, map_length, Nat.eqb_refl.
  induction (i_hist i); cbn; auto.
Qed.

(* The client before commit ab71de6 (schema compared before any batch is read)
   violated (5): an init handler error, framed by the server with the empty
   schema, came back as TypeError instead of the server's ValueError. *)
Theorem typed_exception_legacy_refuted :
  exists i, sspec_ok i (smodel_legacy i) = false /\
            map o_res (smodel_legacy i) = [RErr (ERpc type_error)] /\
            map o_res (smodel i) = [RErr (ERpc (str "ValueError"))].
Proof. exists w_init_raise. vm_compute. auto. Qed.

(* Scope of (1): it is a statement about exchange streams.  A producer stream
   re-POSTs the same cursor when Next is called again after a failed turn. *)
Theorem producer_cursor_retried :
  exists i, i_exchange i = false /\ ~ NoDup (posted_cursors (smodel i)).
Proof.
  exists w_prod_retry. split; [reflexivity|]. intro H. apply nodupb_NoDup in H. vm_compute in H. discriminate.
Qed.

(* non-vacuity: a 3-turn exchange stream whose 2nd turn is cut inside the last
   message meets the premises of (2); those of (3), (5) and (4) are met below *)
Example premises_poison_satisfiable :
  i_exchange w_exch_fault = true /\
  exists r0 r1 r r3 r4, smodel w_exch_fault = r0 :: [r1] ++ r :: [r3; r4] /\
                        o_posts r <> [] /\ is_err (o_res r) = true.
Proof. split; [reflexivity|]. vm_compute. do 5 eexists. split; [reflexivity|]. split; [discriminate|reflexivity]. Qed.

Example premises_exchange_returns_satisfiable :
  exists r p it, nth_error (i_ops w_exch_fault) 0 = Some (OpExchange 1%Z false) /\
    nth_error (tl (smodel w_exch_fault)) 0 = Some r /\ o_posts r = [p] /\ good p = true /\
    items_of true (p_frames p) = [it] /\ has_token (p_frames p) = true /\ it = (1%N, 11%Z, [(str "k", str "v")]).
Proof. do 3 eexists. split; [reflexivity|]. split; [vm_compute; reflexivity|]. vm_compute. repeat split. Qed.

Example premises_exception_satisfiable :
  exists r p, In r (smodel w_init_raise) /\ In p (o_posts r) /\ seen p = true /\
              first_exc (p_frames p) = Some (str "ValueError").
Proof. do 2 eexists. split; [vm_compute; left; reflexivity|]. split; [left; reflexivity|]. vm_compute. auto. Qed.

Example premises_producer_satisfiable :
  i_exchange w_prod_retry = false /\ no_lossy (smodel w_prod_retry) = true /\
  returned (smodel w_prod_retry) = [(1%N, 1%Z, []); (1%N, 2%Z, [])].
Proof. vm_compute. auto. Qed.
