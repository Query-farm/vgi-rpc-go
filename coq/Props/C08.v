(* Props/C08.v — property C08: values survive Arrow serialization for every
   supported field type.  The lemmas the proofs rest on are in Proofs/C08.v.

   [enc t] is the serializer (buildArray / appendToBuilder) and [dec t] the
   deserializer (setFieldFromArrow) at the wire-VALUE level for a field of type
   [t] = Go type + the Arrow type its vgirpc tag selects.  [trunc t x] is the
   normal form of a Go value at the documented precision (instants floored to
   the column's timestamp unit, which is the microsecond for every column a
   vgirpc tag derives, the UTC calendar day, the time of day to the
   microsecond, four decimal places, whole microseconds for durations) with nil
   and empty collections identified.
   [val_ok t x]: x is a Go value of the field's Go type that is representable in
   the field's wire type.  [wire_ok t w]: w is in the field's wire domain.
   [ty_ok t]: the field types covered (no pointer to pointer, no nullable map
   key, positive fixed widths; timestamps in all four Arrow units). *)
From VR Require Import Model.C08 Proofs.C08.
Open Scope Z_scope.

(* The property, Go value -> wire -> Go value, for every covered field type
   (scalars, pointers, lists, maps, nested structs to ANY depth) and every
   representable value: serializing cannot fail and decoding yields the value's
   normal form.  Induction over the type, lists and maps of any length. *)
Theorem value_survives : forall t x,
  ty_ok t = true -> val_ok t x = true ->
  exists w, enc t x = Some w /\ dec t w = Some (trunc t x).
Proof. intros t x Ht. exact (round_trip_exists _ _ _ _ x (g2w t Ht)). Qed.

(* The converse over the WHOLE wire domain: every wire value of the field's
   wire type decodes to a Go value that serializes back to exactly it. *)
Theorem wire_value_survives : forall t w,
  ty_ok t = true -> wire_ok t w = true ->
  exists x, dec t w = Some x /\ enc t x = Some w.
Proof. intros t w Ht. exact (round_trip_exists _ _ _ _ w (w2g t Ht)). Qed.

(* The scalar facts behind it, over the whole wire domains, with the exact
   guards the Go arithmetic needs. *)
Theorem timestamp_whole_int64_range : forall u v,
  in64 v = true ->
  enc_ts u (fst (dec_ts u v)) (snd (dec_ts u v)) = v.
Proof. exact ts_enc_dec. Qed.

(* an instant comes back floored to the column's unit, provided its count in
   that unit fits int64: always for seconds of an int64 Unix time; for
   nanoseconds this is Go's UnixNano window 1677-09-21 .. 2262-04-11 *)
Theorem timestamp_truncates_to_unit : forall u s n,
  time_ok s n = true -> in64 (ts_raw u s n) = true ->
  dec_ts u (enc_ts u s n) = (s, ts_trunc u n).
Proof. exact ts_dec_enc. Qed.

Theorem date_whole_int32_range : forall d, in32 d = true -> enc_date (fst (dec_date d)) = d.
Proof. exact date_enc_dec. Qed.

Theorem date_is_floor_utc_day : forall s,
  in32 (s / DAY) = true -> dec_date (enc_date s) = (s / DAY * DAY, 0).
Proof. exact date_dec_enc. Qed.

Theorem time_of_day_whole_domain : forall v,
  0 <= v < DAY * E6 -> enc_time (fst (dec_time v)) (snd (dec_time v)) = v.
Proof. exact time_enc_dec. Qed.

Theorem time_of_day_kept : forall s n,
  time_ok s n = true -> dec_time (enc_time s n) = (s mod DAY, n / E3 * E3).
Proof. exact time_dec_enc. Qed.

(* durations: every Go duration survives (to whole microseconds), and its wire
   value lies inside the guard under which a wire value survives *)
Theorem duration_survives : forall n,
  in64 n = true -> dec_dur (enc_dur n) = Z.quot n E3 * E3 /\ dur_guard (enc_dur n) = true.
Proof.
  intros n H. split; [now apply dur_dec_enc|].
  unfold in64, dur_guard, enc_dur in *. consts. eu.
Qed.

Theorem duration_wire_within_guard : forall v, dur_guard v = true -> enc_dur (dec_dur v) = v.
Proof. exact dur_enc_dec. Qed.

(* ... and outside that guard (wire values no time.Duration can hold) the
   decoder wraps silently: recorded, not a violation of the Go-value property *)
Theorem duration_wire_beyond_guard_refuted :
  exists v, in64 v = true /\ dur_guard v = false /\ enc_dur (dec_dur v) <> v.
Proof. exists (2 ^ 63 - 1). repeat split; vm_compute; discriminate. Qed.

Theorem integer_survives : forall g a x,
  irange g x = true -> irange a x = true ->
  dec_int g a (enc_int g a x) = x /\ enc_int g a (dec_int g a x) = x.
Proof. intros g a x Hg Ha. split; [now apply int_dec_enc | now apply int_enc_dec]. Qed.

(* decimal128(precision, scale): every column value is the parse of its text *)
Theorem decimal_whole_domain : forall n, dec_fits n = true -> parse_dec (fmt_dec n) = Some n.
Proof. intros n H. apply parse_fmt; [exact H | exact SC_nonzero]. Qed.

(* NAMED Go types (type Priority string, with or without methods): whatever
   methods the type carries — String() on the value or the pointer receiver,
   an identity String(), Error(), MarshalText() — the wire value, the decoded
   value, its normal form, representability and the derived schema are those of
   the same named type with any other method set ... *)
Theorem roundtrip_ignores_methods : forall m m' t,
  (forall x, enc (TNamed m t) x = enc (TNamed m' t) x)
  /\ (forall w, dec (TNamed m t) w = dec (TNamed m' t) w)
  /\ (forall x, trunc (TNamed m t) x = trunc (TNamed m' t) x)
  /\ (forall x, val_ok (TNamed m t) x = val_ok (TNamed m' t) x)
  /\ arrow_of (TNamed m t) = arrow_of (TNamed m' t)
  /\ ty_ok (TNamed m t) = ty_ok (TNamed m' t).
Proof. repeat split; reflexivity. Qed.

(* ... and, for every leaf kind (integers, floats, bool, strings, enums,
   decimal text, binaries, date / timestamp / time / duration), exactly those of
   the UNDERLYING type: the round trip is the identity on the underlying value
   (value_survives covers TNamed through ty_ok). *)
Theorem named_type_is_its_underlying_value : forall m t,
  named_enc_ok t = true ->
  (forall x, enc (TNamed m t) x = enc t x) /\ (forall w, dec (TNamed m t) w = dec t w)
  /\ (forall x, trunc (TNamed m t) x = trunc t x) /\ arrow_of (TNamed m t) = arrow_of t.
Proof. intros m t H. repeat split; try reflexivity. intro x. cbn [enc]. now rewrite H. Qed.

(* Repaired by d741a8f: before it the serializer refused every value of a named
   integer / float / bool and of a named []byte in a plain binary column
   (exact-type switches), and a named time / duration field could not be decoded. *)
Theorem named_kind_refused_legacy_refuted : forall m,
  (forall g a z, enc_named_legacy (TInt g a) (GInt z) = None)
  /\ (forall b, enc_named_legacy TBool (GBool b) = None)
  /\ (forall is64 b, enc_named_legacy (TFlt is64) (GFlt b) = None)
  /\ (forall np b, enc_named_legacy (TBin BBin) (GBytes np b) = None)
  /\ (forall w, dec_named_legacy TDur w = None)
  /\ (ty_ok (TNamed m (TInt I32 I32)) = true /\ val_ok (TNamed m (TInt I32 I32)) (GInt 5) = true
      /\ enc_named_legacy (TInt I32 I32) (GInt 5) = None
      /\ obind (dec (TNamed m (TInt I32 I32))) (enc (TNamed m (TInt I32 I32)) (GInt 5)) = Some (GInt 5))
  /\ (val_ok (TNamed m TDur) (GDur 7000) = true
      /\ obind (dec_named_legacy TDur) (enc_named_legacy TDur (GDur 7000)) = None
      /\ obind (dec (TNamed m TDur)) (enc (TNamed m TDur) (GDur 7000)) = Some (GDur 7000)).
Proof. repeat split; vm_compute; reflexivity. Qed.

(* the derived schema is a function of the field type *)
Theorem schema_is_function : forall t1 t2, t1 = t2 -> arrow_of t1 = arrow_of t2.
Proof. now intros t1 t2 ->. Qed.

(* The decidable form evaluated on the implementation's observables. *)
Theorem spec_holds_on_model : forall i, input_ok i = true -> spec_ok i (model i) = true.
Proof.
  intros [t x | t w]; unfold input_ok, input_ty, spec_ok, model;
    cbn [o_schema o_schema2 o_schema3 o_go o_wire]; intro Ht; rewrite !aty_eqb_refl; cbn [andb].
  - destruct (val_ok t x) eqn:Hv; [|reflexivity]. rewrite (g2w t Ht x Hv). apply gv_eqb_refl.
  - destruct (wire_ok t w) eqn:Hw; [|reflexivity]. rewrite (w2g t Ht w Hw). apply wv_eqb_refl.
Qed.

(* Repaired by a42abbb: before it, setMapField never looked at the item's
   validity bit and a nil pointer map item came back as a pointer to zero. *)
Theorem map_null_item_legacy_refuted :
  ty_ok map_null_ty = true /\ val_ok map_null_ty map_null_val = true /\
  obind (dec_map_legacy (TStr SUtf8) (TPtr (TInt I64 I64))) (enc map_null_ty map_null_val)
  = Some (GMap false [(GBytes false (str "a"), GPtr (GInt 0))]) /\
  obind (dec_map_legacy (TStr SUtf8) (TPtr (TInt I64 I64))) (enc map_null_ty map_null_val)
  <> Some (trunc map_null_ty map_null_val) /\
  obind (dec map_null_ty) (enc map_null_ty map_null_val) = Some (trunc map_null_ty map_null_val).
Proof. repeat split; try (vm_compute; reflexivity). vm_compute. discriminate. Qed.

(* Repaired by 28fd5be: before it, the serializer wrote UnixMicro whatever unit
   the column declared while the deserializer honoured the unit. *)
Theorem timestamp_unit_legacy_refuted : forall u, u <> UMicro ->
  exists s n, val_ok (TTs u false) (GTime s n) = true /\
    dec_ts u (enc_ts_legacy u s n) <> (s, ts_trunc u n) /\
    dec_ts u (enc_ts u s n) = (s, ts_trunc u n).
Proof.
  intros u H. exists 1700000000, 123456789.
  destruct u; try contradiction; (split; [reflexivity|]); split; vm_compute; (discriminate || reflexivity).
Qed.

(* The two defects repaired by b1d6d23 / 5236ebf, with the pre-fix arithmetic. *)
Theorem timestamp_legacy_refuted :
  exists v, in64 v = true /\
    unix_micro (fst (dec_ts_legacy UMicro v)) (snd (dec_ts_legacy UMicro v)) <> v.
Proof. exists (-62135596800000000). split; vm_compute; [reflexivity | discriminate]. Qed.

Theorem date_legacy_refuted :
  (exists s n, time_ok s n = true /\ in32 (s / DAY) = true /\ enc_date_legacy s n <> s / DAY)
  /\ enc_date_legacy (-43200) 0 = 0 /\ enc_date (-43200) = -1
  /\ enc_date_legacy (-62135596800) 0 = -106751 /\ enc_date (-62135596800) = -719162.
Proof.
  split; [exists (-43200), 0; repeat split; vm_compute; try reflexivity; discriminate|].
  repeat split; vm_compute; reflexivity.
Qed.

(* non-vacuity: a covered type with every kind of field, and a representable value of it *)
Example premises_satisfiable :
  let t := TStruct [TInt I64 I32; TPtr (TStr SEnum); TList (TPtr TDate); TMap (TStr SUtf8) (TList (TInt U16 U16));
                    TStruct [TTs UMicro true; TTime; TDur; TDec; TBin (BFix 2)];
                    TMap (TInt I32 I32) (TPtr (TStr SUtf8)); TTs UMilli false; TTs UNano false; TTs USec false;
                    TMap (TNamed (Build_meths true false false false false) (TStr SUtf8))
                         (TPtr (TNamed (Build_meths false true false true true) (TStr SUtf8)));
                    TList (TNamed (Build_meths true false false false false) (TStr SEnum));
                    TList (TPtr (TNamed (Build_meths true false false false false) (TInt I32 I16)));
                    TNamed (Build_meths true false false false false) TDur] in
  let x := GStruct [GInt (-5); GNil; GList true [GNil; GPtr (GTime (-43200) 999)];
                    GMap false [(GBytes false (str "k"), GList false [GInt 65535])];
                    GStruct [GTime (-62135596800) 1999; GTime 86399 999999999; GDur (-1999);
                             GBytes false (str "-0.05"); GBytes false (str "ab")];
                    GMap true [(GInt 7, GNil); (GInt 9, GPtr (GBytes false (str "v")))];
                    GTime (-43200) 999999999; GTime (-9223372037) 145224192; GTime (-62135596800) 5;
                    GMap false [(GBytes false (str "high"), GNil); (GBytes false (str "low"), GPtr (GBytes false (str "x")))];
                    GList false [GBytes false (str "high"); GBytes false []];
                    GList false [GNil; GPtr (GInt (-32768))]; GDur (-1)] in
  ty_ok t = true /\ val_ok t x = true /\ trunc t x <> x.
Proof. repeat split; try (vm_compute; reflexivity). vm_compute. discriminate. Qed.
