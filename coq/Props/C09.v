(* Props/C09.v — property C09: the __describe__ response lists every registered
   method exactly once in sorted order with the type, flags and schema bytes of
   the registration in force; its protocol hash is a function of that surface
   only (independent of registration order), the bytes hashed are the reference
   framing of the decoded rows, and pipe and HTTP serve the same response.
   The lemmas the proofs rest on are in Proofs/C09.v.

   [H] stands for lower-hex SHA-256.  It is universally quantified: nothing at
   all is assumed about it, the theorems are about the payload it is applied to.
   Arrow schema IPC encodings are opaque byte strings. *)
From Coq Require Import Sorting.Sorted Sorting.Permutation.
From VR Require Import Model.C09 Proofs.C09.

(* buildDescribeBatch never indexes s.methods with a missing name, whatever was
   registered, in whatever order, with whatever repeated names. *)
Theorem describe_total : forall H g regs, build_describe H g regs <> None.
Proof. intros H g regs. unfold build_describe. rewrite describe_ents_total. discriminate. Qed.

(* Rows are strictly sorted by name in Go string order (hence no name twice); the
   names listed are exactly the registered names; and a row is in the response
   iff it is the contract row [spec_row] of the LAST registration made under its
   name (method type, has_return, params / result-or-output / header bytes,
   has_header, null is_exchange). Any number of registrations, any names. *)
Theorem describe_sorted_each_once : forall regs,
  StronglySorted (fun a b => bltb a b = true) (map w_name (describe_rows regs))
  /\ NoDup (map w_name (describe_rows regs))
  /\ (forall n, In n (map w_name (describe_rows regs)) <-> In n (map rc_name regs))
  /\ (forall w, In w (describe_rows regs) <->
                exists c, last_reg (w_name w) regs = Some c /\ w = spec_row c).
Proof. exact rows_sorted_each_once. Qed.

(* The whole response — rows, metadata, and the bytes that are hashed — is a
   function of (service name, server id, protocol version, name |-> registration
   in force) and of nothing else: not of the order of registration, not of
   overwritten registrations, not of map iteration order. *)
Theorem describe_depends_only_on_surface : forall H g regs1 regs2,
  (forall n, last_reg n regs1 = last_reg n regs2) ->
  build_describe H g regs1 = build_describe H g regs2
  /\ describe_rows regs1 = describe_rows regs2
  /\ describe_payload g regs1 = describe_payload g regs2.
Proof. exact describe_ext. Qed.

(* Registration-order independence: any permutation of registrations with
   pairwise distinct names yields the identical response and hash payload. *)
Theorem describe_perm_invariant : forall H g regs1 regs2,
  Permutation regs1 regs2 -> NoDup (map rc_name regs1) ->
  build_describe H g regs1 = build_describe H g regs2
  /\ describe_rows regs1 = describe_rows regs2
  /\ describe_payload g regs1 = describe_payload g regs2.
Proof. exact perm_invariant. Qed.

(* The bytes computeProtocolHash feeds to SHA-256 (written from the parallel
   slices built inside the loop) equal the reference framing computed from the
   DECODED rows of the same response: a client can recompute the hash from what
   it received. *)
Theorem payload_matches_reference : forall g regs,
  describe_payload g regs = ref_payload (protocol_name g) (describe_rows regs).
Proof. exact payload_reference. Qed.

(* Pipe and HTTP serve the same batch and metadata; HTTP with status 200. *)
Theorem pipe_http_same : forall H g regs,
  http_describe H g regs = (200%Z, pipe_describe H g regs).
Proof. exact pipe_http_same. Qed.

(* The property in the decidable form evaluated on the implementation's
   observables holds of the model, for every digest function. *)
Theorem spec_holds_on_model : forall H i, spec_ok i (model_with H i) = true.
Proof. exact model_meets_spec. Qed.

(* ... and conversely spec_ok is not a weak check: an observation it accepts
   carries exactly the rows dictated by the registrations, a hashed payload that
   is the reference framing of those rows under the advertised protocol name,
   and an HTTP response identical to the pipe response. *)
Theorem spec_ok_pins_response : forall i o,
  spec_ok i o = true ->
  exists p, o_pipe o = Some p
    /\ r_rows p = describe_rows (i_regs i)
    /\ o_payload o = Some (ref_payload (meta_get c09_k_protocol_name (r_meta p)) (r_rows p))
    /\ o_http o = Some p.
Proof. exact spec_ok_sound. Qed.

(* Histories on one server: registrations and setters interleaved, in any order
   and number, with describe requests over either transport, Server.ProtocolHash() calls and dispatched
   calls.  What a describe request is answered depends on the surface in force
   at that moment only — not on earlier describes, not on whether or when the
   digest was first computed. *)
Theorem history_describe_is_surface_describe : forall H st ops1 d ops2,
  is_describe d = true ->
  nth (length ops1) (hist_run H st (ops1 ++ d :: ops2)) BNone
  = let s := surface_after (h_surface st) ops1 in
    desc_obs H s 200 (build_describe H (fst s) (snd s)).
Proof.
  intros H st ops1 d ops2 Ed. revert st. induction ops1 as [|o t IH]; intro st; cbn [app hist_run length].
  - now rewrite (hstep_describe H st d Ed).
  - pose proof (hstep_surface H st o) as Hs. destruct (hstep H st o) as [st' b].
    cbn [nth fst] in *. now rewrite IH, Hs.
Qed.

(* ... and the surface is what the registrations and setters alone produce *)
Theorem surface_ignores_observers : forall ops s,
  surface_after s ops = surface_after s (filter is_mutator ops).
Proof.
  induction ops as [|o t IH]; intro s; [reflexivity|].
  cbn [filter]. destruct (is_mutator o) eqn:E; cbn [surface_after fold_left].
  - apply IH.
  - rewrite (apply_mut_observer s o E). apply IH.
Qed.

(* ... so the describe served after any history equals the describe of a
   brand-new server that was given only the registrations and setters of that
   history (rows, metadata, digest and hashed payload alike). *)
Theorem history_describe_equals_fresh_server : forall H ops1 d ops2,
  is_describe d = true ->
  nth (length ops1) (hist_run H h_init (ops1 ++ d :: ops2)) BNone
  = nth (length (filter is_mutator ops1))
        (hist_run H h_init (filter is_mutator ops1 ++ [ODescPipe])) BNone.
Proof.
  intros H ops1 d ops2 Ed. rewrite (history_describe_is_surface_describe H h_init ops1 d ops2 Ed).
  rewrite (history_describe_is_surface_describe H h_init (filter is_mutator ops1) ODescPipe [] eq_refl).
  cbn zeta. now rewrite <- surface_ignores_observers.
Qed.

(* HttpServer-level configuration (SetProtocolName, SetPrefix, SetRepoURL, page
   toggles, CORS ...) is not an input of describe: as a history op it leaves the
   surface alone (so the three theorems above hold with such ops anywhere in
   ops1), and as static configuration it does not change any observation. *)
Theorem http_front_end_settings_irrelevant :
  (forall s k v, apply_mut s (OHttpSet k v) = s)
  /\ (forall H cfg regs regs2 sub hist hc1 hc2,
        model_with H (Build_input cfg regs regs2 sub hist hc1)
        = model_with H (Build_input cfg regs regs2 sub hist hc2)).
Proof. split; [intros [g regs] k v; reflexivity | reflexivity]. Qed.

(* every describe observation of every history meets the per-response spec
   (sorted, each once, contract rows, payload = reference framing, digest = that
   of a fresh server with the same surface) *)
Theorem history_meets_spec : forall H ops st,
  hist_ok (h_surface st) ops (hist_run H st ops) = true.
Proof. exact hist_ok_model. Qed.

(* A describe that stamps a digest memoized at first use and shared with
   ProtocolHash() violates the property: after describe; register; describe the
   second response carries the digest of the first surface. *)
Theorem memoized_hash_refuted :
  exists ops, hist_ok surface0 ops (hist_run_memo (fun p => p) h_init ops) = false.
Proof.
  exists [OReg (RUnaryVoid (str "a") []); ODescPipe; OReg (RUnaryVoid (str "b") []); ODescHTTP].
  vm_compute. reflexivity.
Qed.

(* Sharpness: the distinct-names premise of describe_perm_invariant cannot be
   dropped — with a name registered twice the last registration wins, so order
   matters (this is the map-overwrite behaviour of the code, not a defect). *)
Theorem perm_invariance_without_distinct_names_refuted :
  exists regs1 regs2, Permutation regs1 regs2 /\ describe_rows regs1 <> describe_rows regs2.
Proof.
  exists [RUnaryVoid (str "m") []; RUnary (str "m") [] []],
         [RUnary (str "m") [] []; RUnaryVoid (str "m") []].
  split; [apply perm_swap|]. vm_compute. discriminate.
Qed.

(* non-vacuity: a concrete three-method surface in two different orders meets
   the premises of describe_perm_invariant (and the harness-side perm_check) *)
Example premises_satisfiable :
  let regs1 := [RProducerH (str "b") [1] [2] (Some [3]); RUnary (str "a") [4] [5]; RDynamicH (str "B") [6] None] in
  let regs2 := [RDynamicH (str "B") [6] None; RProducerH (str "b") [1] [2] (Some [3]); RUnary (str "a") [4] [5]] in
  Permutation regs1 regs2 /\ NoDup (map rc_name regs1)
  /\ map w_name (describe_rows regs1) = [str "B"; str "a"; str "b"]
  /\ perm_check regs1 regs2 = true.
Proof.
  cbn zeta. split; [|split; [|split]].
  - apply Permutation_sym. apply (Permutation_cons_app [_; _] [] _). reflexivity.
  - apply (Lib.Lists.nodupb_by_NoDup beqb beqb_eq). vm_compute. reflexivity.
  - vm_compute. reflexivity.
  - vm_compute. reflexivity.
Qed.

(* the code as it is: the ProtocolHash() ACCESSOR (access-log field) keeps the
   digest of the surface at its first use; only __describe__ follows the live
   surface.  Not an obligation of C09, recorded so that the model's cache is
   seen to be exercised. *)
Example accessor_keeps_first_use :
  exists ops b1 b2, hist_run (fun p => p) h_init ops = [BNone; BHash b1; BNone; BHash b2; BNone]
    /\ b1 = b2 /\ b2 <> payload_of (surface_after surface0 ops).
Proof.
  exists [OReg (RUnaryVoid (str "a") []); OHash; OReg (RUnaryVoid (str "b") []); OHash; OCall (str "a")].
  eexists. eexists. split; [vm_compute; reflexivity|]. split; [reflexivity|]. vm_compute. discriminate.
Qed.
