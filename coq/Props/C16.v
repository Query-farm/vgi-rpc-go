(* Props/C16.v — property C16: HTTP continuations advance the stream exactly one turn.
   The lemmas are in Proofs/C16.v. Model: Model/C16.v (DESIGN: HttpTurn).

   [handle leaks i minted o] is one POST /{method}/exchange against input i's
   scripted exchange stream, when [minted] lists the cursors handed out so far
   (k-th cursor |-> the script position it seals); it returns the response and
   the new list. The one-request theorems hold for EVERY [minted], hence in
   every state any history of requests can reach; [gate] is the refusal
   sequence of handleStreamExchange. leaks = false is the current code. *)
From VR Require Import Model.C16 Proofs.C16.
From VR Require Model.C04.
Open Scope N_scope.

(* An accepted exchange continuation whose turn validates returns exactly one data
   batch and no error; the LAST stream-state value on that batch (and on no other
   batch) is a cursor with a label no cursor had before; that cursor seals the
   post-turn state p+1; exactly one Exchange ran, at the presented position. *)
Theorem ok_turn_one_data_batch_fresh_cursor : forall leaks i minted o p,
  gate i minted o = VAccept p -> cancelled o = false -> i_prod i = false -> act_ok (t_act (turn_at i p)) = true ->
  let r := fst (handle leaks i minted o) in
  let minted' := snd (handle leaks i minted o) in
  r_status r = 200%Z /\ r_errhdr r = false
  /\ count is_data (r_frames r) = 1%nat /\ count is_exc (r_frames r) = 0%nat
  /\ cursor_on_data (r_frames r) (r_curs r) (VCur (length minted)) = true
  /\ nth_error minted (length minted) = None
  /\ minted' = minted ++ [p + 1] /\ nth_error minted' (length minted) = Some (p + 1) /\ r_pos r = Some (p + 1)
  /\ r_trace r = [TEx p (insum (o_body o))].
Proof.
  intros leaks i minted o p A C PR K.
  destruct (turn_ok_shape false (turn_at i p) (insum (o_body o)) K) as (fs & uc & E & D & X & _).
  rewrite (handle_validated leaks i minted o p fs uc A C PR E). proj.
  repeat split; try assumption; try reflexivity.
  - apply cursor_on_data_curs_of.
  - apply nth_error_None, le_n.
  - rewrite nth_error_app2 by apply le_n. now rewrite Nat.sub_diag.
Qed.

(* Where the cursor is, batch by batch: the response of a validated exchange turn is the logs
   raised before the Emit, THE data batch, the logs raised after the Emit, in that order; the data
   batch carries the emit metadata's stream-state values followed by the fresh cursor, and no log
   batch — before or after — carries any. *)
Theorem ok_turn_cursor_on_the_data_batch_not_on_a_log : forall leaks i minted o p,
  gate i minted o = VAccept p -> cancelled o = false -> i_prod i = false -> act_ok (t_act (turn_at i p)) = true ->
  let r := fst (handle leaks i minted o) in
  let t := turn_at i p in
  exists d uc, is_data d = true
    /\ r_frames r = map (C04.log_frame []) (t_logs t) ++ [d] ++ map (C04.log_frame []) (t_late t)
    /\ r_curs r = map (fun _ => []) (t_logs t) ++ [uc ++ [VCur (length minted)]] ++ map (fun _ => []) (t_late t).
Proof.
  intros leaks i minted o p A C PR K.
  destruct (turn_ok_order false (turn_at i p) (insum (o_body o)) K) as (n & v & um & uc & _ & E).
  rewrite (handle_validated leaks i minted o p _ uc A C PR E). proj.
  exists (FData n v um), uc. split; [reflexivity|]. split; [reflexivity|].
  unfold curs_of. now rewrite !map_app, !map_map.
Qed.

(* A producer continuation (producer batch limit 1): exactly one Produce at the presented position,
   shown the request metadata minus the framework keys; in the decidable form [spec_produce]: the
   turn's own batches carry no token, a validated turn has exactly one data batch and is followed by
   ONE zero-row batch carrying exactly the fresh cursor, a finished or failed turn returns no cursor. *)
Theorem producer_continuation_one_produce_cursor_on_its_own_batch : forall leaks i minted o p,
  gate i minted o = VAccept p -> cancelled o = false -> i_prod i = true ->
  let r := fst (handle leaks i minted o) in
  spec_produce (turn_at i p) (VCur (length minted)) p r = true
  /\ r_trace r = [TProd p]
  /\ r_seen r = Some (seen_prod (filter (fun kv => negb (is_fw (fst kv))) (o_meta o)))
  /\ learn minted r = snd (handle leaks i minted o).
Proof.
  intros leaks i minted o p A C PR. rewrite (handle_producer leaks i minted o p A C PR).
  destruct (produce_spec i minted p (seen_prod (strip (o_meta o))) [] false (strip (o_meta o))) as (SP & L & T & SN & _ & _).
  repeat split; assumption.
Qed.

(* Freshness in terms of token bytes, for every AEAD that opens what it sealed and whose
   ciphertext determines nonce and plaintext (ideal AEAD), nonces never repeated (the
   mint counter stands for crypto/rand): the new cursor opens to the post-turn state
   and differs from every cursor minted before, in particular from the one presented. *)
Theorem fresh_cursor_is_a_new_token : forall (token : Type) (seal : N -> N -> token) (open : token -> option N),
  (forall n s, open (seal n s) = Some s) ->
  (forall n s n' s', seal n s = seal n' s' -> n = n' /\ s = s') ->
  forall leaks i minted o p,
  gate i minted o = VAccept p -> cancelled o = false -> i_prod i = false -> act_ok (t_act (turn_at i p)) = true ->
  exists t, wire token seal (snd (handle leaks i minted o)) (length minted) = Some t
    /\ open t = Some (p + 1)
    /\ (forall k t', wire token seal minted k = Some t' -> t <> t').
Proof.
  intros token seal open open_seal seal_inj leaks i minted o p A C PR K.
  destruct (ok_turn_one_data_batch_fresh_cursor leaks i minted o p A C PR K) as (_ & _ & _ & _ & _ & _ & M & Nn & _ & _).
  exists (seal (N.of_nat (length minted)) (p + 1)). unfold wire at 1. rewrite Nn. cbn [option_map].
  split; [reflexivity|]. split; [apply open_seal|]. intros k t' W. now apply (fresh_token token seal seal_inj) with (k := k).
Qed.

(* A failed turn (error, panic, no data batch, second data batch, Finish on an exchange
   stream): the error status, exactly one EXCEPTION batch, no cursor anywhere, nothing
   minted — the stream has no continuation. *)
Theorem failed_turn_error_no_cursor : forall leaks i minted o p,
  gate i minted o = VAccept p -> cancelled o = false -> i_prod i = false -> act_ok (t_act (turn_at i p)) = false ->
  let r := fst (handle leaks i minted o) in
  r_status r = 200%Z /\ r_errhdr r = true
  /\ (exists ty msg, r_frames r = [FExc ty msg [] []])
  /\ no_cursor r = true /\ snd (handle leaks i minted o) = minted
  /\ r_trace r = [TEx p (insum (o_body o))].
Proof.
  intros leaks i minted o p A C PR K.
  destruct (turn_err_shape (turn_at i p) (insum (o_body o)) K) as (ty & msg & E).
  rewrite (handle_failed leaks i minted o p _ A C PR E). proj.
  repeat split; try reflexivity. now exists ty, msg.
Qed.

(* A turn that EMITS its data batch and THEN fails (returns an error or panics) is a failed turn like
   any other — the Emit before the failure changes nothing: failed_turn_error_no_cursor and
   producer_continuation_one_produce_cursor_on_its_own_batch apply to it (act_ok = act_fin = false). *)
Theorem emit_then_fail_is_the_failed_turn : forall prod t t' f x,
  t_act t = AEmitErr f -> t_act t' = AErr f ->
  turn prod t x = turn prod t' x /\ act_ok (t_act t) = false /\ act_fin (t_act t) = false
  /\ turn prod t x = TRErr (FExc (C04.exc_type f) (turn_exc_msg f) [] []).
Proof. intros prod t t' f x A B. unfold turn. rewrite A, B. repeat split; reflexivity. Qed.
Example emit_then_panic_no_cursor_exchange_and_producer :
  (exists r1 r2 r3, model (emit_panic_witness false) = [init_resp; r1; r2; r3]
     /\ r_frames r1 = [FExc exc_runtime_error (C04.rpc_error_text exc_runtime_error (str "kaboom")) [] []]
     /\ r_errhdr r1 = true /\ no_cursor r1 = true /\ r_frames r2 = r_frames r1 /\ no_cursor r2 = true
     /\ r_status r3 = 400%Z)
  /\ (exists r0 r1, model (emit_panic_witness true) = [r0; r1; r1; r1]
       /\ r_frames r0 = [FExc exc_runtime_error (C04.rpc_error_text exc_runtime_error (str "kaboom")) [] []]
       /\ no_cursor r0 = true /\ r_hascall r0 = false /\ r_status r1 = 400%Z).
Proof.
  split.
  - eexists; eexists; eexists. split; [reflexivity|]. repeat split; reflexivity.
  - eexists; eexists. split; [reflexivity|]. repeat split; reflexivity.
Qed.

(* A cancel continuation: the cancel hook exactly once when the state has one (whatever
   the hook does), no Produce / Exchange, an empty stream, no cursor, nothing minted. *)
Theorem cancel_hook_once_empty_stream_no_cursor : forall leaks i minted o p,
  gate i minted o = VAccept p -> cancelled o = true ->
  let r := fst (handle leaks i minted o) in
  r_status r = 200%Z /\ r_errhdr r = false /\ r_frames r = [] /\ no_cursor r = true
  /\ snd (handle leaks i minted o) = minted
  /\ r_trace r = (if has_canceller (i_cancel i) then [TCancel p] else [])
  /\ r_seen r = None.
Proof. intros leaks i minted o p A C. rewrite (handle_cancelled leaks i minted o p A C). proj. repeat split; reflexivity. Qed.

(* A refused request runs no user code and returns no cursor. *)
Theorem refused_request_runs_nothing : forall leaks i minted o e,
  gate i minted o = VRefuse e ->
  let r := fst (handle leaks i minted o) in
  r_status r = 400%Z /\ r_trace r = [] /\ r_seen r = None /\ no_cursor r = true
  /\ snd (handle leaks i minted o) = minted.
Proof. intros leaks i minted o e A. rewrite (handle_refused leaks i minted o e A). proj. repeat split; reflexivity. Qed.

(* handler_meta = filter (not framework key) request_meta; on the current code the input
   batch's own metadata is the same list. *)
Theorem handler_meta_is_request_meta_minus_framework_keys : forall leaks i minted o p,
  gate i minted o = VAccept p -> cancelled o = false -> i_prod i = false ->
  exists s, r_seen (fst (handle leaks i minted o)) = Some s
    /\ sn_meta s = filter (fun kv => negb (is_fw (fst kv))) (o_meta o)
    /\ sn_leak s = false
    /\ (leaks = false -> forall b, sn_batch s = Some b -> b = sn_meta s).
Proof. exact handler_meta. Qed.

(* order preserved: stripping is a list homomorphism that keeps or drops single entries *)
Theorem strip_preserves_order : forall a b, strip (a ++ b) = strip a ++ strip b.
Proof. intros a b. apply filter_app. Qed.
Theorem strip_single : forall kv, strip [kv] = if is_fw (fst kv) then [] else [kv].
Proof. intros kv. unfold strip, keep; cbn [filter]. now destruct (is_fw (fst kv)). Qed.
(* the regenerated key table contains the token, call-token and cancel keys; the compiled
   stripFrameworkTickMetadata passed the order probe (vgirpc/verif_c16.go) *)
Theorem framework_keys_cover_tokens_and_cancel :
  is_fw c16_meta_stream_state = true /\ is_fw c16_meta_call_state = true /\ is_fw c16_meta_cancel = true.
Proof. exact fw_keys. Qed.
Theorem compiled_strip_keeps_order : c16_strip_probe_ok = 1%Z.
Proof. reflexivity. Qed.

(* No framework key reaches the handler; when the client put tokens only under framework
   keys, no token reaches it: not in InputMetadata, not on the input batch, not in
   TransportMetadata / Cookies / schema metadata. *)
Theorem no_token_reaches_handler : forall i minted o p s,
  gate i minted o = VAccept p -> cancelled o = false ->
  r_seen (fst (handle false i minted o)) = Some s ->
  (forall kv, In kv (sn_meta s) -> is_fw (fst kv) = false)
  /\ (tokens_proper (o_meta o) = true ->
      no_token (sn_meta s) = true /\ (forall b, sn_batch s = Some b -> no_token b = true) /\ sn_leak s = false).
Proof. intros i minted o p s _ _. apply seen_no_fw_key_no_token. Qed.

(* Following the returned cursors: if request j presents the cursor minted by request
   j-1 (the first one presents the newest cursor so far, sealing p) and the turns
   validate, request j runs exactly one Exchange, at position p+j, and returns the
   cursor of p+j+1: s_p, s_p+1, s_p+2, ... each visited exactly once. *)
Theorem following_cursors_visits_each_state_once : forall leaks i ops, i_prod i = false -> forall pre p,
  follow_all i (length pre) ops -> all_ok i p (length ops) ->
  map r_trace (run leaks i (pre ++ [p]) ops) = visits p ops
  /\ map r_pos (run leaks i (pre ++ [p]) ops) = positions p ops.
Proof.
  intros leaks i ops PR. induction ops as [|o ops IH]; intros pre p F A; cbn [run map visits positions]; [split; reflexivity|].
  destruct F as [F0 F]. destruct A as [A0 A].
  assert (AD : gate i (pre ++ [p]) o = VAccept p).
  { apply (follows_gate i _ (length pre) o p F0). rewrite nth_error_app2 by apply le_n. now rewrite Nat.sub_diag. }
  destruct F0 as (_ & C & _ & _).
  destruct (ok_turn_one_data_batch_fresh_cursor leaks i (pre ++ [p]) o p AD C PR A0) as (_ & _ & _ & _ & _ & _ & M & _ & P & T).
  destruct (handle leaks i (pre ++ [p]) o) as [r m'] eqn:H. cbn [fst snd] in M, P, T. subst m'.
  cbn [map]. rewrite T, P.
  specialize (IH (pre ++ [p]) (p + 1)). rewrite app_length in IH; cbn [length] in IH.
  rewrite Nat.add_1_r in IH. destruct (IH F A) as [I1 I2]. now rewrite I1, I2.
Qed.

(* The property in the decidable form evaluated on the implementation's observables,
   for every script, every cancel hook, cache on or off and every history of requests. *)
Theorem spec_holds_on_model : forall i, spec_ok i (model i) = true.
Proof.
  intros i.
  unfold model, model_gen, spec_ok. destruct (i_prod i) eqn:PR.
  - unfold init_prod.
    destruct (produce_spec i [] 0 (seen_prod init_meta) [TInit] true []) as (SP & L & T & SN & _ & HC).
    destruct (produce_resp i [] 0 (seen_prod init_meta) [TInit] true []) as [r0 m0]. cbn [fst snd] in *.
    unfold spec_init_prod. cbn [length] in SP. rewrite T, SN, HC, SP, L.
    cbn [app list_eqb tr_eqb seen_prod sn_meta sn_batch sn_leak is_none negb andb].
    rewrite N.eqb_refl, rmeta_eqb_refl, Bool.eqb_reflx. cbn [andb]. apply run_ok.
  - replace (spec_init init_resp) with true by reflexivity.
    replace (learn [] init_resp) with [0] by reflexivity. cbn [andb]. apply run_ok.
Qed.

(* Before fix 270d950 the batch handed to Exchange kept the request's full metadata:
   a handler reading it saw the sealed cursor and the call token. *)
Theorem token_on_input_batch_legacy_refuted :
  spec_ok legacy_witness (model_legacy legacy_witness) = false
  /\ exists r s b, nth_error (model_legacy legacy_witness) 1 = Some r /\ r_seen r = Some s /\ sn_batch s = Some b
       /\ In (c16_meta_stream_state, VCur 0) b /\ In (c16_meta_call_state, VCall) b.
Proof. exact legacy_refuted. Qed.

(* A first-match reader (vgirpc.FindStreamTokens) recovers the fresh cursor when the emit
   metadata does not use the stream-state key ... *)
Theorem first_match_reader_finds_fresh_cursor : forall fs fresh,
  (exists f, In f fs /\ is_data f = true) -> fresh <> VLit [] ->
  first_of (curs_of fs [] fresh) = Some fresh.
Proof.
  intros fs fresh (f & Hin & Hd) NE. unfold curs_of. induction fs as [|g fs IH]; [contradiction|].
  cbn [map first_of]. destruct (is_data g) eqn:G.
  - cbn [app head_nonempty]. destruct fresh as [b| |]; try reflexivity. destruct b; [congruence|reflexivity].
  - cbn [head_nonempty]. apply IH. destruct Hin as [->|Hin]; [congruence|exact Hin].
Qed.

(* ... and is shadowed by the handler's value when it does (observation, tagged
   obs-user-meta-shadows-cursor in the harness; premise: user metadata keys do not use
   the vgi_rpc. prefix). The fresh cursor is still the last value on the batch. *)
Example user_emit_metadata_shadows_first_match :
  exists r, nth_error (model shadow_witness) 1 = Some r
    /\ r_curs r = [[VLit (str "user-cursor"); VCur 1]] /\ r_first r = Some (VLit (str "user-cursor")).
Proof. eexists. split; [reflexivity|]. split; reflexivity. Qed.

(* A log raised AFTER the Emit follows the data batch and carries no cursor; the same response with
   the cursor on that log batch and none on the data batch is rejected by the decidable property. *)
Example late_log_follows_data_and_cursor_on_log_is_rejected :
  spec_ok late_witness (model late_witness) = true
  /\ (exists r, nth_error (model late_witness) 1 = Some r
        /\ r_frames r = [FData 1 [6%Z] []; FLog (str "INFO") (str "after-emit") [] []] /\ r_curs r = [[VCur 1]; []])
  /\ spec_ok late_witness (match model late_witness with r0 :: r1 :: rest => r0 :: cursor_on_log r1 :: rest | l => l end) = false.
Proof. split; [now vm_compute|]. split; [eexists; split; [reflexivity|split; reflexivity]|now vm_compute]. Qed.

(* non-vacuity: an accepted validating turn, a failing turn, a cancel and a refusal exist; of the
   follow-the-cursor theorem, [follow_all] is shown for three requests against ex_input and [all_ok]
   for the script that always emits (ex_input's second turn fails; the three requests follow that
   script too, [follows] not looking at the turns) *)
Definition ex_input : input :=
  {| i_turns := [ {| t_logs := []; t_act := AEmit; t_value := 1; t_meta := []; t_peek := true;
                     t_late := [ C04.Build_logmsg (str "INFO") (str "late") [] ] |};
                  {| t_logs := []; t_act := ANoEmit; t_value := 0; t_meta := []; t_peek := false; t_late := [] |} ];
     i_cancel := COk; i_cache := false; i_ops := []; i_prod := false |}.
Definition ex_prod : input :=
  {| i_turns := i_turns ex_input; i_cancel := COk; i_cache := false; i_ops := []; i_prod := true |}.
Definition ex_op (k : nat) (extra : rmeta) : op :=
  {| o_meta := (str "a", VLit (str "1")) :: (c16_meta_stream_state, VCur k) :: (c16_meta_call_state, VCall) :: extra;
     o_body := BData [5%Z] |}.
Example premises_satisfiable :
  gate ex_input [0] (ex_op 0 []) = VAccept 0 /\ cancelled (ex_op 0 []) = false
  /\ act_ok (t_act (turn_at ex_input 0)) = true
  /\ gate ex_input [0; 1] (ex_op 1 []) = VAccept 1 /\ act_ok (t_act (turn_at ex_input 1)) = false
  /\ cancelled (ex_op 0 [(c16_meta_cancel, VLit (str "false"))]) = true
  /\ gate ex_input [0] (ex_op 0 [(c16_meta_cancel, VLit [])]) = VAccept 0
  /\ gate ex_input [0] (ex_op 3 []) = VRefuse exc_runtime_error
  /\ tokens_proper (o_meta (ex_op 0 [])) = true
  /\ follow_all ex_input 0 [ex_op 0 []; ex_op 1 []; ex_op 2 []]
  /\ all_ok {| i_turns := []; i_cancel := CNone; i_cache := true; i_ops := []; i_prod := false |} 0 3
  /\ i_prod ex_input = false
  /\ gate ex_prod [1] {| o_meta := o_meta (ex_op 0 []); o_body := BTick |} = VAccept 1 /\ i_prod ex_prod = true.
Proof. vm_compute. repeat split; auto. Qed.
