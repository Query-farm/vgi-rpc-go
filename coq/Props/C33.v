(* Props/C33.v — property C33: every Upload through the S3 and GCS storage backends
   writes to an object key no other upload has used, for any number of uploads and any
   interleaving, within one process and across processes.

   FULL STATEMENT (not provable as such): for every schedule, NoDup of the keys written.
   What is proved: the key is an injective function of the 122 random bits (for every
   prefix and extension), so the full statement holds EXACTLY when the random source
   never hands out the same 122-bit value twice; that premise is a probabilistic fact
   about crypto/rand (collision chance about n^2 / 2^123) and appears below as the
   explicit hypothesis [NoDup (map mask stream)].  Hence the _partial suffix on the
   schedule theorems.  The lemmas are in Proofs/C33.v. *)
From Coq Require Import Permutation.
From VR Require Import Model.C33 Proofs.C33.

(* The rendered UUID determines all 16 bytes it was rendered from. *)
Theorem uuid_text_injective : forall u v,
  wf_entropy u = true -> wf_entropy v = true -> uuid_text u = uuid_text v -> u = v.
Proof.
  intros u v Wu Wv. apply wf_entropy_spec in Wu as [Lu _], Wv as [Lv _]. now apply uuid_text_inj.
Qed.

(* Distinct 122-bit entropy => distinct keys, for every backend, prefix and pair of
   content encodings; and conversely two draws equal after the version/variant mask
   give the same key: collisions happen exactly when the random source repeats. *)
Theorem key_injective_in_entropy : forall b p x1 x2 e1 e2,
  wf_entropy e1 = true -> wf_entropy e2 = true ->
  key b p x1 e1 = key b p x2 e2 -> mask e1 = mask e2 /\ ext b x1 = ext b x2.
Proof. exact key_inj. Qed.

Theorem key_collision_iff_entropy_repeats : forall b p x e1 e2,
  wf_entropy e1 = true -> wf_entropy e2 = true ->
  (key b p x e1 = key b p x e2 <-> mask e1 = mask e2).
Proof.
  intros b p x e1 e2 W1 W2. split.
  - intro H. now apply key_inj in H.
  - intro H. unfold key. now rewrite H.
Qed.

(* Storage instances configured with different prefixes (other processes, other
   backends) writing into one bucket: the key still determines prefix and entropy. *)
Theorem key_injective_across_prefixes : forall b1 b2 p1 p2 x e1 e2,
  wf_entropy e1 = true -> wf_entropy e2 = true ->
  eff_prefix b1 p1 ++ uuid_text (mask e1) ++ x = eff_prefix b2 p2 ++ uuid_text (mask e2) ++ x ->
  eff_prefix b1 p1 = eff_prefix b2 p2 /\ mask e1 = mask e2.
Proof.
  intros b1 b2 p1 p2 x e1 e2 W1 W2 H. apply key_parts in H; auto using mask_length16. tauto.
Qed.

(* Every key has the documented shape: prefix, 8-4-4-4-12 lower-case hex with version
   character 4 and variant character in 8 9 a b, then the backend's extension. *)
Theorem key_has_shape : forall b p x e,
  wf_entropy e = true -> key_shape b p (key b p x e) = true.
Proof. exact key_shape_key. Qed.

(* No prefix is too long: for EVERY prefix length (in particular beyond the stores'
   1024-byte name limit) the key is the prefix followed by the whole UUID text and the
   whole extension; its length is never clamped. *)
Theorem key_never_trimmed : forall b p x e,
  skipn (length (eff_prefix b p)) (key b p x e) = uuid_text (mask e) ++ ext b x /\
  firstn (length (eff_prefix b p)) (key b p x e) = eff_prefix b p /\
  (wf_entropy e = true -> length (key b p x e) = (length (eff_prefix b p) + 36 + length (ext b x))%nat).
Proof.
  intros b p x e. unfold key. split; [apply drop_app_len|]. split; [apply take_app_len|].
  intro W. rewrite !app_length, uuid_text_length by now apply mask_length16. apply Nat.add_assoc.
Qed.

(* Schedule independence over lists: however the draws are assigned to uploads (any
   permutation = any interleaving of any number of goroutines and processes sharing
   the bucket), and whatever content encoding each upload carries, all keys differ. *)
Theorem keys_distinct_any_interleaving_partial : forall draws,
  Forall (fun e => wf_entropy e = true) draws ->
  NoDup (map mask draws) ->                       (* freshness premise on crypto/rand *)
  forall b p (ups : list (bytes * bytes)),
  Permutation (map fst ups) draws -> NoDup (map (upload_key b p) ups).
Proof.
  intros draws W F b p ups P. refine (proj2 (drawn_keys b p fst snd ups [] draws _ W) F). now rewrite app_nil_r.
Qed.

(* The same on the two-step machine (Draw, then Put): for every number of threads,
   every program, every schedule - complete or not, fair or not - no two completed
   puts share a key and no payload is overwritten. *)
Theorem no_overwrite_any_schedule_partial : forall b p progs stream sched,
  Forall (fun e => wf_entropy e = true) stream ->
  NoDup (map mask stream) ->                      (* freshness premise on crypto/rand *)
  let ks := map snd (puts b p (run (init progs stream) sched)) in
  NoDup ks /\ lost ks = O.
Proof.
  intros b p progs stream sched W F ks. pose proof (proj2 (run_keys b p progs stream sched W) F) as Nd.
  split; [exact Nd | exact (lost_NoDup _ Nd)].
Qed.

(* The property in the decidable form evaluated on the implementation's observables. *)
Theorem spec_holds_on_model : forall i, spec_ok i (model i) = true.
Proof.
  destruct i as [b p progs stream sched | b p enc n stream | b p enc n]; cbn [model spec_ok].
  3: now rewrite !N.eqb_refl.
  all: destruct (forallb wf_entropy stream) eqn:W; [|reflexivity]; apply forallb_wf in W as WF.
  all: unfold fresh; rewrite W; cbn [andb].
  - destruct (run_keys b p progs stream sched WF) as [Sh Nd].
    apply andb_true_iff; split; [apply forallb_forall; intros t Ht; exact (Sh _ (in_map snd _ _ Ht))|].
    destruct (nodupb (map mask stream)) eqn:F; [|reflexivity]. apply nodupb_NoDup, Nd in F.
    now rewrite (lost_NoDup _ F), (proj2 (nodupb_NoDup _) F).
  - set (ks := map (key b p enc) (firstn n stream)). pose proof (sort_perm ks) as Hsort.
    destruct (drawn_keys b p (fun e => e) (fun _ => enc) (firstn n stream) (skipn n stream) stream) as [Sh Nd];
      [now rewrite map_id, firstn_skipn | exact WF |].
    apply andb_true_iff; split; [apply forallb_forall; intros k Hk; apply Sh, (Permutation_in _ Hsort), Hk|].
    destruct (nodupb (map mask stream)) eqn:F; [|reflexivity].
    assert (Hks : NoDup ks) by exact (Nd (proj1 (nodupb_NoDup _) F)).
    rewrite (lost_NoDup _ Hks), andb_true_r. apply andb_true_iff; split.
    + apply nodupb_NoDup. exact (Permutation_NoDup (Permutation_sym Hsort) Hks).
    + apply Nat.eqb_eq. subst ks. now rewrite (Permutation_length Hsort), map_length, firstn_length.
Qed.

(* Before fix d7f737a the 16 bytes were the first 16 characters of the decimal text of
   time.Now().UnixNano(): two uploads less than a microsecond apart share a key, for
   every prefix, and the first payload is lost. *)
Theorem no_overwrite_legacy_refuted :
  exists t1 t2, t1 <> t2 /\ (t2 - t1 < 1000)%N /\ forall p, legacy_key p t1 = legacy_key p t2.
Proof.
  exists 1790000000123456000, 1790000000123456999. split; [discriminate|]. split; [reflexivity|].
  intro p. unfold legacy_key. f_equal.
Qed.

(* non-vacuity: a fresh, well-formed stream of three draws (two of them one free bit
   apart), and a schedule that really interleaves three uploads of two threads *)
Example premises_satisfiable :
  let stream := [hx "0123456789abcdef1032547698badcfe"; hx "0123456789abccef1032547698badcfe";
                 hx "00000000000000000000000000000000"] in
  Forall (fun e => wf_entropy e = true) stream /\ NoDup (map mask stream) /\
  length (puts GCS [] (run (init [[enc_zstd; []]; [[]]] stream) [0;1;1;0;0;0]%nat)) = 3%nat.
Proof.
  cbv zeta. split; [repeat constructor|]. split; [|vm_compute; reflexivity].
  apply nodupb_NoDup. vm_compute. reflexivity.
Qed.
