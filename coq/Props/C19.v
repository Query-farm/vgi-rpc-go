(* Props/C19.v — property C19: response size caps hold on every response.
   The lemmas are in Proofs/C19.v.

   Sizes (IPC wire size of each batch as written, Arrow buffer size, raw upload
   size, uncapped body length) are data of the emission pattern: the wire_size
   oracle.  The only fact assumed about them is [wfc]: the raw IPC size of an
   upload is at least the Arrow buffer size it was predicted from.  A cap <= 0 is
   unset.  All statements are for every cap, every threshold, every batch limit
   and every emission pattern of any length. *)
From Coq Require Import ZArith List Bool Lia.
From VR Require Import Model.C19 Proofs.C19.
Import ListNotations.
Open Scope Z_scope.

(* The decision kernel is the compiled one: the model's enforce agrees with the
   regenerated decision table of enforceResponseBudgets (strict >, wire cap
   first, unset and negative caps inert). *)
Theorem enforce_matches_compiled_table :
  errk_code (enforce 100 0 100 0) = c19_enf_wire_at_cap /\
  errk_code (enforce 101 0 100 0) = c19_enf_wire_over_cap /\
  errk_code (enforce 0 100 0 100) = c19_enf_ext_at_cap /\
  errk_code (enforce 0 101 0 100) = c19_enf_ext_over_cap /\
  errk_code (enforce 101 101 100 100) = c19_enf_both_over /\
  errk_code (enforce (2^40) (2^40) 0 0) = c19_enf_unset /\
  errk_code (enforce 5 5 (-1) (-1)) = c19_enf_negative_cap.
Proof. vm_compute. repeat split. Qed.

(* Hard caps, unary with a result.  A delivered response is the uncapped body,
   fits max_response_bytes, and its upload fits max_externalized_response_bytes;
   anything else is an error-only response (no data, no pointer, flagged with
   X-VGI-RPC-Error); and a body or an upload over its cap is never delivered. *)
Theorem unary_hard_caps : forall c u, u_void u = false -> u_fail u = false ->
  let r := unary c u in
  (r_err r = ENone -> r_body r = u_body u /\ (0 < wcap c -> u_body u <= wcap c) /\ (0 < ecap c -> r_upl r <= ecap c) /\ r_hdr r = false) /\
  (r_err r <> ENone -> r_ndata r = 0 /\ r_nptr r = 0 /\ r_hdr r = true) /\
  (0 < wcap c -> wcap c < u_body u -> r_err r <> ENone) /\
  (0 < ecap c -> ecap c < upload c (u_b u) -> r_err r <> ENone).
Proof. intros c u V _. cbv zeta. generalize (unary_answer c u). rewrite V. apply answer_hard. Qed.

(* The same for a void method (its body is the handler's log batches). *)
Theorem void_unary_hard_cap : forall c u, u_void u = true -> u_fail u = false ->
  let r := unary c u in
  (r_err r = ENone -> r_body r = u_body u /\ (0 < wcap c -> u_body u <= wcap c) /\ r_upl r = 0 /\ r_hdr r = false) /\
  (r_err r <> ENone -> r_ndata r = 0 /\ r_nptr r = 0 /\ r_hdr r = true) /\
  (0 < wcap c -> wcap c < u_body u -> r_err r <> ENone).
Proof.
  intros c u V _. cbv zeta. generalize (unary_answer c u). rewrite V. unfold delivered.
  intros [r D B H U W X|k l u' K _]; [|cbn; repeat split; intros; congruence].
  repeat split; auto; intros; try congruence; lia.
Qed.

(* The same for every turn of an exchange stream. *)
Theorem exchange_hard_caps : forall c x, x_act x = AEmit ->
  let r := exchange c x in
  (r_err r = ENone -> r_body r = x_body x /\ (0 < wcap c -> x_body x <= wcap c) /\ (0 < ecap c -> r_upl r <= ecap c) /\ r_hdr r = false) /\
  (r_err r <> ENone -> r_ndata r = 0 /\ r_nptr r = 0 /\ r_hdr r = true) /\
  (0 < wcap c -> wcap c < x_body x -> r_err r <> ENone) /\
  (0 < ecap c -> ecap c < upload c (x_b x) -> r_err r <> ENone).
Proof. intros c x _. exact (answer_hard _ _ _ _ (exchange_answer c x)). Qed.

(* Soft cap, producer.  Following continuation tokens from /init to the end:
   - there is at least one response, at most one more than there are cycles;
   - every response but the last ends with a continuation token and the last
     does not (the stream terminates);
   - with max_response_bytes set, the bytes in a response before its trailing
     token / exception batch, minus what its last flushed produce cycle wrote
     (one data batch and its logs, or a finishing cycle's logs), are below the
     cap -- or are at most what was in the buffer before the first cycle (stream
     header, schema, init logs; the larger of /init's and a continuation's);
   - a response that ends with a token carries at least one data batch;
   - unless max_externalized_response_bytes stopped the stream, the data batches
     of all responses, concatenated in order, are exactly the batches the script
     yields uncut, and the stream ends the way the script ends; if the external
     cap stopped it, what arrived is a prefix. *)
Theorem producer_soft : forall c pre0 pre1 cs, wfc c cs ->
  let ts := run c pre0 pre1 cs in
  (1 <= length ts <= S (length cs))%nat /\
  chain_ok ts = true /\
  (forall t, In t ts -> 0 < wcap c ->
     t_payload t - last_group (t_frames t) < Z.max (wcap c) (Z.max pre0 pre1 + 1)) /\
  (forall t, In t ts -> t_end t = TToken -> (1 <= length (ids (t_frames t)))%nat) /\
  (final_end ts <> TErr EExt -> all_ids ts = ideal_ids cs /\ final_end ts = ideal_end cs) /\
  (final_end ts = TErr EExt -> is_prefix (all_ids ts) (ideal_ids cs) = true).
Proof.
  intros c pre0 pre1 cs WF. cbv zeta. destruct (run_spec c pre0 pre1 cs WF) as (A & B & C & D).
  split; [split; [clear - B; destruct (run c pre0 pre1 cs); [discriminate|cbn [length]; lia] | exact D]|].
  split; [exact B|].
  split; [|split; [|apply stream_ok_spec, C]]; intros t Hin; apply (in_run_bound c pre0 pre1 cs t WF Hin).
Qed.

(* Readable corollary: when what precedes the first cycle fits the cap, every
   response exceeds the cap by less than what its last flushed cycle wrote (a
   data batch and its logs, or the logs of a finishing cycle). *)
Corollary producer_overshoot_at_most_one_batch : forall c pre0 pre1 cs t, wfc c cs ->
  0 < wcap c -> pre0 < wcap c -> pre1 < wcap c -> In t (run c pre0 pre1 cs) ->
  t_payload t < wcap c + last_group (t_frames t).
Proof.
  intros c pre0 pre1 cs t WF WC P0 P1 Hin. destruct (producer_soft c pre0 pre1 cs WF) as (_ & _ & H & _).
  specialize (H t Hin WC). lia.
Qed.

(* External cap, producer: within one HTTP response the Arrow size of the
   uploads never exceeds max_externalized_response_bytes (the turn stops before
   it would), and a refusal is flagged exactly then. *)
Theorem external_running_total : forall c pre0 pre1 cs t, wfc c cs -> In t (run c pre0 pre1 cs) ->
  (0 < ecap c -> t_uarrow t <= ecap c) /\ (t_hdr t = true <-> t_end t = TErr EExt).
Proof. intros c pre0 pre1 cs t WF Hin. apply (in_run_bound c pre0 pre1 cs t WF Hin). Qed.

(* Caps unset: nothing changes.  The producer loop is the loop before the fix
   (only the batch limit cuts), and without a batch limit the whole stream is one
   response; unary (void or not) and exchange deliver the uncapped response. *)
Theorem cap_unset_unchanged : forall c,
  wcap c <= 0 ->
  (forall pre0 pre1 cs, run c pre0 pre1 cs = run_legacy c pre0 pre1 cs) /\
  (limit c <= 0 -> forall pre0 pre1 cs, run c pre0 pre1 cs = [mk_turn (turn false c pre0 0 0 0 cs)]) /\
  (ecap c <= 0 -> forall u, u_fail u = false ->
     r_err (unary c u) = ENone /\ r_body (unary c u) = u_body u /\ r_nlogs (unary c u) = u_logs u /\ unary c u = unary_legacy c u) /\
  (ecap c <= 0 -> forall x, x_act x = AEmit -> exchange c x = resp_ok c (x_body x) (x_logs x) (x_b x)).
Proof.
  intros c WC. split; [|split; [|split]].
  - intros. unfold run, run_legacy. now apply run_from_legacy_eq.
  - intros LM pre0 pre1 cs. unfold run. rewrite (run_from_legacy_eq c pre1 WC). cbn [run_from].
    pose proof (turn_no_token (turn_shape_turn false c cs pre0 0 0 0) LM) as NT.
    destruct (tr_end (turn false c pre0 0 0 0 cs)); [reflexivity | congruence | reflexivity].
  - intros E u F. unfold unary, unary_legacy, unary_gen. rewrite F. destruct (u_void u).
    + rewrite (enforce_unset _ _ _ _ WC E). repeat split.
    + replace (0 <? ecap c) with false by lia. rewrite andb_false_r. cbn [andb].
      rewrite (enforce_unset _ _ _ _ WC E). repeat split.
  - intros E x A. unfold exchange. rewrite A.
    replace (0 <? ecap c) with false by lia. rewrite andb_false_r. cbn [andb].
    now rewrite (enforce_unset _ _ _ _ WC E).
Qed.

(* What user code is told: RemainingResponseBytes is the whole cap on every
   produce cycle of every response (it is a snapshot, never reduced). *)
Theorem remaining_response_bytes_is_whole_cap : forall c pre0 pre1 cs t,
  In t (run c pre0 pre1 cs) -> Forall (fun b => fst b = wcap c) (t_budgets t).
Proof. intros c pre0 pre1 cs t. apply run_budgets. Qed.

(* The decidable form evaluated on the implementation's observables. *)
Theorem spec_holds_on_model : forall i, wf_input i -> spec_ok i (model i) = true.
Proof.
  destruct i as [c u|c xs|c p0 p1 cs|w e wc ec]; cbn [wf_input model spec_ok]; intros WF.
  - apply answer_ok, unary_answer.
  - induction xs as [|x xs IH]; [reflexivity|]. cbn [map exch_ok]. now rewrite (answer_ok _ _ _ _ (exchange_answer c x)), IH.
  - destruct (run_spec c p0 p1 cs WF) as (A & B & C & _). now rewrite A, B, C.
  - pose proof (enforce_cases w e wc ec) as E. destruct (enforce w e wc ec); try reflexivity. lia.
Qed.

(* Before 9dbce9f the producer loop never looked at max_response_bytes: twenty
   4240-byte batches under a 10 000-byte cap came back as one 84 928-byte payload. *)
Theorem producer_soft_legacy_refuted :
  wfc w_caps w_cycles /\
  exists t, In t (run_legacy w_caps 128 128 w_cycles) /\
            ~ (t_payload t - last_group (t_frames t) < Z.max (wcap w_caps) (128 + 1)) /\ t_payload t = 84928.
Proof.
  split.
  - apply Forall_forall. intros cy (i & <- & _)%in_map_iff. unfold wf_batch, externalized. cbn. discriminate.
  - assert (H : existsb (fun t => negb (t_payload t - last_group (t_frames t) <? Z.max (wcap w_caps) (128 + 1))
                                  && (t_payload t =? 84928)) (run_legacy w_caps 128 128 w_cycles) = true)
      by (vm_compute; reflexivity).
    apply existsb_exists in H as (t & Hin & H). exists t. split; [exact Hin|]. lia.
Qed.

(* Before ff02128 a void unary response was sent without any budget check: five
   logs, 1816 bytes, under a 600-byte cap. *)
Theorem void_unary_legacy_refuted :
  let c := {| wcap := 600; ecap := 0; limit := 0; ext_on := false; thr := 0 |} in
  let u := {| u_logs := 5; u_fail := false; u_void := true;
              u_b := {| b_id := 1; b_rows := 1; b_wire := 0; b_arrow := 9; b_raw := 0 |}; u_body := 1816 |} in
  r_err (unary_legacy c u) = ENone /\ wcap c < r_body (unary_legacy c u) /\ hard_ok c (unary_legacy c u) = false
  /\ r_err (unary c u) = EWire.
Proof. vm_compute. repeat split. Qed.

(* non-vacuity: a well-formed pattern with uploads under both caps that is cut
   into several responses, one of them refused by the external cap *)
Example premises_satisfiable :
  let c := {| wcap := 3000; ecap := 9000; limit := 3; ext_on := true; thr := 4000 |} in
  let mk i rows wire arrow raw := {| c_logs := [240]; c_act := AEmit;
       c_b := {| b_id := i; b_rows := rows; b_wire := wire; b_arrow := arrow; b_raw := raw |} |} in
  let cs := [mk 1 10 224 84 0; mk 2 200 1744 1632 0; mk 3 600 336 4928 5080; mk 4 700 336 5728 5880] in
  wfc c cs /\ length (run c 928 128 cs) = 2%nat /\ final_end (run c 928 128 cs) = TErr EExt.
Proof.
  cbv zeta. split; [|vm_compute; split; reflexivity].
  unfold wfc. repeat apply Forall_cons; [..|apply Forall_nil]; unfold wf_batch.
  1, 2: intros H; vm_compute in H; discriminate H.   (* below the threshold: inline *)
  all: intros _; vm_compute; discriminate.           (* uploads: 4928 <= 5080, 5728 <= 5880 *)
Qed.
