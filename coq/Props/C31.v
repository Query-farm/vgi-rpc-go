(* Props/C31.v — property C31: external fetches obey the URL validator and the size
   limits on every hop.  The lemmas the theorems below rest on are in Proofs/C31.v.

   Quantification.  [U] is ANY type of URLs, [validator] ANY predicate on it (or
   none), [origin] ANY function from (attempt number, URL) to an answer: redirect
   to any URL or to an unparseable Location, any final status, any body (announced
   length, wire length, truncation, Content-Encoding, decoder verdict), a transport
   failure.  Redirect chains are therefore arbitrary: any length, loops, any
   targets.  [maxR], [maxF], [maxD] are the clamped limits, [c] the configured
   retry count, ANY integer.  The trace of a run is the list of validator calls
   and of requests handed to the transport, in program order.

   Premises / oracles: the net/http client calls CheckRedirect with
   len(via) = requests sent so far before it sends the next one and stops on its
   error; url.Parse supplies the parts of every URL; the gzip and zstd decoders
   are described per body by (decoded length, window); a request that names its own
   Accept-Encoding is not inflated by the transport.

   Full property, in the words of properties.jsonl: "never sends a request to a URL
   the validator rejects, including any redirect target, follows at most the
   configured number of redirects, refuses bodies over the fetch cap and decoded
   payloads over the decompression cap, makes at most the configured number of
   attempts (capped at three); errors never contain the URL's query string or user
   info".  All of it is proved of the model of the CURRENT code (after fix 75e15f4).
   [prev] is ANY CheckRedirect the caller's own HTTPClient may carry (or none): a
   function from the redirect budget left to allow / ordinary error /
   ErrUseLastResponse, consulted after the hop limit and the validator — so the hop
   bound and the validator clauses hold WHATEVER policy the caller's client has.
   The trace theorems hold for ANY treatment [rb] of a 200 body; the cap theorems
   are about the code's [read_body].  Three [_legacy_refuted] theorems exhibit the
   code before the fix violating the cap clauses (gzip inflated by the transport)
   and the redaction clause (fetchSimple); their witnesses are in corpus/C31.jsonl. *)
From VR Require Import Model.C31 Proofs.C31 Gen.Consts.
Open Scope nat_scope.

(* The model's clamps are the code's: maxRetries / maxRedirects / maxFetchBytes /
   maxDecompressedBytes evaluated BY THE COMPILED CODE on boundary configurations
   (Gen/Consts.v is regenerated on every run). *)
Theorem clamps_are_the_codes :
  max_retries (-7) = c31_retries_neg /\ max_retries 0 = c31_retries_0 /\ max_retries 1 = c31_retries_1
  /\ max_retries 2 = c31_retries_2 /\ max_retries 3 = c31_retries_3 /\ max_retries 1073741824 = c31_retries_big
  /\ max_redirects (-1) = c31_redirects_neg /\ max_redirects 0 = c31_redirects_0
  /\ max_redirects 1 = c31_redirects_1 /\ max_redirects 9 = c31_redirects_9
  /\ max_fetch (-1) = c31_fetch_neg /\ max_fetch 0 = c31_fetch_0 /\ max_fetch 1 = c31_fetch_1
  /\ max_decomp (-1) = c31_decomp_neg /\ max_decomp 0 = c31_decomp_0 /\ max_decomp 1 = c31_decomp_1
  /\ max_retries 0 = c31_default_retries /\ max_redirects 0 = c31_default_redirects
  /\ max_fetch 0 = c31_default_fetch /\ max_decomp 0 = c31_default_decomp.
Proof. repeat split; reflexivity. Qed.

(* Never a request to a URL the validator rejects — the location URL, every redirect
   target, on every attempt. *)
Theorem never_requests_rejected_url : forall U validator origin maxR rb prev n u0 first w,
  In (EvSend first w) (fst (fst (resolve U validator origin maxR rb prev n u0))) ->
  accepts U validator w = true.
Proof.
  intros U validator origin maxR rb prev n u0 first w.
  apply (ordered_accepted U validator _ (fun _ => True)). now apply resolve_ordered.
Qed.

(* Stronger, with the order: when a validator is configured, every request in the
   trace goes to a URL the validator was asked about EARLIER in the trace and
   accepted ([ordered] starts from the empty set of validated URLs). *)
Theorem validated_before_requested : forall U (v : U -> bool) origin maxR rb prev n u0,
  ordered U (Some v) (fun _ => False) (fst (fst (resolve U (Some v) origin maxR rb prev n u0))).
Proof. intros. apply resolve_ordered. discriminate. Qed.

(* A rejected location URL: nothing is sent at all. *)
Theorem rejected_location_sends_nothing : forall U validator origin maxR rb prev n u0,
  accepts U validator u0 = false ->
  sends U (fst (fst (resolve U validator origin maxR rb prev n u0))) = 0
  /\ snd (fst (resolve U validator origin maxR rb prev n u0)) = RErr EInitRejected.
Proof.
  intros U validator origin maxR rb prev n u0 Ha.
  (* no attempt is counted, and the requests are at most attempts * (maxR + 1) *)
  destruct (resolve_counts U validator origin maxR rb prev n u0) as (_ & _ & Hsends). revert Hsends.
  unfold resolve. rewrite Ha. cbn [fst snd]. split; [lia | reflexivity].
Qed.

(* hops <= max: one attempt sends at most maxR + 1 requests (follows at most maxR
   redirects), whatever the chain; a whole fetch at most attempts * (maxR + 1). *)
Theorem hops_at_most_max_redirects : forall U validator origin maxR rb prev,
  (forall att first u, sends U (fst (follow U validator origin rb prev att maxR first u)) <= S maxR)
  /\ (forall n u0, let run := resolve U validator origin maxR rb prev n u0 in
                   sends U (fst (fst run)) <= snd run * S maxR).
Proof.
  intros. split; intros.
  - eapply hops_sends, follow_hops.
  - apply resolve_counts.
Qed.

(* attempts <= min(cfg + 1, 3): the loop runs at most eff_attempts c times (the third
   component of [resolve] counts the calls of fetchExternalData; attempts that get
   as far as the transport are the first-flagged requests of the trace), that is
   never more than three, it is min(c + 1, 3) for a configured c >= 1, and for an
   unset c <= 0 it is the documented default + 1. *)
Theorem attempts_at_most_configured_capped_at_three : forall U validator origin maxR rb prev c u0,
  let run := resolve U validator origin maxR rb prev (eff_attempts c) u0 in
  snd run <= eff_attempts c
  /\ firsts U (fst (fst run)) <= snd run
  /\ eff_attempts c <= 3
  /\ ((1 <= c)%Z -> eff_attempts c = Nat.min (Z.to_nat c + 1) 3)
  /\ ((c <= 0)%Z -> eff_attempts c = Z.to_nat (c31_default_retries + 1)).
Proof.
  intros. destruct (resolve_counts U validator origin maxR rb prev (eff_attempts c) u0) as (A & B & _).
  repeat split; auto.
  - apply eff_attempts_bound.
  - apply eff_attempts_configured.
  - apply eff_attempts_unset.
Qed.

(* Bodies over the fetch cap are refused: the WIRE length counts, whatever the
   Content-Encoding, announced or not, chunked or not; a body that breaks off is
   refused too. *)
Theorem body_over_cap_refused : forall maxF maxD b,
  (maxF < b_wire b)%N -> forall n, read_body maxF maxD b <> ROk n.
Proof. intros maxF maxD b H n E. apply read_body_ok in E. lia. Qed.
Theorem truncated_body_refused : forall maxF maxD b k,
  b_trunc b = Some k -> forall n, read_body maxF maxD b <> ROk n.
Proof. intros maxF maxD b k H n E. apply read_body_ok in E. destruct E as (T & _). congruence. Qed.

(* Decoded payloads over the decompression cap are refused (Content-Encoding zstd
   or gzip), and what is returned is exactly the decoded payload. *)
Theorem decoded_over_cap_refused : forall maxF maxD b d,
  b_enc b <> EncId -> b_dec b = Some d -> (maxD < d)%N -> forall n, read_body maxF maxD b <> ROk n.
Proof.
  intros maxF maxD b d Q D H n E. apply read_body_ok in E. destruct E as (_ & _ & _ & Enc & _).
  destruct (Enc Q) as (D' & L). rewrite D in D'. injection D' as <-. lia.
Qed.
Theorem result_is_decoded_payload : forall maxF maxD b n,
  b_enc b <> EncId -> read_body maxF maxD b = ROk n -> b_dec b = Some n /\ (n <= maxD)%N.
Proof. intros maxF maxD b n Q E. apply read_body_ok in E. now apply E. Qed.

(* The two together on a whole fetch: a resolved fetch was served, on some attempt,
   by a URL that was requested, with a complete body inside both caps. *)
Theorem success_is_within_caps : forall U validator origin maxR maxF maxD prev n u0 m,
  snd (fst (resolve U validator origin maxR (read_body maxF maxD) prev n u0)) = ROk m ->
  exists att first w b,
    In (EvSend first w) (fst (fst (resolve U validator origin maxR (read_body maxF maxD) prev n u0)))
    /\ origin att w = ABody b /\ read_body maxF maxD b = ROk m
    /\ (b_wire b <= maxF)%N /\ b_trunc b = None
    /\ (b_enc b <> EncId -> b_dec b = Some m /\ (m <= maxD)%N)
    /\ (b_enc b = EncId -> m = b_wire b).
Proof.
  intros U validator origin maxR maxF maxD prev n u0 m H.
  destruct (resolve_ok U validator origin maxR (read_body maxF maxD) prev n u0 m H) as (a & t0 & f & w & b & _ & T & Ho & R).
  exists a, f, w, b. rewrite T. destruct (read_body_ok maxF maxD b m R) as (Tr & Wl & Id & Enc & _).
  repeat split; auto; try (now apply Enc). apply in_or_app. right. now left.
Qed.

(* Errors mention only the redacted URL, as non-interference: two fetches that
   differ ONLY in the user info, query strings and fragments of their URLs (same
   public parts, same validator verdicts, same origin answers, same configuration)
   have the same observables, error view included ... *)
Theorem errors_mention_only_redacted_url : forall f f',
  same_public f f' -> model (IFetch f) = model (IFetch f').
Proof. intros f f' H. cbn. now rewrite (same_public_view f f' H). Qed.
(* ... that view is the redacted location URL or nothing ... *)
Theorem error_view_is_redacted_url_or_nothing : forall g,
  o_text (run g) = red0 (g_site g) \/ o_text (run g) = [].
Proof.
  intro g. unfold run, run_with. destruct (resolve nat _ _ _ _ _ _ _) as [[t r] k]. cbn [o_text].
  destruct (match r with ROk _ => false | RErr e => _ end); auto.
Qed.
(* ... and redaction does not look at user info, password, query or fragment. *)
Theorem redaction_ignores_secrets : forall p p',
  pub_of p = pub_of p' -> redact (pub_of p) = redact (pub_of p').
Proof. now intros p p' ->. Qed.

(* The property in the decidable form evaluated on the implementation's
   observables, for EVERY input (fetches with any site, redactions, fetchSimple on
   identity bodies) — no premise left. *)
Theorem spec_holds_on_model : forall i, spec_ok i (model i) = true.
Proof.
  destruct i as [f|p|q].
  - cbn [model spec_ok]. apply spec_fetch_model.
  - cbn [model spec_ok]. apply free_of_self.
  - cbn [model]. unfold simple_run. set (red := redact (pub_of (q_parts q))).
    destruct (q_answer q) as [t|n|b| | ]; cbn [spec_ok];
      try (rewrite free_of_self; reflexivity); try (rewrite free_of_nil; reflexivity).
    destruct (stream_err b); [cbn [spec_ok]; rewrite free_of_self; reflexivity|].
    destruct (q_maxfetch q <? Z.of_N (stream_len b))%Z eqn:C; cbn [spec_ok]; rewrite free_of_nil; [reflexivity|].
    cbn [andb]. lia.
Qed.

(* Before fix 75e15f4, caller's transport inflating gzip itself: all the code
   bounded was the DECODED length, by the FETCH cap ... *)
Theorem transparent_gzip_bounded_by_fetch_cap_only_legacy : forall maxF maxD b n,
  b_enc b = EncGzip -> read_body_legacy true maxF maxD b = ROk n -> b_dec b = Some n /\ (n <= maxF)%N.
Proof.
  unfold read_body_legacy. intros maxF maxD b n G. rewrite G. destruct (b_dec b) as [d|]; [|discriminate].
  destruct (maxF + 1 <=? d)%N eqn:A; [discriminate|]. apply N.leb_gt in A.
  intro H. injection H as <-. split; [reflexivity | lia].
Qed.
(* ... so a gzip answer decoding to 600 bytes resolved under MaxDecompressedBytes =
   599 (the current code refuses it) ... *)
Theorem transparent_gzip_decoded_cap_legacy_refuted :
  exists i, result_of (model_legacy true i) = Some 600%N /\ spec_ok i (model_legacy true i) = false
            /\ result_of (model i) = None /\ spec_ok i (model i) = true.
Proof. exists gzip_decoded_witness. repeat split; reflexivity. Qed.
(* ... and a 623-byte stored-block gzip body resolved under MaxFetchBytes = 610 (refused by the
   current code). *)
Theorem transparent_gzip_wire_cap_legacy_refuted :
  exists i, result_of (model_legacy true i) = Some 600%N /\ spec_ok i (model_legacy true i) = false
            /\ result_of (model i) = None /\ spec_ok i (model i) = true.
Proof. exists gzip_wire_witness. repeat split; reflexivity. Qed.
(* fetchSimple reported the raw URL (the current code reports the redacted one). *)
Theorem fetch_simple_reports_raw_url_legacy_refuted :
  exists i t, model_legacy true i = OSimple None t /\ contains (str "tok=secret") t = true
              /\ contains (str "hunter22") t = true /\ spec_ok i (model_legacy true i) = false
              /\ model i = OSimple None (str "http://origin.example/data") /\ spec_ok i (model i) = true.
Proof. exists simple_witness. eexists. split; [reflexivity|]. repeat split; reflexivity. Qed.

(* non-vacuity: an input with a validator, a redirect hop, a transient failure
   and a zstd body right at the decompression cap; the run validates both URLs,
   retries once and resolves.  Its premises are those of the theorems above. *)
Example premises_satisfiable :
  let p := fun path => {| p_valid := true; p_scheme := str "https"; p_opaque := []; p_host := str "origin.example";
                          p_path := path; p_omit := false; p_user := str "alice1"; p_pass := str "hunter22";
                          p_query := str "tok=secret"; p_frag := [] |} in
  let body := {| b_declared := None; b_wire := 60%N; b_trunc := None; b_enc := EncZstd; b_dec := Some 2000%N; b_win := 2000%N |} in
  let i := IFetch {| f_vkind := VHttps; f_policy := CPUseLastFrom 3; f_retries := 1; f_redirects := 1; f_maxfetch := 60; f_maxdecomp := 2000;
                     f_site := [ {| s_parts := p (str "/a"); s_verdict := VAccept; s_answers := [ARedirect (TUrl 1)] |};
                                 {| s_parts := p (str "/b"); s_verdict := VAccept; s_answers := [AFail; ABody body] |} ];
                     f_secrets2 := [str "bob222"; str "tok=other"] |} in
  exists o, model i = OFetch o /\ o_result o = Some 2000%N
               /\ o_trace o = [EvValidate 0; EvSend true 0; EvValidate 1; EvSend false 1; EvSend true 0; EvValidate 1; EvSend false 1]
               /\ spec_ok i (model i) = true.
Proof. cbv zeta. eexists. split; [reflexivity|]. repeat split; reflexivity. Qed.
