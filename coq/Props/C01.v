(* Props/C01.v — property C01: the intermediary wire helpers are mutually
   inverse. The lemmas are in Proofs/C01.v. A body is a list of
   IPC streams in the abstract view of Model/C01.v (arrow-go is the codec
   between bytes and that view; see the last theorem for the byte-level loop).

   NOT proved here (a labelled test of the harness instead): that arbitrary
   malformed BYTES make the readers return an error rather than panic. That is
   arrow-go's parser; the harness runs every truncation of small valid bodies,
   bit flips and random bytes in a child process and [spec_ok] rejects any
   crash. *)
From VR Require Import Model.C01 Proofs.C01.

(* Every valid-UTF-8 method (empty allowed), every parameter batch with no
   fields or exactly one row, every version string: reading back what
   WriteRequest framed yields the same method, the same batch, request version
   = the wire version, no request id / log level, and a metadata map holding
   exactly the stamped keys: protocol_version = v, the key absent when v = "".
   Whatever follows the request stream on the reader is irrelevant. *)
Theorem read_write_request : forall m sc rows cols v rest,
  utf8_valid m = true -> (sc = [] \/ rows = 1%N) ->
  read_request (write_request m sc rows cols v :: rest)
  = Acc {| q_method := m; q_version := wire_version; q_request_id := []; q_log_level := [];
           q_schema := sc; q_rows := rows; q_cols := cols; q_meta := req_meta m v |}.
Proof. exact read_write_request. Qed.

Theorem stamped_protocol_version : forall m v,
  get k_protocol_version (req_meta m v) = match v with [] => None | _ => Some v end.
Proof. exact get_pv_req. Qed.

Theorem find_protocol_version_of_request : forall m sc rows cols v rest,
  find_protocol_version (write_request m sc rows cols v :: rest) = v.
Proof. exact find_pv_write_request. Qed.

(* the complementary branches on WriteRequest output *)
Theorem read_request_invalid_utf8 : forall m sc rows cols v rest,
  utf8_valid m = false ->
  read_request (write_request m sc rows cols v :: rest) = Rej RsBadUtf8.
Proof. intros m sc rows cols v rest Hu. now rewrite read_request_written, Hu. Qed.

Theorem read_request_wrong_row_count : forall m sc rows cols v rest,
  utf8_valid m = true -> sc <> [] -> rows <> 1%N ->
  read_request (write_request m sc rows cols v :: rest) = Rej RsRowCount.
Proof.
  intros m sc rows cols v rest Hu Hs Hr. rewrite read_request_written, Hu.
  destruct sc; [contradiction|]. apply N.eqb_neq in Hr. now rewrite Hr.
Qed.

(* ReadRequest on ANY stream with at least one batch: only the first batch
   counts (the rest is drained, errors included); it is accepted exactly when
   the method is present and valid UTF-8, the request version is the wire
   version, and the row rule or one of its two pointer exemptions holds. *)
Theorem read_request_accepts_iff : forall sc b bs t rest q,
  read_request (Stream sc (b :: bs) t :: rest) = Acc q <->
  exists meth, get k_method (b_meta b) = Some meth /\ utf8_valid meth = true
    /\ get k_request_version (b_meta b) = Some wire_version
    /\ (sc = [] \/ b_rows b = 1%N \/ has k_location (b_meta b) = true \/ is_shm_pointer b = true)
    /\ q = mk_request sc b meth wire_version.
Proof. intros. apply validate_accepts_iff. Qed.

(* the rejections, in the code's order, each with its error type *)
Theorem read_request_rejections : forall sc b bs t rest,
  let m := b_meta b in
  let rr := read_request (Stream sc (b :: bs) t :: rest) in
  (get k_method m = None -> rr = Rej RsNoMethod)
  /\ (forall meth, get k_method m = Some meth -> utf8_valid meth = false -> rr = Rej RsBadUtf8)
  /\ (forall meth, get k_method m = Some meth -> utf8_valid meth = true ->
        get k_request_version m = None -> rr = Rej RsNoVersion)
  /\ (forall meth ver, get k_method m = Some meth -> utf8_valid meth = true ->
        get k_request_version m = Some ver -> ver <> wire_version -> rr = Rej RsWrongVersion)
  /\ (forall meth, get k_method m = Some meth -> utf8_valid meth = true ->
        get k_request_version m = Some wire_version -> row_rule_violated sc b = true ->
        rr = Rej RsRowCount).
Proof. intros. apply validate_errors. Qed.

Theorem rejection_types :
  etype_of RsNoMethod = EProtocol /\ etype_of RsBadUtf8 = EProtocol /\ etype_of RsRowCount = EProtocol
  /\ etype_of RsNoVersion = EVersion /\ etype_of RsWrongVersion = EVersion.
Proof. repeat split. Qed.

(* For ANY list of concatenated streams (any endings, junk anywhere): the
   cursor is that of the first cursor-bearing batch the walk can reach, and the
   call token is the first non-empty one up to and including that batch (over
   every reachable batch when there is no cursor). *)
Theorem find_tokens_exact : forall bd,
  find_stream_tokens bd =
  (first_some cursor_of (reach bd), first_some call_of (upto_cursor (reach bd))).
Proof. exact find_tokens_exact. Qed.

Theorem find_single_tokens : forall bd,
  find_state_token bd = fst (find_stream_tokens bd)
  /\ find_call_state_token bd = snd (find_stream_tokens bd).
Proof. intros. split; reflexivity. Qed.

(* the finders recover exactly what writeStateTokenBatch stamped: after any
   number of complete streams and batches that carry no cursor (headers, logs,
   data), whatever follows *)
Theorem find_tokens_recover_stamp : forall pre sc bs1 tok call bs2 t post,
  clean pre = true -> first_some cursor_of (reach pre ++ bs1) = None -> tok <> [] ->
  t <> TBroken ->
  find_stream_tokens (pre ++ Stream sc (bs1 ++ token_batch sc tok call :: bs2) t :: post)
  = (Some tok, or_first (first_some call_of (reach pre ++ bs1))
                        (match call with [] => None | _ => Some call end)).
Proof.
  intros pre sc bs1 tok call bs2 t post Hclean Hnone Htok Ht. unfold find_stream_tokens.
  rewrite find_loop_flat, (reach_app _ _ Hclean), reach_stream.
  replace (broken t) with false by (now destruct t).
  rewrite <- app_assoc, app_assoc, scan_app, scan_spec, Hnone, (upto_none _ Hnone).
  cbn [app scan_batches or_first]. now rewrite (cursor_of_token _ _ _ Htok), call_of_token.
Qed.

Theorem find_protocol_version_exact : forall bd,
  find_protocol_version bd =
  match first_stream bd with Some (_, bs) => dflt (first_some pv_of bs) | None => [] end.
Proof.
  intros bd. unfold find_protocol_version, first_stream.
  destruct bd as [|[sc bs t|] rest]; try reflexivity. destruct t; try reflexivity; apply fpv_spec.
Qed.

Theorem unary_result_roundtrip : forall r rest,
  exists s, write_unary_result [(f_result, TBinary)] r = Some s
            /\ read_unary_result (s :: rest) = Some ([(f_result, TBinary)], r).
Proof. intros r rest. eexists. split; reflexivity. Qed.

(* unwrap, rewrite the payload, re-wrap under the returned schema, unwrap *)
Theorem unary_result_rewrap : forall bd sc r r' rest,
  read_unary_result bd = Some (sc, r) -> envelope_ok sc = true ->
  exists s, write_unary_result sc r' = Some s /\ read_unary_result (s :: rest) = Some (sc, r').
Proof.
  intros bd sc r r' rest Hread Henv. destruct (envelope_ok_inv _ Henv) as [n ->].
  destruct bd as [|[sc0 bs t|] rest0]; try discriminate. rewrite read_unary_stream in Hread.
  destruct (broken t); [discriminate|].
  apply rur_some_has_field in Hread as [<- Hf].
  cbn [field_index] in Hf. destruct (beqb n f_result) eqn:En; [|contradiction].
  eexists. split; [reflexivity|]. now rewrite read_unary_envelope, En.
Qed.

Theorem write_unary_result_rejects : forall sc r,
  envelope_ok sc = false -> write_unary_result sc r = None.
Proof. intros sc r H. unfold write_unary_result. now rewrite H. Qed.

(* leading log batches (any number) are skipped; the first batch with rows decides *)
Theorem unary_skips_logs : forall sc logs b more t rest,
  t <> TBroken -> forallb is_log logs = true -> b_rows b <> 0%N ->
  read_unary_result (Stream sc (logs ++ b :: more) t :: rest) = decide_result sc b.
Proof. exact unary_skips_logs. Qed.

(* not-a-result: log-only; an EXCEPTION batch; a zero-row batch that is not a
   log; no field called result; a result field that is not binary; nothing
   that opens as a stream *)
Theorem unary_not_a_result : forall sc logs t rest,
  forallb is_log logs = true ->
  read_unary_result (Stream sc logs t :: rest) = None
  /\ (forall b more, b_rows b = 0%N -> get k_log_level (b_meta b) = Some level_exception ->
        read_unary_result (Stream sc (logs ++ b :: more) t :: rest) = None)
  /\ (forall b more, b_rows b = 0%N -> get k_log_level (b_meta b) = None ->
        read_unary_result (Stream sc (logs ++ b :: more) t :: rest) = None)
  /\ (forall b more, b_rows b <> 0%N -> field_index f_result sc = None ->
        read_unary_result (Stream sc (logs ++ b :: more) t :: rest) = None)
  /\ (forall b more i n ty, b_rows b <> 0%N -> field_index f_result sc = Some i ->
        nth_error sc i = Some (n, ty) -> ty <> TBinary ->
        read_unary_result (Stream sc (logs ++ b :: more) t :: rest) = None)
  /\ read_unary_result [] = None /\ read_unary_result (Junk :: rest) = None.
Proof.
  intros sc logs t rest Hl. repeat split.
  - rewrite <- (app_nil_r logs). now apply unary_none_after_logs.
  - intros b more Hr He. apply (unary_none_after_logs _ _ _ _ _ Hl), rur_zero_not_log, exception_not_skippable; assumption.
  - intros b more Hr He. apply (unary_none_after_logs _ _ _ _ _ Hl), rur_zero_not_log, no_level_not_skippable; assumption.
  - intros b more Hr Hf. apply (unary_none_after_logs _ _ _ _ _ Hl). now rewrite (rur_rows _ _ _ Hr), decide_no_result_field.
  - intros b more i n ty Hr Hi Hn Ht. apply (unary_none_after_logs _ _ _ _ _ Hl). rewrite (rur_rows _ _ _ Hr). now apply (decide_not_binary sc b i n ty).
Qed.

(* Malformed framing. A body whose first stream declares more bytes than it has (or does not open
   at all) is refused by every byte-slice function before arrow-go sees it:
   nothing is extracted from it, however intact its first batches are. The
   reader-based ReadRequest cannot apply the guard (the total size is unknown
   to a reader) and still judges by the first batch alone. *)
Theorem malformed_framing_refused : forall bd,
  guard_first bd = false ->
  find_stream_tokens bd = (None, None) /\ find_protocol_version bd = [] /\ read_unary_result bd = None.
Proof.
  intros [|[sc bs t|] rest]; [discriminate | | now repeat split].
  destruct t; try discriminate. now repeat split.
Qed.

Theorem read_request_reader_unguarded : forall sc b bs t rest,
  read_request (Stream sc (b :: bs) t :: rest) = validate sc b.
Proof. reflexivity. Qed.

(* before the guard a version was extracted from such a body *)
Theorem malformed_framing_legacy_refuted :
  exists bd, guard_first bd = false /\ find_protocol_version_legacy bd <> [].
Proof. exact legacy_refuted. Qed.

(* the decidable form that the correspondence check evaluates on the
   implementation's observables holds of the model's *)
Theorem spec_holds_on_model : forall i, spec_ok i (model i) = true.
Proof.
  intros i. destruct i as [ss|]; [|reflexivity].
  cbn [model spec_ok]. cbn [o_panics o_body o_rr o_tok o_state o_call o_pv o_ur o_guard o_guard_all].
  rewrite body_eqb_refl, spec_request_model, !eqb_reflx.
  replace (guard_first (wire ss)
           || tok_eqb (find_stream_tokens (wire ss)) (None, None)
              && beqb (find_protocol_version (wire ss)) [] && ur_eqb (read_unary_result (wire ss)) None)
    with true
    by (destruct (guard_first (wire ss)) eqn:Hg; [reflexivity|];
        destruct (malformed_framing_refused _ Hg) as (-> & -> & ->); reflexivity).
  unfold find_state_token, find_call_state_token.
  rewrite find_tokens_exact, tok_eqb_refl, !ob_eqb_refl.
  rewrite find_protocol_version_exact, beqb_refl, read_unary_exact, ur_eqb_refl.
  rewrite spec_req_roundtrip_model; [|reflexivity|cbn [o_pv]; now rewrite find_protocol_version_exact].
  rewrite spec_res_roundtrip_model; [reflexivity|reflexivity|reflexivity|].
  cbn [o_ur]. now rewrite read_unary_exact.
Qed.

(* The byte-level loop over a codec oracle. For ANY encoder/decoder pair such that decoding the encoding of a complete
   stream followed by more bytes returns that stream and exactly those bytes,
   no stream encodes to zero bytes, and the framing guard never refuses such an
   encoding, the FindStreamTokens loop as written in
   Go (with its no-progress guard, fuel = bytes + 1) computes on the
   concatenated encodings of any list of complete streams exactly the
   first-cursor / call-token rule above. *)
Theorem find_tokens_bytes_exact :
  forall (enc : seg -> bytes) (dec : bytes -> option (seg * bytes)),
  (forall sc bs rest, dec (enc (Stream sc bs TEos) ++ rest) = Some (Stream sc bs TEos, rest)) ->
  (forall g, enc g <> []) ->
  forall guard : bytes -> bool,
  (forall sc bs rest, guard (enc (Stream sc bs TEos) ++ rest) = true) ->
  forall ss, clean ss = true ->
  find_bytes dec guard (S (length (encode enc ss))) (encode enc ss) None None = spec_tokens ss.
Proof.
  intros enc dec Hde Hne guard Hg ss Hc.
  rewrite (find_bytes_clean enc dec Hde Hne guard Hg); [| assumption | apply Nat.lt_succ_diag_r].
  apply Proofs.C01.find_tokens_exact.
Qed.

(* non-vacuity: the premises above (those on the codec of
   find_tokens_bytes_exact excepted) are met by concrete values *)
Example premises_satisfiable :
  (* a multi-byte method, a two-column one-row batch, a version *)
  utf8_valid (hx "68c3a96c6c6fe697a5") = true
  /\ read_request [write_request (hx "68c3a96c6c6fe697a5") [(str "x", TInt64); (str "s", TUtf8)] 1
                     [[str "7"]; [str "a"]] (str "1.2.3")]
     = Acc (accepted (hx "68c3a96c6c6fe697a5") [(str "x", TInt64); (str "s", TUtf8)] 1
              [[str "7"]; [str "a"]] (str "1.2.3"))
  (* invalid UTF-8 exists *)
  /\ utf8_valid (hx "eda080") = false
  (* a header stream, then a data stream with a log, a data batch and a stamped token *)
  /\ (let hdr := Stream [(str "h", TInt64)] [ {| b_rows := 1; b_meta := []; b_cols := [[str "5"]] |} ] TEos in
      let lg := {| b_rows := 0; b_meta := [(k_log_level, str "INFO")]; b_cols := [[]] |} in
      let dt := {| b_rows := 1; b_meta := []; b_cols := [[str "1"]] |} in
      clean [hdr] = true
      /\ first_some cursor_of (reach [hdr] ++ [lg; dt]) = None
      /\ find_stream_tokens ([hdr] ++ Stream [(str "v", TInt64)]
            ([lg; dt] ++ token_batch [(str "v", TInt64)] (str "CUR") (str "CALL") :: []) TEos :: [])
         = (Some (str "CUR"), Some (str "CALL"))
      /\ forallb is_log [lg] = true)
  (* an envelope that is accepted and one that is not *)
  /\ envelope_ok [(f_result, TBinary)] = true /\ envelope_ok [(f_result, TUtf8)] = false.
Proof. repeat split; vm_compute; reflexivity. Qed.
