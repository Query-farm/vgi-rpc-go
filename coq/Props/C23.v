(* Props/C23.v — property C23: authenticator failures map to the right status and
   chains stop correctly.

   Model (Model/C23.v): [status_of] = the error branch of HttpServer.authenticate
   with classifyAuthError / AuthReason.known / retryAfterSeconds; [respond] = the
   response incl. writeUnauthorized's headers and JSON envelope; [chain] =
   ChainAuthenticate over the outcomes of its members; [run] = the same over a tree
   of nested chains with the call trace.
   Vocabulary (Proofs/C23.v): [contains_unavail e r] — an AuthUnavailableError with
   RetryAfter r occurs ANYWHERE in the error tree e (through Unwrap() error and
   Unwrap() []error alike); [in_unwrap_chain e x] — x is reachable from e through
   Unwrap() error only; [rejection e reason detail] — an AuthFailure in the Unwrap
   chain (reason = its code if in the closed set, else unauthorized), or e ITSELF an
   RpcError of type PermissionError (insufficient_scope) or ValueError
   (unauthorized); [moves_on o] — o is a directly returned ValueError RpcError.
   The closed set [s_closed_set], the type names and the header values that [spec_ok]
   tests are written out in Model/C23.v independently of the constants regenerated
   from the code; the header names occur only in [code_constants_match_spec]. *)
From Coq Require Import ZArith.
From VR Require Import Model.C23 Proofs.C23 Lib.Lists.

(* Status mapping, for every error tree of any depth and width.  503 whenever an AuthUnavailableError is anywhere in the tree; the Retry-After
   is that of one of them, exactly: the first in errors.As walk order
   ([s_unavails] lists them in that order); zero or negative means the default 5. *)
Theorem status_spec_503 : forall e,
  (forall r, contains_unavail e r ->
     exists r0, contains_unavail e r0 /\ status_of e = R503 (retry_after r0)) /\
  (forall r0 rest, s_unavails e = r0 :: rest -> status_of e = R503 (retry_after r0)) /\
  (forall r, contains_unavail e r -> (forall r', contains_unavail e r' -> r' = r) ->
     status_of e = R503 (if (0 <? r)%Z then r else 5%Z)).
Proof.
  intro e. split; [exact (status_503_anywhere e)|]. split.
  - intros r0 rest H. now rewrite status_char, H.
  - intros r H Hall. destruct (status_503_anywhere e r H) as [r0 [H0 Hs]].
    now rewrite Hs, (Hall r0 H0), retry_after_eq.
Qed.

(* otherwise 401 for a rejection, with exactly its reason and detail, the reason
   being a member of the closed set *)
Theorem status_spec_401 : forall e reason detail,
  (forall r, ~ contains_unavail e r) -> rejection e reason detail ->
  status_of e = R401 reason detail /\ In reason s_closed_set.
Proof. intros e reason detail _. apply rejection_status. Qed.

(* and 500 for everything else: a wrapped RpcError, an AuthFailure that is only
   reachable through a multi-Unwrap, any other RpcError type, any foreign error *)
Theorem status_spec_500 : forall e,
  (forall r, ~ contains_unavail e r) -> (forall reason detail, ~ rejection e reason detail) ->
  status_of e = R500.
Proof.
  intros e Hn Hr. rewrite status_char, (no_unavail_nil e Hn).
  destruct (s_rejection e) as [[r d]|] eqn:E; [|reflexivity]. now destruct (Hr r d); apply s_rejection_iff.
Qed.

(* 503 happens ONLY for an outage *)
Theorem status_503_only_if_unavailable : forall e,
  (exists r, status_of e = R503 r) <-> (exists r, contains_unavail e r).
Proof.
  intro e. split.
  - intros [r H]. rewrite status_char in H. destruct (s_unavails e) as [|r0 rest] eqn:E.
    + now destruct (s_rejection e) as [[]|].
    + exists r0. apply s_unavails_contains. rewrite E. now left.
  - intros [r H]. destruct (status_503_anywhere e r H) as [r0 [_ Hs]]. eauto.
Qed.

(* precedence: an outage anywhere beats any AuthFailure anywhere in the same tree *)
Theorem unavailable_takes_precedence : forall e r,
  contains_unavail e r ->
  (forall reason detail, status_of e <> R401 reason detail) /\ status_of e <> R500.
Proof.
  intros e r H. destruct (status_503_anywhere e r H) as [r0 [_ Hs]]. rewrite Hs.
  split; [intros reason detail|]; discriminate.
Qed.

(* and in this universe of error values a rejection never contains an outage, so
   the order of the tests inside authenticate cannot change an answer *)
Theorem rejection_never_hides_outage : forall e reason detail,
  rejection e reason detail -> forall r, ~ contains_unavail e r.
Proof.
  intros e reason detail Hr r Hu. apply s_unavails_contains in Hu.
  now rewrite (rejection_unavails_nil e reason detail Hr) in Hu.
Qed.

(* Reason codes: every reason STRING (any bytes) is reported as a member of the closed set;
   members are reported unchanged; everything else as unauthorized *)
Theorem reason_in_closed_set : forall r,
  In (norm r) s_closed_set /\
  (In r s_closed_set -> norm r = r) /\
  (~ In r s_closed_set -> norm r = s_unauthorized).
Proof.
  intro r. rewrite <- !s_in_set_In, norm_eq. destruct (s_in_set r) eqn:E.
  - split; [exact E|]. split; [reflexivity | congruence].
  - split; [reflexivity|]. split; [discriminate | reflexivity].
Qed.

Theorem every_401_reason_in_closed_set : forall e reason detail,
  status_of e = R401 reason detail -> In reason s_closed_set.
Proof.
  intros e reason detail. rewrite status_char. destruct (s_unavails e); [|discriminate].
  destruct (s_rejection e) as [[r d]|] eqn:E; [|discriminate].
  intros [= <- <-]. apply (rejection_reason_in_set e r d), s_rejection_iff, E.
Qed.

(* the set the code's AuthReason.known accepts IS the documented closed set, and
   the header names are the documented ones (regenerated constants) *)
Theorem code_constants_match_spec :
  c23_auth_reasons = s_closed_set /\ c23_default_retry_after = 5%Z /\
  c23_cache_control_401 = str "no-store" /\
  c23_hdr_auth_reason = str "VGI-Auth-Reason" /\
  c23_hdr_proxy_required = str "VGI-Auth-Proxy-Required" /\
  ty_value_error = str "ValueError" /\ ty_permission_error = str "PermissionError".
Proof. repeat split; reflexivity. Qed.

(* What is on the wire, for a 401 and for a 503. *)
Theorem headers_on_401 : forall c tr og e reason detail,
  status_of e = R401 reason detail ->
  let ob := respond c tr og (Err e) in
  o_status ob = 401%Z /\ o_reason ob = [reason] /\ In reason s_closed_set
  /\ o_cache ob = [str "no-store"]
  /\ o_www ob = match c_www c with [] => [] | w => [w] end
  /\ o_retry ob = []
  /\ o_body ob = Some {| b_error := s_unauthorized; b_reason := reason; b_detail := detail;
                         b_hint := c_proxy c |}
  /\ o_reached ob = [].
Proof.
  intros c tr og e reason detail H. pose proof (every_401_reason_in_closed_set e reason detail H) as Hin.
  unfold respond. rewrite H. repeat split; try reflexivity. exact Hin.
Qed.

Theorem headers_on_503 : forall c tr og e r,
  status_of e = R503 r ->
  let ob := respond c tr og (Err e) in
  o_status ob = 503%Z /\ o_retry ob = [r] /\ (0 < r)%Z /\ o_reason ob = [] /\ o_reached ob = [].
Proof.
  intros c tr og e r H. unfold respond. rewrite H. repeat split; try reflexivity.
  rewrite status_char in H. destruct (s_unavails e); [now destruct (s_rejection e) as [[]|]|].
  injection H as <-. apply retry_after_pos.
Qed.

(* what must NOT happen: no reason header, proxy note or 401 envelope on anything
   that is not a 401 (success, 503, 500) *)
Theorem no_401_headers_otherwise : forall c tr og o,
  (forall e reason detail, o = Err e -> status_of e <> R401 reason detail) ->
  let ob := respond c tr og o in
  o_reason ob = [] /\ o_proxy ob = [] /\ o_body ob = None /\ o_status ob <> 401%Z.
Proof.
  intros c tr og o H. unfold respond. destruct o as [p|e].
  - repeat split; try reflexivity. discriminate.
  - destruct (status_of e) as [r|reason detail|] eqn:E.
    + repeat split; try reflexivity. discriminate.
    + exfalso. exact (H e reason detail eq_refl E).
    + repeat split; try reflexivity. discriminate.
Qed.

(* Chains, of any length: every list of member outcomes has exactly one of two shapes ... *)
Theorem chain_shape_exhaustive : forall l,
  Forall moves_on l \/
  exists pre x post, l = pre ++ x :: post /\ Forall moves_on pre /\ ~ moves_on x.
Proof.
  intro l. destruct (allp l) eqn:E; [left; now apply allp_Forall|]. right.
  destruct (forallb_false_split passes l E) as (pre & x & post & -> & Hp & Hx). exists pre, x, post.
  repeat split; [now apply allp_Forall|]. intro H. apply passes_iff in H. congruence.
Qed.

(* ... the chain calls the members up to and including the first one that does not
   move on and returns THAT member's outcome unchanged: the first success, or the
   first unavailable / PermissionError / wrapped / foreign error; members after
   it are never called ... *)
Theorem chain_spec_stop : forall pre x post,
  Forall moves_on pre -> ~ moves_on x ->
  chain (pre ++ x :: post) = (S (length pre), x).
Proof.
  intros pre x post Hp Hx. apply chain_at_stop; [now apply allp_Forall|].
  destruct (passes x) eqn:E; [destruct Hx; now apply passes_iff | reflexivity].
Qed.

(* ... and when every member returned a ValueError RpcError directly, all are
   called and the result is a fresh ValueError RpcError, which is a 401 *)
Theorem chain_spec_exhausted : forall l,
  Forall moves_on l ->
  chain l = (length l, Err exhausted) /\
  status_of exhausted = R401 s_unauthorized c23_chain_exhausted_msg.
Proof. intros l H. split; [apply chain_allp, allp_Forall, H | reflexivity]. Qed.

(* the chain moves on ONLY past a directly returned ValueError RpcError *)
Theorem moves_on_only_past_direct_value_error : forall o,
  passes o = true <-> exists msg, o = Err (Rpc (str "ValueError") msg).
Proof. exact passes_iff. Qed.

(* an outage reported by the member the chain stops at is never turned into a 401:
   it comes out of the chain unchanged and is answered 503 *)
Theorem chain_outage_is_503 : forall pre e post r,
  Forall moves_on pre -> contains_unavail e r ->
  chain (pre ++ Err e :: post) = (S (length pre), Err e) /\
  exists r0, contains_unavail e r0 /\ status_of e = R503 (retry_after r0).
Proof.
  intros pre e post r Hp Hu. split; [|exact (status_503_anywhere e r Hu)].
  apply chain_spec_stop; [exact Hp|]. intros [msg H]. injection H as ->. inversion Hu.
Qed.

(* nested chains (a chain used as a member of a chain, to any depth) behave as
   the flat chain of their scripts, left to right: same calls in the same order,
   same result *)
Theorem nested_chain_is_flat_chain : forall l,
  run (Chain l) 0 =
    (seq 0 (fst (chain (s_scripts (Chain l)))),
     (if allp (s_scripts (Chain l)) then FromExhausted
      else FromScript (fst (chain (s_scripts (Chain l))) - 1)),
     snd (chain (s_scripts (Chain l)))).
Proof.
  intro l. rewrite run_chain_scripts. apply run_scripts. Qed.

(* The whole property, in the decidable form evaluated on the implementation. *)
Theorem spec_holds_on_model : forall i, spec_ok i (model i) = true.
Proof.
  intros [c a]. unfold model. cbn [i_auth i_cfg].
  destruct (buildable a) eqn:Hb; [|unfold spec_ok; cbn [i_auth]; now rewrite Hb].
  destruct a as [o|l].
  - eapply spec_ok_respond; [exact Hb | apply stop_script | apply dres_ok_script | apply response_ok_script].
  - rewrite nested_chain_is_flat_chain. pose proof (stop_chain l Hb) as Hs.
    destruct (allp (s_scripts (Chain l))) eqn:Ea.
    + rewrite (chain_allp _ Ea) in *.
      eapply spec_ok_respond; [exact Hb | exact Hs | reflexivity | apply response_ok_exhausted].
    + eapply spec_ok_respond; [exact Hb | exact Hs | apply dres_ok_script | apply response_ok_script].
Qed.

(* The code before fix d0a0e66 violated the closed set. *)
Theorem reason_passthrough_legacy_refuted :
  exists e reason detail, status_legacy e = R401 reason detail /\ ~ In reason s_closed_set.
Proof. exact legacy_refuted. Qed.

(* even a reason carrying CR LF reached the header value *)
Theorem reason_crlf_legacy_refuted :
  exists e reason detail, status_legacy e = R401 reason detail /\ In 13%N reason /\ In 10%N reason.
Proof.
  exists (Wrap (Failure (hx "780d0a5365742d436f6f6b69653a20613d62") [])),
         (hx "780d0a5365742d436f6f6b69653a20613d62"), [].
  split; [reflexivity|]. split; vm_compute; tauto.
Qed.

(* non-vacuity: a tree holding an outage under a join next to an AuthFailure; a rejection through
   two wrappers with a foreign reason; a 500 (failure only under a join); a chain
   that stops at its third member after two that moved on *)
Example premises_satisfiable :
  contains_unavail (Wrap (Join [Failure (str "expired_credential") []; Wrap (Unavailable 30)])) 30
  /\ contains_failure (Wrap (Join [Failure (str "expired_credential") []; Wrap (Unavailable 30)]))
  /\ status_of (Wrap (Join [Failure (str "expired_credential") []; Wrap (Unavailable 30)])) = R503 30
  /\ rejection (Wrap (Wrap (Failure (str "made_up") (str "d")))) (str "unauthorized") (str "d")
  /\ (forall r, ~ contains_unavail (Wrap (Wrap (Failure (str "made_up") (str "d")))) r)
  /\ status_of (Join [Failure (str "expired_credential") []]) = R500
  /\ (Forall moves_on [Err (Rpc (str "ValueError") []); Err (Rpc (str "ValueError") (str "x"))]
      /\ ~ moves_on (Err (Wrap (Rpc (str "ValueError") [])))
      /\ chain ([Err (Rpc (str "ValueError") []); Err (Rpc (str "ValueError") (str "x"))]
                ++ Err (Wrap (Rpc (str "ValueError") [])) :: [Ok (str "bob")])
         = (3%nat, Err (Wrap (Rpc (str "ValueError") [])))).
Proof.
  split. { apply s_unavails_contains. now left. }
  split. { constructor. apply (cf_join _ (Failure (str "expired_credential") [])); [left; reflexivity|]. constructor. }
  split; [reflexivity|].
  split. { left. exists (str "made_up"). split; [repeat constructor | reflexivity]. }
  split. { intros r H. now apply s_unavails_contains in H. }
  split; [reflexivity|].
  split. { repeat constructor; eexists; reflexivity. }
  split. { intros [m H]. discriminate. }
  reflexivity.
Qed.
