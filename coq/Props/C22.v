(* Props/C22.v — property C22: every RPC and control route is behind the
   authenticator. Lemmas in Proofs/C22.v.

   Model: Model/C22.v. [serve c a ctx q] is ServeHTTP for request [q] (method, raw
   escaped path of ANY length, content type, body kind, session header, Accept)
   on a server configured as lattice point [c] whose AuthenticateFunc behaves
   as [a]; it yields the status, the WORK trace (request body read, dispatch
   hook, unary handler, stream init, Produce/Exchange, rehydrate, introspection
   resolver, upload-URL provider, describe batch, session close, operator
   handler), whether the authenticator was consulted, and the mux pattern hit.
   [routed c a q] is the route the request is handed to (None: CORS preflight,
   canonicalisation redirect, the mux's own 404/405). [auth_required c pk r]:
   the FIRST action of route r's handler is h.authenticate. A rejecting
   authenticator is one with [auth_outcome a = AR_rej st]: AuthFailure (also
   wrapped), ValueError, PermissionError -> 401; AuthUnavailable (also wrapped)
   -> 503; any other error (incl. a wrapped ValueError) -> 500; (nil, nil) ->
   st = 200: nothing is written and the handler returns. An authenticator
   script has a second component, [ctx : ctxc]: the *AuthContext returned
   TOGETHER WITH the error (nil / alice / the introspector); every theorem
   quantifies over it.
   Decided by computation: the two full route tables (prefix off / on, every
   other feature on: 17 and 18 routes). A route's pattern reads the prefix toggle
   only and the other toggles only remove routes, so this covers the whole
   feature lattice (2^12 = 4096 configurations: prefix, landing/describe/
   not-found page, sticky, PKCE, custom routes, upload provider, introspection,
   OAuth metadata, CORS, max_request_bytes cap) x the effective-PKCE flag. Requests are
   NOT bounded. *)
From Coq Require Import List NArith ZArith.
From VR Require Import Model.C22 Proofs.C22.
Import ListNotations.
Local Open Scope N_scope.

(* Table level. For every configuration, every route whose handler starts with
   the authenticator, every rejecting outcome and EVERY request handed to that
   route: the handler's result is the auth-layer status, an empty work trace,
   authenticator consulted — nothing else. *)
Theorem rejected_route_does_no_work : forall c a ctx r path_segments q st,
  auth_outcome a = AR_rej st ->
  auth_required c (pkce_on c a) r = true ->
  run_route c a ctx r path_segments q = (st, [], true).
Proof. exact rejected_route. Qed.

(* Request level, through ServeHTTP and the mux: whatever the method, path
   bytes, content type, body and headers, if the request lands on a route that
   requires authentication and the authenticator rejects, no handler, stream
   state, rehydration, resolver, provider, describe builder or hook runs, the
   body is not even read, and the status is the authenticator's. *)
Theorem rejected_request_does_no_work : forall c a ctx q r st,
  auth_outcome a = AR_rej st ->
  routed c a q = Some r ->
  auth_required c (pkce_on c a) r = true ->
  o_work (serve c a ctx q) = [] /\ o_status (serve c a ctx q) = st
  /\ o_consulted (serve c a ctx q) = true /\ o_body (serve c a ctx q) = Some (bk_of st).
Proof. intros c a ctx q r st Ea Hr Hg. rewrite (rejected_request c a ctx q r st Ea Hr Hg). auto. Qed.

(* The verdict is a function of the ERROR component of what the
   AuthenticateFunc returned, never of the context component: an
   identified-but-refused caller (non-nil *AuthContext together with the
   error) gets, on every gated route, exactly the response of one for whom the
   callback returned (nil, err) - same status, same empty work trace, same
   body. ([ctx] is universally quantified in the two theorems above as well.) *)
Theorem verdict_ignores_returned_context : forall c a ctx ctx' q r st,
  auth_outcome a = AR_rej st ->
  routed c a q = Some r ->
  auth_required c (pkce_on c a) r = true ->
  serve c a ctx q = serve c a ctx' q.
Proof. intros c a ctx ctx' q r st Ea Hr Hg. now rewrite !(rejected_request c a _ q r st Ea Hr Hg). Qed.

(* Which routes those are: every RPC route (unary — which also serves
   __describe__ —, stream init, exchange / continuation) and every control
   route requires authentication in every configuration; the one exception is
   the introspection route while introspection is NOT enabled, which is an
   inert stub (fixed 404, resolver absent, nothing looked up). *)
Theorem rpc_and_control_routes_require_auth : forall c pk r,
  route_class r = RC_rpc \/ route_class r = RC_control ->
  auth_required c pk r = true
  \/ ((r = R_introspect /\ c_introspect c = false) /\ gate_of c pk r = G_stub).
Proof.
  unfold auth_required, gate_of, gate_of_gen.
  destruct r; cbn; intros [H|H]; try discriminate H; auto.
  destruct (c_introspect c); cbn; auto.
Qed.

(* A route that does not start with the authenticator belongs to one of the
   classes the property names: health probe, OAuth metadata document, login
   route, HTML page, operator-registered route, session delete (or is the
   disabled-introspection stub). *)
Theorem unauthenticated_routes_are_open_classes : forall c pk r,
  auth_required c pk r = false ->
  class_open (route_class r) = true \/ (r = R_introspect /\ c_introspect c = false).
Proof.
  unfold auth_required, gate_of, gate_of_gen.
  destruct r; cbn; auto; try discriminate.
  destruct (c_introspect c); cbn; auto.
Qed.

(* Request level: for EVERY request under a rejecting authenticator, either the
   authenticator stopped it (no work, its status), or it is a CORS preflight
   (204, authenticator not consulted), or the mux answered it itself
   (redirect / 404 / 405, no work), or it reached a registered route of an open
   class — and there the only work is that route's own (operator handler,
   closing the caller's own anonymous session, the token proxy reading its
   form): never a method handler, stream state, rehydration, resolver,
   provider, describe batch or dispatch hook. *)
Theorem open_routes_exactly : forall c a ctx q st,
  auth_outcome a = AR_rej st ->
  let o := serve c a ctx q in
  (o_work o = [] /\ o_status o = st /\ o_consulted o = true)
  \/ (q_meth q = M_OPTIONS /\ o_status o = 204 /\ o_work o = [] /\ o_consulted o = false)
  \/ (q_meth q <> M_OPTIONS /\ routed c a q = None /\ o_work o = [] /\ o_consulted o = false
      /\ In (o_status o) [redirect_status; 404; 405; 413]
      /\ (o_status o = 413 <-> pre413 c q = true))
  \/ (exists r, routed c a q = Some r /\ In r (registered c (pkce_on c a))
        /\ auth_required c (pkce_on c a) r = false
        /\ (class_open (route_class r) = true \/ (r = R_introspect /\ c_introspect c = false))
        /\ forall w, In w (o_work o) -> In w (open_work r)).
Proof.
  intros c a x q st Ea o. subst o. destruct (routed c a q) as [r|] eqn:Er.
  - destruct (auth_required c (pkce_on c a) r) eqn:Eg.
    + left. rewrite (rejected_request c a x q r st Ea Er Eg). auto.
    + right. right. right. exists r. destruct (serve_routed _ _ _ _ Er) as (Hin & _ & _ & ss & E).
      repeat split; auto. { now apply unauthenticated_routes_are_open_classes with (pk := pkce_on c a). }
      rewrite E. destruct (run_route c a x r ss q) as [[s1 w1] c1] eqn:Err.
      apply wsubset_In. eapply open_route_work; eauto.
  - right. destruct (serve_unrouted c a x q Er) as (-> & -> & (s & Hs & ->) & _).
    destruct (is_options (q_meth q)) eqn:Eo; [left; apply is_options_true in Eo; auto|right; left].
    assert (Hm : q_meth q <> M_OPTIONS) by (intro E; apply is_options_true in E; congruence).
    do 4 (split; [auto|]). destruct (pre413 c q); [cbn; intuition|].
    split; [cbn in *; tauto|]. split; [|discriminate]. intros ->. destruct Hs as [H|[H|[H|[]]]]; discriminate H.
Qed.

(* The request-cap fast path of ServeHTTP (SetMaxRequestBytes; declared
   Content-Length above the cap, path not under /health or {prefix}/health)
   runs BEFORE the mux and the authenticator. For every configuration - upload
   provider configured or not -, every authenticator script and every route:
   413, empty work trace (no provider call, no vended URL), authenticator not
   consulted. *)
Theorem over_cap_request_does_no_work : forall c a ctx q,
  q_meth q <> M_OPTIONS -> pre413 c q = true ->
  o_status (serve c a ctx q) = 413 /\ o_work (serve c a ctx q) = []
  /\ o_consulted (serve c a ctx q) = false.
Proof.
  intros c a x q Hm E4. destruct (serve_unrouted c a x q) as (-> & -> & (s & _ & ->) & _).
  { unfold routed. rewrite E4. now destruct (is_options (q_meth q)). }
  rewrite E4. destruct (is_options (q_meth q)) eqn:Eo; [now apply is_options_true in Eo|auto].
Qed.

(* On NO response to a request the authenticator rejects - auth-layer exit,
   preflight, 413, 415/404/405/307, open route - does the upload-URL provider
   run or a pre-signed URL appear (headers or body). *)
Theorem rejected_caller_is_never_vended_a_url : forall c a ctx q st,
  auth_outcome a = AR_rej st ->
  ~ In W_vend (o_work (serve c a ctx q)) /\ ~ In W_provider (o_work (serve c a ctx q)).
Proof.
  intros c a x q st Ea.
  destruct (open_routes_exactly c a x q st Ea) as [[-> _] | [[_ [_ [-> _]]] | [[_ [_ [-> _]]] | [r [_ [_ [_ [_ H]]]]]]]];
    try (cbn; tauto).
  split; intro Hin; apply H in Hin; destruct r; cbn in Hin; intuition discriminate.
Qed.

(* ... and none of the six classes is empty talk: each is reached, without the
   authenticator being consulted and without a 401, by a rejected caller. *)
Theorem open_classes_are_reachable : forall k,
  In k open_classes ->
  exists c q r, routed c A_fail q = Some r /\ route_class r = k
                /\ o_consulted (serve c A_fail CX_alice q) = false
                /\ o_status (serve c A_fail CX_alice q) <> 401.
Proof.
  intros k Hk. exists (cfgm 2047), (class_witness k).
  repeat (destruct Hk as [<- | Hk]); [.. | destruct Hk]; eexists; lazy;
    (split; [reflexivity|]); repeat split; (reflexivity || discriminate).
Qed.

(* A request is only ever handed to a route that the configuration registered
   (mux model: dispatch picks from the registered table). *)
Theorem routed_is_registered : forall c a q r,
  routed c a q = Some r -> In r (registered c (pkce_on c a)).
Proof. intros c a q r H. exact (proj1 (serve_routed c a q r H)). Qed.

(* For each of the 256 tabulated lattice points (all 2^7 settings of prefix,
   landing, describe, not-found page, sticky, PKCE and custom routes; the other
   five toggles all off / all on) the
   patterns read out of the REAL ServeMux are exactly the table's patterns, and
   the real routes that answered a probe with 401 / consulted an always-rejecting
   authenticator are exactly those whose first action is the authenticator or
   the PKCE login wall. An added, renamed or no-longer-authenticating route
   breaks this at make time. (c22_* are regenerated by vgirpc/verif_c22.go.) *)
Theorem table_matches_compiled_mux :
  c22_tie_ok = 1%Z /\ length c22_table = 256%nat /\ forallb row_ok c22_table = true.
Proof. split; [reflexivity|]. split; [vm_compute; reflexivity | exact table_ok]. Qed.

(* Within a configuration a pattern string names one route, for every
   configuration: [spec_ok] can look the route up from the pattern the real
   mux reports. *)
Theorem pattern_names_its_route : forall c pk r,
  In r (registered c pk) ->
  pat_str (route_pat c r) <> [] /\ route_of_pat c pk (pat_str (route_pat c r)) = Some r.
Proof. exact pattern_names_route. Qed.

(* The decidable form, which the harness evaluates on the implementation. *)
Theorem model_satisfies_spec : forall i, spec_ok i (model i) = true.
Proof. exact spec_ok_model. Qed.

(* Before fix 92a19ba handleUploadURLInit did not authenticate: a caller rejected with 401
   everywhere else had the provider mint pre-signed URLs (status 200). *)
Theorem upload_url_legacy_refuted :
  exists c a q, rejecting a = true /\ routed c a q = Some R_upload
                /\ auth_required c (pkce_on c a) R_upload = true
                /\ In W_provider (o_work (serve_gen true c a CX_nil q))
                /\ o_status (serve_gen true c a CX_nil q) = 200
                /\ spec_ok (Probe c a CX_nil q) (model_legacy (Probe c a CX_nil q)) = false.
Proof. exact legacy_refuted. Qed.

(* non-vacuity *)
Definition ex_req : request :=
  {| q_meth := M_POST; q_path := str "/vgi/exch/exchange"; q_ctype := CT_arrow;
     q_body := B_exch (str "exch"); q_sess := S_none; q_html := false; q_big := false |}.

(* the premises of rejected_request_does_no_work hold for a concrete request,
   and the same request does real work once the authenticator accepts *)
Example rejected_premises_met :
  auth_outcome A_unavail = AR_rej 503
  /\ routed (cfgm 2047) A_unavail ex_req = Some R_exchange
  /\ auth_required (cfgm 2047) (pkce_on (cfgm 2047) A_unavail) R_exchange = true
  /\ o_status (serve (cfgm 2047) A_unavail CX_alice ex_req) = 503
  /\ o_body (serve (cfgm 2047) A_unavail CX_alice ex_req) = Some BK_rej503
  /\ o_work (serve (cfgm 2047) A_ok CX_nil ex_req) = [W_body; W_hook; W_state; W_rehydrate].
Proof. vm_compute. repeat split. Qed.

(* the fourth disjunct of open_routes_exactly is inhabited with non-empty work *)
Example open_route_with_work :
  o_work (serve (cfgm 2047) A_fail CX_nil
            {| q_meth := M_DELETE; q_path := str "/vgi/__session__"; q_ctype := CT_none;
               q_body := B_none; q_sess := S_anon; q_html := false; q_big := false |}) = [W_session_close].
Proof. vm_compute. reflexivity. Qed.

(* (nil, nil) from the authenticator: an empty 200, no work *)
Example nilnil_is_a_silent_200 :
  let o := serve (cfgm 2047) A_nilnil CX_nil
             {| q_meth := M_POST; q_path := str "/vgi/u_int"; q_ctype := CT_arrow;
                q_body := B_req (str "u_int"); q_sess := S_none; q_html := false; q_big := false |} in
  o_status o = 200 /\ o_work o = [] /\ o_consulted o = true /\ o_body o = Some BK_empty.
Proof. vm_compute. repeat split. Qed.

(* the one place the returned context is looked at despite the error: the
   best-effort principal of the open session-delete route (no PKCE chain):
   a refused-but-identified alice closes alice's own session *)
Example session_delete_uses_returned_context :
  let q := {| q_meth := M_DELETE; q_path := str "/vgi/__session__"; q_ctype := CT_none;
              q_body := B_none; q_sess := S_alice; q_html := false; q_big := false |} in
  o_work (serve (cfgm 2015) A_fail CX_alice q) = [W_session_close]
  /\ o_work (serve (cfgm 2015) A_fail CX_nil q) = [].
Proof. vm_compute. split; reflexivity. Qed.

(* the premises of over_cap_request_does_no_work are met: cap and upload provider
   configured, rejecting authenticator, over-cap request to __upload_url__/init;
   the same request of normal size is stopped by the authenticator instead, and
   an over-cap health probe is exempt *)
Example over_cap_premises_met :
  let q b p := {| q_meth := M_POST; q_path := p; q_ctype := CT_arrow;
                  q_body := B_req c22_upload_seg; q_sess := S_none; q_html := false; q_big := b |} in
  pre413 (cfgm 4063) (q true (str "/vgi/__upload_url__/init")) = true
  /\ o_status (serve (cfgm 4063) A_fail CX_alice (q true (str "/vgi/__upload_url__/init"))) = 413
  /\ o_status (serve (cfgm 4063) A_fail CX_alice (q false (str "/vgi/__upload_url__/init"))) = 401
  /\ o_work (serve (cfgm 4063) A_ok CX_nil (q false (str "/vgi/__upload_url__/init"))) = [W_body; W_provider; W_vend]
  /\ pre413 (cfgm 4063) (q true (str "/vgi/health")) = false.
Proof. vm_compute. repeat split. Qed.
