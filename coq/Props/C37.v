(* Props/C37.v — property C37: dispatch hooks see exactly one start and one end per
   dispatched call.  For every call the server dispatches, on any transport and
   with any outcome, a hook whose start returns normally has its end run exactly
   once with the start's token, and end receives a non-nil error exactly when the
   response reports an error to the client; a hook that panics in start or end
   changes neither the response nor later calls.
   The lemmas on the hook log and on fates are in Proofs/C37.v.  Quantifiers: every hook
   behaviour script [hs] (which starts panic, which ends panic), every list of
   calls (transport, method kind, request defects, handler / stream-state script,
   client continuation script), every schedule of Begin / Finish steps
   (interleaved or not, ill-formed steps included). *)
From VR Require Import Model.C37 Proofs.C37.
Local Open Scope nat_scope.

(* Token values: 0 = nil token, S n = the token issued by start n (a start may
   legally return a nil token, and any context: the caller's, nil, a derived one).
   Over the whole hook log of a history (all requests of all calls on both
   transports, in the order the hook saw them):
   (1) every start id occurs at most once, and a non-nil token value S t is
       returned by start t only — so it is returned at most once;
   (2) in EVERY prefix of the log, the ends carrying token value t never outnumber
       the starts that returned t — no end without (or before) its start, no
       second end for a non-nil token;
   (3) at the end of the history, (ends with token t) + (requests still suspended
       between their start and their end that hold t) = (starts that returned t):
       once no request is suspended, every start that returned has had exactly one
       end with its token, and a start that panicked (returned nothing) has none. *)
Theorem start_end_balanced_same_token : forall hs calls sched,
  let r := run hs calls sched in
  let evs := flat_evs (snd r) in
  (forall t, cnt (is_start_of t) evs <= 1 /\ cnt (is_sret_of (S t)) evs <= cnt (is_start_of t) evs)
  /\ (forall p s t, evs = p ++ s -> cnt (is_end_tok t) p <= cnt (is_sret_of t) p)
  /\ (forall t, cnt (is_end_tok t) evs + held t (h_tab (fst r)) = cnt (is_sret_of t) evs).
Proof.
  intros hs calls sched.
  cbn zeta. destruct (run_bal hs calls sched) as (open & B & Hbal). repeat split.
  - exact (proj1 (bal_starts _ _ _ _ _ B t)).
  - exact (proj2 (proj2 (bal_starts _ _ _ _ _ B t))).
  - intros p s t E. rewrite E, bal_app in B. destruct (bal 0 [] p) as [[n1 o1]|] eqn:B1; [|discriminate].
    pose proof (bal_counts _ _ _ _ _ B1 t) as C. cbn in C. lia.
  - intro t. pose proof (bal_counts _ _ _ _ _ B t) as C. cbn in C. rewrite <- (Hbal t). lia.
Qed.

Corollary quiescent_every_returned_start_ended_once : forall hs calls sched t,
  h_tab (fst (run hs calls sched)) = [] ->
  cnt (is_end_tok t) (flat_evs (snd (run hs calls sched)))
  = cnt (is_sret_of t) (flat_evs (snd (run hs calls sched))).
Proof.
  intros hs calls sched t Q. destruct (start_end_balanced_same_token hs calls sched) as (_ & _ & B).
  specialize (B t). rewrite Q in B. cbn in B. now rewrite Nat.add_0_r in B.
Qed.

(* The token: a request that runs through sees [start n; end tv] where tv is exactly
   the token value start n returned (end only if the start returned); a request
   suspended in its handler gets, when it resumes, the end with the token ITS
   start returned, whatever happened to the hook meanwhile. *)
Theorem end_carries_the_starts_token : forall hs h s e,
  s_part s = PtWhole e ->
  q_evs (snd (drq hs h s)) =
  HStart (h_next h) (start_out hs (h_next h))
  :: match start_out hs (h_next h) with Some (tv, _) => [HEnd tv e] | None => [] end.
Proof.
  intros hs h s e P. unfold drq. rewrite P. cbn. rewrite hook_end_evs. reflexivity.
Qed.

Theorem suspended_request_gets_its_own_token : forall hs h s1 s2 e,
  s_part s1 = PtBegin -> s_part s2 = PtEnd e -> s_k s2 = s_k s1 ->
  q_evs (snd (drq hs h s1)) = [HStart (h_next h) (start_out hs (h_next h))]
  /\ q_evs (snd (drq hs (fst (drq hs h s1)) s2))
     = match start_out hs (h_next h) with Some (tv, _) => [HEnd tv e] | None => [] end
  /\ q_seen (snd (drq hs (fst (drq hs h s1)) s2)) = (if s_user s2 then Some (cv_of (start_out hs (h_next h))) else None).
Proof.
  intros hs h s1 s2 e P1 P2 K. destruct (drq_begin hs h s1 P1) as [-> ->]. split; [reflexivity|].
  unfold drq. rewrite P2. cbn [h_tab take_tok]. rewrite K, Nat.eqb_refl. cbn. rewrite hook_end_evs.
  split; reflexivity.
Qed.

(* The token flows start -> end independently of the context component: for EVERY
   shape [sh] of what a returning start hands back — (ctx, token), (nil ctx, token),
   (ctx, nil token), (nil, nil), (derived ctx, token) — end receives tokv sh n, which
   does not look at the context ([token_value_ignores_context]); user code runs
   under the derived context exactly when one was returned (ctxv). *)
Theorem token_reaches_end_for_every_return_shape : forall hs h s e sh,
  s_part s = PtWhole e -> hb_sp (beh hs (h_next h)) = false -> hb_ret (beh hs (h_next h)) = sh ->
  q_evs (snd (drq hs h s)) = [HStart (h_next h) (Some (tokv sh (h_next h), ctxv sh (h_next h))); HEnd (tokv sh (h_next h)) e]
  /\ q_seen (snd (drq hs h s)) = (if s_user s then Some (ctxv sh (h_next h)) else None).
Proof.
  intros hs h s e sh P SP SH. rewrite (end_carries_the_starts_token hs h s e P). unfold drq. rewrite P. cbn [snd q_seen].
  unfold start_out. rewrite SP, SH. split; reflexivity.
Qed.

Theorem token_reaches_resumed_end_for_every_return_shape : forall hs h s1 s2 e sh,
  s_part s1 = PtBegin -> s_part s2 = PtEnd e -> s_k s2 = s_k s1 ->
  hb_sp (beh hs (h_next h)) = false -> hb_ret (beh hs (h_next h)) = sh ->
  q_evs (snd (drq hs (fst (drq hs h s1)) s2)) = [HEnd (tokv sh (h_next h)) e]
  /\ q_seen (snd (drq hs (fst (drq hs h s1)) s2)) = (if s_user s2 then Some (ctxv sh (h_next h)) else None).
Proof.
  intros hs h s1 s2 e sh P1 P2 K SP SH.
  destruct (suspended_request_gets_its_own_token hs h s1 s2 e P1 P2 K) as (_ & E & Hseen).
  rewrite E, Hseen. unfold start_out. rewrite SP, SH. split; reflexivity.
Qed.

Theorem token_value_ignores_context : forall n,
  tokv RCtxTok n = S n /\ tokv RNilCtx n = S n /\ tokv RDerived n = S n /\ tokv RNilTok n = 0 /\ tokv RNilNil n = 0.
Proof. repeat split. Qed.

(* a seeded regression: start returns (nil ctx, token 1) on the
   pipe, the call site drops the token with the context, end sees nil — that
   observation fails spec_ok; the model's own observation passes *)
Theorem nil_context_token_drop_is_rejected :
  spec_ok nilctx_input nilctx_dropped_obs = false
  /\ flat_evs (o_run (model nilctx_input)) = [HStart 0 (Some (1, 0)); HEnd 1 false]
  /\ spec_ok nilctx_input (model nilctx_input) = true.
Proof. vm_compute. repeat split; reflexivity. Qed.

(* end receives a non-nil error exactly when the response reports an error to the
   client (4xx/5xx status, X-VGI-RPC-Error, an EXCEPTION batch in the body, an
   aborted exchange) — for the first request of every call and for every HTTP
   continuation request, on every path: pipe unary / stream (lockstep loop to any
   depth), HTTP unary, stream init, producer continuation (batch limit, response
   cap), exchange continuation, cancel; any context-cancellation point; outcomes ok, handler error, panic, nil
   result, parameter TypeError, init failure, mid-stream error, contract violation
   (no emit / double emit / finish on exchange), cap refusal, sticky-session error.
   Premise [clean_call]: the call is outside the two recorded findings below. *)
Theorem end_err_iff_response_error : forall k cl, clean_call cl = true ->
  (f_disp (first_fate k cl) = true -> f_err (first_fate k cl) = resp_err (f_resp (first_fate k cl)))
  /\ (forall j f, In (j, f) (conts_of k cl) -> f_disp f = true -> f_err f = resp_err (f_resp f)).
Proof.
  intros k cl C. split.
  - exact (proj1 (good_ok _ _ _ (first_fate_good k cl)) C).
  - intros j f Hin. destruct (conts_of_ok k cl j f Hin) as (it & _ & G). exact (proj1 (good_ok _ _ _ G) C).
Qed.

(* Context cancellation (the serve / request context, or the one OnDispatchStart
   returned, cancelled by user code in the handler or inside the Produce / Exchange
   call at any stream position) is a CLEAN end, never an error of its own: whenever
   the cancelled run of a lockstep loop / produce loop hands an error to the end
   hook, so does the uncancelled run (the error came from the turn script); and a
   stream cancelled in its handler produces nothing and reports nothing, to the
   client and to the hook alike.  [end_err_iff_response_error] above already
   quantifies over every cancellation point (field c_cancel of the call). *)
Theorem context_cancellation_is_not_an_error :
  (forall prod ts c ins pos,
     snd (pipe_loop prod ts c pos ins) = true -> snd (pipe_loop prod ts CNone pos ins) = true)
  /\ (forall c rest pos count big,
       prod_err (http_prod c rest pos count big) = true -> prod_err (http_prod CNone rest pos count big) = true)
  /\ (forall k cl, c_cancel cl = CHandler -> is_stream (c_kind cl) = true ->
       first_dispatched cl = true -> c_badparams cl = false -> c_sticky cl = false ->
       (c_init cl = OOk \/ c_init cl = OBig) -> c_http cl = false \/ c_kind cl = KProd ->
       f_err (first_fate k cl) = false /\ resp_err (f_resp (first_fate k cl)) = false /\ f_tok (first_fate k cl) = false).
Proof.
  split; [|split].
  - intros prod ts c ins. induction ins as [|it rest IH]; intro pos; [auto|]. specialize (IH (S pos)).
    destruct (pipe_loop_item prod ts pos it rest) as [-> | E]; [auto | rewrite !E].
    cbn [pipe_loop cancel_here]. destruct (nth pos ts (default_act prod)); auto;
      (destruct (cancel_here c pos); [discriminate|];
       destruct (pipe_loop prod ts c (S pos) rest), (pipe_loop prod ts CNone (S pos) rest); exact IH).
  - intros c rest. induction rest as [|a r IH]; intros pos count big; cbn [http_prod cancel_here]; [auto|].
    destruct a; auto. destruct (Nat.leb 2 (S count) || big); [auto|].
    destruct (cancel_here c pos); [discriminate|].
    specialize (IH (S pos) (S count) big). unfold prod_err in *.
    destruct (http_prod c r (S pos) (S count) big) as [[[f e] ct] p],
             (http_prod CNone r (S pos) (S count) big) as [[[f0 e0] ct0] p0]. exact IH.
  - (* every field the first request's fate looks at is fixed by the premises, up to
       finitely many cases; the turn script is never consulted *)
    intros k [http kind pre pv bp st init ng turns ins cancel].
    cbn [c_cancel c_kind c_badparams c_sticky c_init c_http]. intros -> ST D -> -> Hinit T.
    destruct kind; try discriminate ST; destruct pv; try discriminate D;
      destruct Hinit as [-> | ->]; destruct http, pre; try discriminate D;
      try (destruct T; discriminate); repeat split; reflexivity.
Qed.

(* the hook is started for exactly the dispatched requests: a registered method,
   past the protocol-version gate, over HTTP let through by authenticator and
   content-type check, and — for continuations — a token that resolves *)
Theorem not_dispatched_no_hook : forall k cl, clean_call cl = true ->
  f_disp (first_fate k cl) = first_dispatched cl
  /\ (forall j f, In (j, f) (conts_of k cl) ->
      exists it, nth_error (c_inputs cl) j = Some it /\ f_disp f = item_dispatched it).
Proof. intros k cl _. exact (started_iff_dispatched k cl). Qed.

(* a hook that panics in start or end changes neither the responses nor later
   calls: the responses of every request of the history, step by step, are the
   same under any two behaviour scripts (in particular under a calm hook) *)
Theorem hook_panic_noninterference : forall hs1 hs2 calls sched,
  resps (snd (run hs1 calls sched)) = resps (snd (run hs2 calls sched)).
Proof. intros hs1 hs2 calls sched. unfold run. now rewrite !decorate_resps. Qed.

(* The whole property in the decidable form the correspondence check evaluates on
   the implementation's observables. *)
Theorem spec_holds_on_model : forall i, clean i = true -> spec_ok i (model i) = true.
Proof.
  intros i C. unfold spec_ok, model. cbn [o_run o_ref].
  pose proof (skel_ok (i_calls i) (i_sched i) C sinit (SkelInv_init _)) as SK.
  destruct (decorate_shape (i_hooks i) (i_calls i) _ SK hinit) as [A B].
  destruct (run_bal (i_hooks i) (i_calls i) (i_sched i)) as (open & BL & _).
  pose proof (hook_panic_noninterference (i_hooks i) [] (i_calls i) (i_sched i)) as NI.
  unfold run in *. rewrite A, B, BL, NI. cbn [andb]. apply resps_eqb_refl.
Qed.

(* Balance and non-interference need no premise at all. *)
Theorem balance_and_noninterference_unconditional : forall i,
  match bal 0 [] (flat_evs (o_run (model i))) with Some _ => true | None => false end = true
  /\ list_eqb (list_eqb (opt_eqb resp_eqb)) (resps (o_run (model i))) (o_ref (model i)) = true.
Proof.
  intros i.
  unfold model. cbn [o_run o_ref]. split.
  - destruct (run_bal (i_hooks i) (i_calls i) (i_sched i)) as (open & BL & _). now rewrite BL.
  - rewrite (hook_panic_noninterference (i_hooks i) [] (i_calls i) (i_sched i)). apply resps_eqb_refl.
Qed.

(* FIXED (fc4bbff): before the fix, over HTTP startDispatchHook preceded the
   protocol-version gate, so a request REFUSED by the gate — not a dispatched
   call — still got a start and an end(err); on the pipe the gate always ran
   first.  Witness: POST /unary with protocol_version 2.0.0 against 1.2.0; the
   legacy order fires the hook, the legacy observation fails spec_ok, the
   repaired model stays silent with the same 400 response. *)
Theorem http_gate_refused_fires_hook_legacy_refuted :
  first_dispatched w_gate = false
  /\ f_disp (http_first_gen true 0 w_gate) = true /\ f_err (http_first_gen true 0 w_gate) = true
  /\ f_disp (first_fate 0 w_gate) = false
  /\ f_disp (first_fate 0 (mk_call false KUnary PvBad false [] [])) = false
  /\ f_resp (http_first_gen true 0 w_gate) = f_resp (first_fate 0 w_gate)
  /\ spec_ok (one_call w_gate) legacy_gate_obs = false
  /\ spec_ok (one_call w_gate) (model (one_call w_gate)) = true.
Proof. vm_compute. repeat split; reflexivity. Qed.

(* FINDINGS 2 and 3 (current code): HTTP stream paths on which handlerErr and the
   response disagree.  A state that cannot be packed into a token: exchange init
   answers X-VGI-RPC-Error while end sees nil; producer (init or continuation)
   hands end an error while the client gets a clean 200 that simply stops.  A
   batch the IPC writer refuses: producer hands end an error, client gets a clean
   truncated 200; exchange continuation panics out of ServeHTTP after end saw nil. *)
Theorem http_write_error_paths_misreport_refuted :
  (let f := first_fate 0 w_exch_nogob in f_disp f = true /\ f_err f = false /\ resp_err (f_resp f) = true)
  /\ (let f := first_fate 0 w_prod_nogob in f_disp f = true /\ f_err f = true /\ resp_err (f_resp f) = false)
  /\ (let f := first_fate 0 w_prod_badschema in f_disp f = true /\ f_err f = true /\ resp_err (f_resp f) = false)
  /\ (let f := http_exch_turn w_exch_badschema 1 in f_disp f = true /\ f_err f = false /\ r_panic (f_resp f) = true)
  /\ spec_ok (one_call w_exch_nogob) (model (one_call w_exch_nogob)) = false
  /\ spec_ok (one_call w_prod_nogob) (model (one_call w_prod_nogob)) = false
  /\ spec_ok (one_call w_prod_badschema) (model (one_call w_prod_badschema)) = false
  /\ spec_ok (one_call w_exch_badschema) (model (one_call w_exch_badschema)) = false.
Proof. vm_compute. repeat split; reflexivity. Qed.

(* non-vacuity: a clean interleaved history over both transports with a start that
   returns a nil context, one that panics, one that derives a context, one that
   returns a nil token, and an end that panics; seven requests *)
Example premises_satisfiable :
  clean example_input = true
  /\ flat_evs (o_run (model example_input)) =
     [HStart 0 (Some (1, 0)); HStart 1 None; HEnd 1 false; HStart 2 (Some (3, 3)); HEnd 3 false;
      HStart 3 (Some (0, 0)); HEnd 0 true]
  /\ map q_seen (concat (o_run (model example_input))) = [None; None; Some 0; Some 0; Some 3; None; Some 0]
  /\ length (concat (o_run (model example_input))) = 7.
Proof. vm_compute. repeat split; reflexivity. Qed.
