(* Props/C36.v — property C36: a pipe session whose client advertises a shared-memory
   segment produces the same results as the same session without one, leaks no slot once
   the client has released every pointer it received, and answers a pointer batch it
   cannot resolve with an error and goes on. The lemmas are in Proofs/C36.v.

   Vocabulary (Model/C36.v). A history is a list of [call]s (u_blob unary, producer,
   exchange, unknown method), each with its advertisement (none / the segment / name
   only / size 0 / another name), the way the client wants to send the request and each
   exchange input (inline / pointer into a slot it allocates / pointer to nowhere), the
   script of the user code, and whether the client releases the pointers of the response
   at once or at the end. [run v g st cs] plays the history on one connection: per call
   the client's allocations, shmConnState.ensure, the two refusals of serveOne, the
   resolution and release of a pointer request, MaybeWriteToShm on every response batch
   with the size gate and the first-fit allocator of Model/C34.v (fallback to the pipe
   when nothing fits), the lockstep loop resolving and releasing pointer inputs, and the
   client reading, resolving and releasing. [g_size g = None] is the client without a
   segment. A call ENGAGES the segment when the connection holds it for this request and
   the request advertises a segment name or is itself a pointer batch (req.Shm): only then
   are its response batches shipped through the segment and its pointer inputs resolved.
   The boolean next to each call's observation says that the server met a
   pointer it could not resolve. [view] resolves the pointer frames of a response.
   [plain_answer c] (Proofs/C36.v) is what call c is answered on a plain connection: a
   function of the call alone. *)
From Coq Require Import Permutation.
From VR Require Import Model.C36 Proofs.C36.

(* Transparent, for unary and stream calls, over every history, every segment size, size
   gate, advertisement pattern and release policy: wherever the server met no
   unresolvable pointer, the client that owns a segment sees - after resolving the
   pointer batches it received - exactly what the client without a segment is sent. *)
Theorem shm_transparent : forall g cs,
  Forall2 (fun ow op => snd ow = false -> view (b_resp (fst ow)) = b_resp (fst op))
          (fst (run current g init cs)) (fst (run current (no_seg g) init cs)).
Proof. intros g cs. exact (transparent_run g (no_seg g) eq_refl cs init init eq_refl eq_refl). Qed.

(* ... and that common view is the plain answer of the call, whatever happened before it
   on the connection (state st arbitrary): nothing shared memory does leaks into results. *)
Theorem shm_transparent_per_call : forall v g st c,
  snd (serve_call v g st c) = false -> view (b_resp (fst (fst (serve_call v g st c)))) = plain_answer c.
Proof. exact serve_call_view. Qed.

(* No slot leak, for every history (and for the unrepaired trees as well): once the client
   has released every pointer it received, the slots still allocated are exactly the
   client's OWN slots that the server never consumed (a refused pointer request, inputs
   behind the end of a stream) - every slot the server allocated was handed to the client,
   every client slot the server resolved was freed. *)
Theorem no_slot_leak_after_client_release : forall v g cs,
  let st := snd (run v g init cs) in
  Permutation (map fst (after_release st)) (s_own st) /\ incl (s_own st) (s_sent st).
Proof. intros v g cs. split; [apply after_release_perm|apply run_own_sent]. Qed.

(* Hence the table is empty again when the server consumed every pointer the client sent,
   in particular when the client sent none. *)
Theorem allocation_table_empty_again : forall v g cs,
  let st := snd (run v g init cs) in
  (s_own st = [] \/ sent_any (map fst (fst (run v g init cs))) = false) -> after_release st = [].
Proof.
  intros v g cs st H. destruct (no_slot_leak_after_client_release v g cs) as [P Hincl]. fold st in P, Hincl.
  assert (Hown : s_own st = []).
  { destruct H as [H|H]; [exact H|]. apply run_sent in H. fold st in H. rewrite H in Hincl. now apply incl_l_nil. }
  rewrite Hown in P. apply Permutation_sym, Permutation_nil, map_eq_nil in P. exact P.
Qed.

(* In particular: when every pointer the client sent was a request pointer that the
   connection could resolve (judged from the advertisements alone), the table is empty. *)
Theorem allocation_table_empty_when_requests_consumed : forall g size cs,
  g_size g = Some size ->
  all_consumed false cs (map fst (fst (run current g init cs))) = true ->
  after_release (snd (run current g init cs)) = [].
Proof.
  (* the exact count ([tables_ok_run]) of a history judged consumed never leaves zero *)
  intros g size cs E H. apply allocation_table_empty_again. left. apply length_zero_iff_nil.
  exact (consumed_count _ _ _ _ _ _ H (tables_ok_run g size E cs init eq_refl inv_init)).
Qed.

(* Exact accounting, after EVERY call of every history: the table holds exactly the client
   slots the server had no business freeing (judged by the client from what it sent and
   read: the slot of a refused pointer request, the inputs behind the point the lockstep
   loop got to) plus the pointers whose release the client deferred; after the final
   release exactly the former. *)
Theorem allocation_table_exact_after_every_call : forall g size cs,
  g_size g = Some size ->
  tables_ok false 0 0 cs (map fst (fst (run current g init cs)))
            (length (after_release (snd (run current g init cs)))) = true.
Proof.
  intros g size cs E. pose proof (Permutation_length (after_release_perm current g cs)) as AR.
  rewrite map_length in AR. rewrite AR. exact (tables_ok_run g size E cs init eq_refl inv_init).
Qed.

(* The core of it: in an exchange the loop frees the slot of every pointer input it
   resolves - one per answer written, plus the one whose turn ended the stream - whatever
   that turn does afterwards: answer, return an error, panic, emit nothing, emit twice,
   Finish. [processed] counts those inputs from the frames the client reads. *)
Theorem input_slot_freed_however_the_turn_ends : forall g en items turns st R,
  Permutation (l_own st) (sptrs items ++ R) ->
  let r := lockstep true g true en turns items st in
  length (l_own (snd (fst r))) = (length (sptrs (skipn (processed (fst (fst r))) items)) + length R)%nat.
Proof.
  intros g en items turns st R P. cbv zeta.
  now rewrite (Permutation_length (lockstep_exch_own g en items turns st R P)), app_length.
Qed.

(* A pointer request on a connection that never advertised a segment - after any history
   [pre] without a valid advertisement, for unary, producer, exchange and unknown methods,
   whatever input stream follows - is answered with exactly one IOError stream, and the
   session continues: the rest of the history is served from the next state, every later
   call that meets no unresolvable pointer getting its plain answer. *)
Theorem pointer_without_segment_error_and_continue : forall g pre c rest,
  forallb (fun c => match c_adv c with AdvGood => false | _ => true end) (pre ++ [c]) = true ->
  let st := snd (run current g init pre) in
  b_req_ptr (fst (fst (serve_call current g st c))) = true ->
  let r := serve_call current g st c in
  b_resp (fst (fst r)) = [[WExc exc_io_error]]
  /\ fst (run current g st (c :: rest)) = (fst (fst r), snd r) :: fst (run current g (snd (fst r)) rest)
  /\ Forall2 (fun ow c2 => snd ow = false -> view (b_resp (fst ow)) = plain_answer c2)
             (fst (run current g (snd (fst r)) rest)) rest.
Proof.
  intros g pre c rest H st P. rewrite forallb_app in H. apply andb_true_iff in H as [H1 H2].
  apply refused_and_continue; [apply run_alive; reflexivity|exact P|].
  subst st. rewrite (never_advertised current g pre H1). unfold eff_adv. destruct (g_size g); [|reflexivity].
  cbn [forallb] in H2. destruct (c_adv c); try reflexivity. discriminate.
Qed.

(* Dynamic stream methods (DynamicStreamWithHeader: producer or exchange decided per call by the
   init handler) are served on a pipe exactly like the static ones, refusals and draining
   included: every theorem here holds for calls with [c_dyn = true] (they quantify over all
   calls), and a call's answer, the next state and the plain answer do not depend on it. *)
Theorem dynamic_method_served_like_static : forall v g st c b,
  serve_call v g st (set_dyn b c) = serve_call v g st c /\ plain_answer (set_dyn b c) = plain_answer c.
Proof.
  (* no function of the model reads [c_dyn]; said level by level, since comparing the two
     sessions unfolded in one go is dear *)
  intros v g st c b. split; [|reflexivity].
  assert (Hserve : forall sn a rs items t own,
    serve v g sn a (set_dyn b c) rs items t own = serve v g sn a c rs items t own) by reflexivity.
  assert (A : answer_of v g st (set_dyn b c) = answer_of v g st c) by (unfold answer_of; rewrite Hserve; reflexivity).
  rewrite !serve_call_eq. unfold table_after. rewrite A. reflexivity.
Qed.

(* The same whenever the connection holds no segment for this request (detached by the
   advertisement of another name, for instance), from any live state. *)
Theorem pointer_request_unattached_error_and_continue : forall g st c rest,
  s_alive st = true ->
  b_req_ptr (fst (fst (serve_call current g st c))) = true ->
  fst (ensure (s_att st) (eff_adv g (c_adv c))) = false ->
  let r := serve_call current g st c in
  b_resp (fst (fst r)) = [[WExc exc_io_error]]
  /\ fst (run current g st (c :: rest)) = (fst (fst r), snd r) :: fst (run current g (snd (fst r)) rest)
  /\ Forall2 (fun ow c2 => snd ow = false -> view (b_resp (fst ow)) = plain_answer c2)
             (fst (run current g (snd (fst r)) rest)) rest.
Proof. exact refused_and_continue. Qed.

(* The property in the decidable form that the correspondence check evaluates on the
   implementation's observables, for every input: one stream per call on both connections
   (in frame, the session continues); an unresolvable pointer request gets exactly an
   IOError; an exchange that reaches an input it cannot resolve (call not engaged, or a
   pointer to nowhere) has answered the inputs before it as the plain session does and
   ends with one IOError; every other call is transparent; what is still allocated after
   the client's release is a client slot, and nothing when the client sent no pointer or
   only request pointers that the connection could resolve; and the table has exactly the
   expected number of entries after every call and after the final release. *)
Theorem spec_holds_on_model : forall i, spec_ok i (model i) = true.
Proof.
  intro i. unfold spec_ok, model, model_v.
  pose proof (calls_ok_run (cfg_of i) _ (no_seg (cfg_of i)) eq_refl eq_refl (i_calls i) init init eq_refl eq_refl) as CO.
  destruct (no_slot_leak_after_client_release current (cfg_of i) (i_calls i)) as [AR OW].
  pose proof (allocation_table_empty_again current (cfg_of i) (i_calls i)) as EA.
  pose proof (allocation_table_empty_when_requests_consumed (cfg_of i) _ (i_calls i) eq_refl) as EC.
  pose proof (allocation_table_exact_after_every_call (cfg_of i) _ (i_calls i) eq_refl) as TO.
  cbv zeta in EA. change (s_att init) with false in CO.
  destruct (run current (cfg_of i) init (i_calls i)) as [os st].
  cbn [fst snd o_escaped o_with o_without o_after o_own negb andb] in *.
  rewrite CO, TO, andb_true_r. cbn [andb]. apply andb_true_iff. split; [apply andb_true_iff; split|].
  - apply forallb_forall. intros e He. apply (Lists.existsb_eqb_In N.eqb N.eqb_eq), OW.
    rewrite <- AR. now apply in_map.
  - destruct (sent_any (map fst os)); [reflexivity|]. now rewrite EA by now right.
  - destruct (all_consumed false (i_calls i) (map fst os)); [|reflexivity]. now rewrite EC.
Qed.

(* Before 6a8fa9d the refusal of a pointer request for a STREAM method left the input
   stream on the pipe: it was answered as a request of its own (an extra ProtocolError
   stream, every later response one slot late), or ended the session when it was empty. *)
Theorem pointer_without_segment_error_and_continue_legacy_refuted :
  spec_ok witness_drain (model_v legacy_drain witness_drain) = false
  /\ map b_resp (o_with (model_v legacy_drain witness_drain))
     = [[[WExc exc_io_error]; [WExc ss_exc_no_method]]; [[WData 50 50 450 None]]]
  /\ map b_resp (o_with (model_v legacy_drain witness_drain_empty)) = [[[WExc exc_io_error]]; []]
  /\ map b_resp (o_with (model witness_drain)) = [[[WExc exc_io_error]]; [[WData 50 50 450 None]]].
Proof. vm_compute. repeat split. Qed.

(* Before 29847dc an exchange INPUT sent as a pointer batch on a call that engaged no
   segment (here: a connection that never advertised one) reached the user code as an
   empty batch: wrong results (8 instead of 136, 24 instead of 104), no error. *)
Theorem stream_input_pointer_without_segment_legacy_refuted :
  spec_ok witness_input (model_v legacy_input witness_input) = false
  /\ map b_resp (o_with (model_v legacy_input witness_input))
     = [[[WData 50 50 450 None]]; [[WData 0 8 8 None; WData 0 2 16 None; WData 0 8 24 None]]; [[WData 50 50 450 None]]]
  /\ o_without (model_v legacy_input witness_input)
     = [[[WData 50 50 450 None]]; [[WData 0 8 136 None; WData 0 2 16 None; WData 0 8 104 None]]; [[WData 50 50 450 None]]]
  /\ map b_resp (o_with (model witness_input)) = [[[WData 50 50 450 None]]; [[WExc exc_io_error]]; [[WData 50 50 450 None]]].
Proof. vm_compute. repeat split. Qed.

(* non-vacuity: a history in which the request and an input travel as pointers, another
   input falls back to the pipe, three response batches are shipped through the segment,
   no call is flagged, and the table is empty after the client's release *)
Example premises_satisfiable :
  let o := model example_input in
  map b_req_ptr (o_with o) = [true; true; false]
  /\ map b_items_ptr (o_with o) = [[]; [true; false]; []]
  /\ map b_resp (o_with o) = [[[WData 50 100 300 (Some (65536, 400))]];
                              [[WData 0 8 136 (Some (65936, 344)); WData 0 8 64 (Some (66280, 344))]];
                              [[WData 50 50 450 None]]]
  /\ o_after o = []
  /\ forallb (fun ob => negb (snd ob)) (fst (run current (cfg_of example_input) init (i_calls example_input))) = true.
Proof. vm_compute. repeat split. Qed.
