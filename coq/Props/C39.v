(* Props/C39.v — property C39: access-log sampling and async emission lose
   nothing silently.  The lemmas are in Proofs/C39.v.

   Sampler theorems hold for EVERY sampler value (any rate bits, any threshold),
   every fallback-counter state c and every record sequence.  Async theorems
   hold for every queue size cap and EVERY list of atomic steps
   (Enq r | Take | WriteDone | Close, steps of a blocked thread are skipped),
   i.e. for all interleavings of enqueuers, closer and writer. *)
From VR Require Import Model.C39 Proofs.C39.
Open Scope nat_scope.

(* An error record is always kept, wherever it occurs. *)
Theorem errors_always_kept : forall s c recs i r o,
  nth_error recs i = Some r -> nth_error (run_sampler s c recs) i = Some o ->
  is_error r = true -> so_kept o = true.
Proof.
  intros s c recs i r o Hr Ho He. destruct (run_sampler_nth _ _ _ _ _ _ Hr Ho) as [c0 ->]. now rewrite keep_eq, He, orb_true_r.
Qed.

(* Two non-error records keyed on the same identifier (stream_id when it is a
   non-empty string, request_id otherwise) get the same outcome: both kept and
   stamped alike, or both dropped. *)
Theorem same_key_same_fate : forall s c recs i j ri rj oi oj k,
  nth_error recs i = Some ri -> nth_error (run_sampler s c recs) i = Some oi ->
  nth_error recs j = Some rj -> nth_error (run_sampler s c recs) j = Some oj ->
  is_error ri = false -> is_error rj = false ->
  explicit_key ri = Some k -> explicit_key rj = Some k ->
  oi = oj.
Proof.
  intros s c recs i j ri rj oi oj k Hri Hoi Hrj Hoj Ei Ej Ki Kj.
  destruct (run_sampler_nth _ _ _ _ _ _ Hri Hoi) as [ci ->].
  destruct (run_sampler_nth _ _ _ _ _ _ Hrj Hoj) as [cj ->].
  rewrite !keep_eq, Ei, Ej. unfold key_of. now rewrite Ki, Kj.
Qed.

Theorem same_stream_same_fate : forall s c recs i j ri rj oi oj k,
  nth_error recs i = Some ri -> nth_error (run_sampler s c recs) i = Some oi ->
  nth_error recs j = Some rj -> nth_error (run_sampler s c recs) j = Some oj ->
  is_error ri = false -> is_error rj = false ->
  k <> [] -> s_stream ri = Some k -> s_stream rj = Some k ->
  so_kept oi = so_kept oj.
Proof.
  intros s c recs i j ri rj oi oj k H1 H2 H3 H4 E1 E2 Hk S1 S2.
  rewrite (same_key_same_fate s c recs i j ri rj oi oj k); auto using explicit_key_stream.
Qed.

Theorem same_request_same_fate : forall s c recs i j ri rj oi oj k,
  nth_error recs i = Some ri -> nth_error (run_sampler s c recs) i = Some oi ->
  nth_error recs j = Some rj -> nth_error (run_sampler s c recs) j = Some oj ->
  is_error ri = false -> is_error rj = false ->
  nonempty (s_stream ri) = None -> nonempty (s_stream rj) = None ->
  k <> [] -> s_request ri = Some k -> s_request rj = Some k ->
  so_kept oi = so_kept oj.
Proof.
  intros s c recs i j ri rj oi oj k H1 H2 H3 H4 E1 E2 N1 N2 Hk S1 S2.
  rewrite (same_key_same_fate s c recs i j ri rj oi oj k); auto using explicit_key_request.
Qed.

(* Fields other than status / stream_id / request_id (cancelled, method,
   http_status, claims ...) never influence the outcome: no record is exempted
   from, or subjected to, the decision because of them. *)
Theorem extra_fields_do_not_matter : forall s c r r',
  s_status r = s_status r' -> s_stream r = s_stream r' -> s_request r = s_request r' ->
  keep s c r = keep s c r'.
Proof.
  intros s c r r' H1 H2 H3. unfold keep, is_error, explicit_key. now rewrite H1, H2, H3.
Qed.

(* With sampling active (rate < 1), every kept non-error record carries exactly
   the configured rate. *)
Theorem kept_non_error_has_rate : forall s c recs i r o,
  rate_ge1 (sp_rate s) = false ->
  nth_error recs i = Some r -> nth_error (run_sampler s c recs) i = Some o ->
  is_error r = false -> so_kept o = true -> so_rate o = Some (sp_rate s).
Proof.
  intros s c recs i r o Hs Hr Ho He Hk. destruct (run_sampler_nth _ _ _ _ _ _ Hr Ho) as [c0 ->].
  rewrite keep_eq, Hs, He in *. cbn [orb] in *. now rewrite decide_out, Hk.
Qed.

(* What must not change: a dropped record is never stamped, and with the rate
   at 1 every record is kept and none is stamped. *)
Theorem dropped_never_stamped : forall s c recs i r o,
  nth_error recs i = Some r -> nth_error (run_sampler s c recs) i = Some o ->
  so_kept o = false -> so_rate o = None.
Proof.
  intros s c recs i r o Hr Ho Hk. destruct (run_sampler_nth _ _ _ _ _ _ Hr Ho) as [c0 ->].
  rewrite keep_eq in *. destruct (_ || _); [discriminate|]. now rewrite decide_out, Hk.
Qed.

Theorem rate_one_keeps_everything : forall s c recs i r o,
  rate_ge1 (sp_rate s) = true ->
  nth_error recs i = Some r -> nth_error (run_sampler s c recs) i = Some o -> o = kept_plain.
Proof.
  intros s c recs i r o Hs Hr Ho. destruct (run_sampler_nth _ _ _ _ _ _ Hr Ho) as [c0 ->]. now rewrite keep_eq, Hs.
Qed.

(* Enqueue never blocks: in EVERY state (reachable or not) the enqueue step is
   enabled, whereas Take and WriteDone can be blocked (step = None). *)
Theorem enqueue_never_blocks : forall cap s r, exists s', step cap s (Enq r) = Some s'.
Proof. exact enq_enabled. Qed.

Theorem every_enqueue_returns : forall cap ops,
  forallb (fun b => b) (enq_rets cap init ops) = true
  /\ length (enq_rets cap init ops) = count_enq ops.
Proof. exact (fun cap ops => enq_rets_true cap ops init). Qed.

(* The queue stays bounded by the configured size in every interleaving. *)
Theorem queue_is_bounded : forall cap ops,
  (N.of_nat (length (st_q (run cap init ops))) <= cap)%N.
Proof.
  intros cap ops. apply inv_run.
Qed.

(* Conservation, at every point of every interleaving:
   written + held by the writer + queued + sum of their dropped_records
   + the pending drop counter = number of records enqueued before close. *)
Theorem conservation : forall cap ops,
  fresh ops = true -> accounted (run cap init ops) = length (enq_log ops).
Proof.
  intros cap ops Hf. rewrite accounted_ledger. eapply Lists.Forall2_len, ledger_matches, Hf.
Qed.

(* Stronger, positional form.  Read the written / in-flight / queued records in
   order, each preceded by as many losses as its dropped_records says, then the
   pending drops: that sequence lines up one to one with the enqueue order, each
   position holding either that very record or a counted loss. *)
Theorem ledger_matches_enqueue_order : forall cap ops,
  fresh ops = true -> Forall2 fate_ok (ledger (run cap init ops)) (enq_log ops).
Proof. exact ledger_matches. Qed.

(* What is already accounted for never changes: later steps only append. *)
Theorem ledger_is_append_only : forall cap s ops,
  fresh ops = true -> exists F, ledger (run cap s ops) = ledger s ++ F.
Proof.
  intros cap s ops Hf. destruct (ledger_run cap ops s Hf) as (F & HF & _). eauto.
Qed.

(* After close and drain (the writer goroutine has exited). *)
Theorem after_drain : forall cap ops,
  fresh ops = true -> st_w (run cap init ops) = WExited ->
  length (enq_log ops) =
    length (st_written (run cap init ops)) + sum_stamps (st_written (run cap init ops))
    + N.to_nat (st_pending (run cap init ops)).
Proof.
  intros cap ops Hf Hw. rewrite <- (Lists.Forall2_len _ _ _ (after_drain_ledger cap ops Hf Hw)).
  now rewrite app_length, length_expand, repeat_length.
Qed.

(* The property as worded: after close and drain, the i-th record enqueued
   before close is (1) written, at its place in enqueue order, or (2) counted in
   the dropped_records of a written record that was enqueued LATER (its own
   position in the enqueue log is given and is > i), or (3) part of the trailing
   run of drops that no later record reports, which is exactly the pending
   counter. *)
Theorem every_record_accounted_after_drain : forall cap ops i id,
  fresh ops = true ->
  let s := run cap init ops in
  st_w s = WExited ->
  nth_error (enq_log ops) i = Some id ->
  (exists w1 st w2, st_written s = w1 ++ (id, st) :: w2
                    /\ i = length (expand w1) + stamp_n (id, st))
  \/ (exists w1 x w2, st_written s = w1 ++ x :: w2
                      /\ length (expand w1) <= i < length (expand w1) + stamp_n x
                      /\ nth_error (enq_log ops) (length (expand w1) + stamp_n x) = Some (fst x))
  \/ (length (expand (st_written s)) <= i
      < length (expand (st_written s)) + N.to_nat (st_pending s)).
Proof.
  intros cap ops i id Hf s Hw Hid. subst s.
  pose proof (after_drain_ledger cap ops Hf Hw) as HF.
  set (s := run cap init ops) in *.
  pose proof (Lists.Forall2_nth _ _ _ HF i) as Hfate. rewrite Hid in Hfate.
  destruct (Nat.lt_ge_cases i (length (expand (st_written s)))) as [Hlt | Hge].
  - rewrite nth_error_app1 in Hfate by exact Hlt.
    destruct (expand_block _ _ Hlt) as (w1 & x & w2 & Hsplit & Hlo & Hhi).
    apply Nat.le_lteq in Hhi as [Hhi | ->].
    + right; left. exists w1, x, w2. split; [exact Hsplit|]. split; [split; assumption|].
      exact (written_only_enqueued cap ops w1 x w2 Hf Hw Hsplit).
    + left. rewrite Hsplit, expand_at in Hfate. destruct Hfate as [Hc | Hc]; [discriminate|].
      inversion Hc as [Hx]. destruct x as [xid xst]. exists w1, xst, w2. split; [exact Hsplit | reflexivity].
  - right; right. split; [exact Hge|].
    assert (Hl : i < length (enq_log ops)) by (apply nth_error_Some; congruence).
    rewrite <- (Lists.Forall2_len _ _ _ HF), app_length, repeat_length in Hl. exact Hl.
Qed.

(* What must not happen: nothing is written that was not enqueued before close
   (records enqueued after close are discarded and are not counted either), no
   record is written twice or out of order: each written record sits at its own
   position of the enqueue log. *)
Theorem nothing_else_is_written : forall cap ops w1 x w2,
  fresh ops = true ->
  let s := run cap init ops in
  st_w s = WExited ->
  st_written s = w1 ++ x :: w2 ->
  nth_error (enq_log ops) (length (expand w1) + stamp_n x) = Some (fst x).
Proof. exact written_only_enqueued. Qed.

(* The drained state is reachable from every history: after close, cap+1 rounds
   of the writer (finish the write, go back to the channel) end the goroutine. *)
Theorem close_then_drain_exits : forall cap ops,
  st_w (run cap init (ops ++ Close :: drain (N.to_nat cap))) = WExited.
Proof.
  intros cap ops. rewrite run_app, run_cons. apply drain_exits.
  - rewrite closed_exec. cbn. apply orb_true_r.
  - pose proof (inv_exec cap _ Close (inv_run cap ops)) as [_ Hb]. lia.
Qed.

(* The premise [fresh] (the caller's map has no dropped_records field of its own,
   true of every record OnDispatchEnd builds) is needed: a stale field on a
   record that gets through while nothing was dropped is written as if it were a
   drop count. *)
Theorem fresh_premise_needed :
  exists cap ops, fresh ops = false /\ accounted (run cap init ops) <> length (enq_log ops).
Proof.
  exists 1%N, [Enq {| a_id := 1%N; a_pre := Some 5%N |}]. split; [reflexivity|].
  vm_compute. discriminate.
Qed.

(* The decidable form evaluated on the implementation's observables. *)
Theorem spec_holds_on_model : forall i, spec_ok i (model i) = true.
Proof.
  intros [rate recs | str | cap steps]; cbn [model].
  - destruct (new_sampler rate) as [s|] eqn:En; cbn [spec_ok]; [|reflexivity].
    now apply sample_spec_model.
  - reflexivity.
  - destruct (cap <=? 0)%Z; [reflexivity|].
    pose proof (run_obs_fst (Z.to_N cap) steps init) as Hf.
    destruct (run_obs (Z.to_N cap) init steps) as [sf tr]. cbn [fst] in Hf. subst sf.
    cbn [spec_ok]. apply async_spec_model.
Qed.

(* a sampler at rate 0.5 exists, is sampling, and on a concrete sequence keeps
   an error, drops a non-error record and keeps-and-stamps another one *)
Example sampler_premises_satisfiable :
  exists s, new_sampler 4602678819172646912%N = Some s /\ rate_ge1 (sp_rate s) = false /\
  let recs := [ {| s_status := Some (str "ok"); s_stream := Some (str "a"); s_request := None; s_extra := [] |};
                {| s_status := Some (str "error"); s_stream := Some (str "a"); s_request := None; s_extra := [] |};
                {| s_status := Some (str "ok"); s_stream := Some (str "a"); s_request := Some (str "r2"); s_extra := [(str "cancelled", str "true")] |};
                {| s_status := Some (str "ok"); s_stream := None; s_request := Some (str "r2"); s_extra := [(str "cancelled", str "true")] |} ] in
  map so_kept (run_sampler s 0 recs) = [false; true; false; true].
Proof. eexists. split; [vm_compute; reflexivity|]. split; vm_compute; reflexivity. Qed.

(* a fresh schedule with drops, a stamped record, an enqueue after close and a
   trailing run reaches the drained state *)
Example async_premises_satisfiable :
  fresh ex_ops = true /\ st_w (run 1 init ex_ops) = WExited /\
  st_written (run 1 init ex_ops) = [(1, None); (2, None); (5, Some 2)]%N /\
  st_pending (run 1 init ex_ops) = 2%N /\ enq_log ex_ops = [1; 2; 3; 4; 5; 6; 7]%N.
Proof. repeat split; vm_compute; reflexivity. Qed.
