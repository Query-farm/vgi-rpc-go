(* Props/C26.v — property C26: token introspection never becomes an open
   credential oracle.  The lemmas are in Proofs/C26.v.

   Everywhere: [c] is any server configuration, [h] any request history against
   that one server (any length), [run c h] the per-request outcomes with the
   fixed-window limiter threaded through the history.  A request carries its
   arrival time, the scripted authenticator's outcome, the body shape and the
   scripted resolver's outcome, so the theorems quantify over all callers,
   credentials, JSON shapes, resolver outcomes and request rates. *)
From VR Require Import Model.C26 Proofs.C26.
Local Open Scope Z_scope.

(* 1. Unless EnableTokenIntrospection was called AND accepted the configuration
   (a resolver and at least one non-empty principal), nothing is authenticated,
   read or resolved, and every answer is the one fixed not-enabled 404. *)
Theorem disabled_resolves_nothing : forall c h, enabled c = false ->
  Forall (fun o => o_trace o = [] /\ o_status o = 404 /\ o_body o = BRaw introspect_body_not_enabled)
         (run c h).
Proof.
  intros c h He. unfold run. generalize lim0.
  induction h as [|q t IH]; intro s; cbn [run_from]; [constructor|].
  unfold handle at 1. rewrite He. constructor; [now repeat split | apply IH].
Qed.

(* 2. A caller that is not an authenticated, allowlisted principal never gets
   the limiter consulted, the body read or the resolver called.  When the
   authenticator produced a context (anonymous, unauthenticated, wrong or empty
   principal, or no authenticator configured) the answer is the one fixed 403
   body; when the authenticator itself failed, HttpServer.authenticate has
   already answered 401 / 500 / 503 and the route adds nothing. *)
Theorem refused_before_subject_read : forall c h, enabled c = true ->
  Forall2 (fun q o => authorized c q = false ->
     ~ In ARead (o_trace o) /\ ~ In ALimit (o_trace o) /\ (forall cr, ~ In (AResolve cr) (o_trace o))
     /\ (forall au p, eff_auth c q = ACtx au p -> o_status o = 403 /\ o_body o = BRaw introspect_body_403)
     /\ ((forall au p, eff_auth c q <> ACtx au p) ->
         (o_status o = 401 \/ o_status o = 500 \/ o_status o = 503) /\ o_body o = BAuthLayer))
    h (run c h).
Proof.
  intros c h He. apply run_from_Forall2. intros s q Ha.
  destruct (step_unauthorized c s q He Ha) as (H1 & H2 & H3 & H4).
  split; [exact H1|]. split; [exact H2|]. split; [exact H3|].
  destruct (eff_auth c q) as [au p| | |]; split;
    try (intro H; now destruct (H au p)); intuition discriminate.
Qed.

(* 3. Whatever the resolver is handed is the posted credential of a request by
   an authorized caller on an enabled route, is not JWS-shaped, is non-empty and
   at most introspect_max_token_chars BYTES long, came in a body within the body
   cap, and is handed over after the limiter was consulted and at most once. *)
Theorem resolver_never_gets_jws_or_oversized : forall c h,
  Forall2 (fun q o => forall cr, In (AResolve cr) (o_trace o) ->
     enabled c = true /\ authorized c q = true
     /\ b_tok (q_body q) = Some cr /\ jws_shaped cr = false
     /\ 0 < blen cr <= introspect_max_token_chars
     /\ b_len (q_body q) <= introspect_max_body_bytes /\ b_clen (q_body q) <= introspect_max_body_bytes
     /\ exists pre, o_trace o = pre ++ [AResolve cr] /\ In ALimit pre /\ forall cr', ~ In (AResolve cr') pre)
    h (run c h).
Proof.
  intros c h. apply run_from_Forall2. intros s q cr H.
  destruct (step_resolve c s q cr H) as (H1 & H2 & H3 & H4 & H5).
  destruct (read_token_some _ _ H3) as (H6 & H7 & H8 & H9). repeat split; auto; lia.
Qed.

(* 3b. [jws_shaped] (the automaton the model runs) accepts every string made of
   three dot-separated base64url segments with the first two non-empty — the
   language of introspectJWSShaped, whose source text is tied by
   Proofs.jws_regex_text to the regenerated constant. *)
Theorem jws_shape_complete : forall a b d,
  a <> [] -> b <> [] -> forallb b64url a = true -> forallb b64url b = true -> forallb b64url d = true ->
  jws_shaped (a ++ [DOT] ++ b ++ [DOT] ++ d) = true.
Proof.
  intros a b d Ha Hb Fa Fb Fd. unfold jws_shaped. rewrite !fold_left_app.
  rewrite (enter_b64 J0 J1) by auto. cbn [fold_left]. change (jstep J1 DOT) with J2.
  rewrite (enter_b64 J2 J3) by auto. change (jstep J3 DOT) with J4.
  rewrite (loop_b64 J4) by auto. reflexivity.
Qed.

(* 4. For every history whatsoever, every caller and every window of the fixed
   window partition ([windows]: a new window starts at the first request that
   reaches the limiter, and at the first one arriving c_window or more after the
   current window's start), at most eff_rate introspections are admitted
   (= an authorized caller not answered 429). *)
Theorem rate_bound_per_window : forall c h who k,
  count_adm c who k h (run c h) (windows c None O h) <= eff_rate c.
Proof. exact rate_bound. Qed.

(* 4b. With a non-decreasing clock the partition is one of real time: every
   request that reaches the limiter lies in [w, w + window) of the window start
   w that governs it, and per caller and window start at most eff_rate are
   admitted. *)
Theorem rate_bound_per_time_window : forall c h lo, 0 < c_window c -> nondecreasing lo h ->
  (forall who w, count_at c who w h (run c h) (wstarts c None h) <= eff_rate c)
  /\ Forall2 (fun q w' => enabled c && authorized c q = true ->
                          exists w, w' = Some w /\ w <= q_now q < w + c_window c)
             h (wstarts c None h).
Proof.
  intros c h lo HW Hm. split.
  - intros who w. apply rate_bound_by_start, HW.
  - apply (wstarts_interval c HW h None lo); [discriminate | exact Hm].
Qed.

(* 4c. What is NOT claimed: a sliding-window bound.  Rate 1, window 10: caller a
   is admitted at t=9 and again at t=10 (the code documents this 2x at a boundary). *)
Theorem sliding_window_bound_refuted :
  exists c h, nondecreasing 0 h /\ 0 < c_window c /\ eff_rate c = 1
    /\ map o_status (run c h) = [200; 200; 200]
    /\ map (caller c) h = [str "b"; str "a"; str "a"] /\ map q_now h = [0; 9; 10].
Proof.
  pose (rq now who :=
          {| q_now := now; q_auth := ACtx true who;
             q_body := {| b_clen := 20; b_len := 20; b_tok := Some (str "opaque") |};
             q_res := {| r_err := None; r_ok := true; r_princ := str "subj"; r_name := str "n"; r_ttl := 0 |} |}).
  exists {| c_call_enable := true; c_has_resolver := true; c_principals := [str "a"; str "b"];
            c_default_ttl := 0; c_rate := 1; c_has_auth := true; c_window := 10 |},
         [rq 0 (str "b"); rq 9 (str "a"); rq 10 (str "a")].
  subst rq. cbn [nondecreasing q_now map c_window]. repeat split; try lia; vm_compute; reflexivity.
Qed.

(* 5. An authorized caller that the limiter lets through and whose credential
   is unresolvable — unusable body or token, JWS-shaped, or the resolver said
   ok=false — always gets the one fixed 404 body, with no Retry-After. *)
Theorem unresolvable_gets_fixed_404 : forall c h, enabled c = true ->
  Forall2 (fun q o => authorized c q = true -> o_status o <> 429 ->
     (read_token (q_body q) = None
      \/ (exists cr, read_token (q_body q) = Some cr /\ jws_shaped cr = true)
      \/ (r_err (q_res q) = None /\ r_ok (q_res q) = false)) ->
     o_status o = 404 /\ o_body o = BRaw introspect_body_404 /\ o_retry o = None)
    h (run c h).
Proof.
  intros c h He. apply run_from_Forall2. intros s q Ha Hs Hu.
  pose proof (step_answered c s q He Ha Hs) as H.
  rewrite (unresolvable_answer c q Hu) in H. inversion H. auto.
Qed.

(* 6. Non-interference: two histories that agree on arrival times, on the
   authenticator outcomes and on the EFFECTIVE answer of every request (unusable
   or JWS-shaped or unresolved = one answer; otherwise the resolver's) get
   identical (status, body, Retry-After) sequences — whatever the credential
   texts, body lengths and JSON shapes were.  The limiter evolves identically. *)
Theorem response_independent_of_credential : forall c h1 h2,
  Forall2 (fun q1 q2 => q_now q1 = q_now q2 /\ q_auth q1 = q_auth q2
                        /\ eff_answer c q1 = eff_answer c q2) h1 h2 ->
  map resp (run c h1) = map resp (run c h2).
Proof.
  intros c h1 h2 H. apply noninterference_from.
  induction H as [|q1 q2 t1 t2 (Hn & Ha & He) _ IH]; constructor; [|exact IH].
  repeat split; auto. unfold eff_auth. now rewrite Ha.
Qed.

(* 6b. The same as a factorisation: the response and the next limiter state are
   a function (handle2) of configuration, limiter state, time, authenticator
   outcome and effective answer; the credential is not among its arguments. *)
Theorem response_factors_through_answer : forall c s q,
  (resp (fst (handle c s q)), snd (handle c s q))
  = handle2 c s (q_now q) (eff_auth c q) (eff_answer c q).
Proof. exact handle_factor. Qed.

(* 7. The decidable form evaluated on the implementation's observables
   (includes: no credential text in any response or captured log record). *)
Theorem spec_holds_on_model : forall i, spec_ok i (model i) = true.
Proof.
  intro i. unfold spec_ok, model. cbn [o_enable_err o_outs].
  rewrite Bool.eqb_reflx. unfold run at 1. rewrite spec_reqs_run. cbn [andb].
  apply rate_ok_all. intros who kk. apply rate_bound.
Qed.

(* non-vacuity: an enabled configuration, a non-decreasing history with an
   unauthorized caller, an authorized one whose credential resolves, a JWS-shaped
   one, a third request that the limiter (rate 2) turns away, and one in the
   next window (length 3) whose credential does not resolve *)
Definition ex_cfg : config :=
  {| c_call_enable := true; c_has_resolver := true; c_principals := [str "intro"];
     c_default_ttl := 0; c_rate := 2; c_has_auth := true; c_window := 3 |}.
Definition ex_req (now : Z) (a : auth_out) (tok : bytes) (ok : bool) : req :=
  {| q_now := now; q_auth := a; q_body := {| b_clen := 30; b_len := 30; b_tok := Some tok |};
     q_res := {| r_err := None; r_ok := ok; r_princ := str "subj"; r_name := str "n"; r_ttl := 0 |} |}.
Definition ex_hist : list req :=
  [ ex_req 0 (ACtx true (str "other")) (str "opaque") true;
    ex_req 0 (ACtx true (str "intro")) (str "opaque") true;
    ex_req 1 (ACtx true (str "intro")) (str "aa.bb.cc") true;
    ex_req 2 (ACtx true (str "intro")) (str "opaque") true;
    ex_req 3 (ACtx true (str "intro")) (str "nope") false ].

Example premises_satisfiable :
  enabled ex_cfg = true /\ 0 < c_window ex_cfg /\ nondecreasing 0 ex_hist
  /\ map (authorized ex_cfg) ex_hist = [false; true; true; true; true]
  /\ map o_status (run ex_cfg ex_hist) = [403; 200; 404; 429; 404]
  /\ map o_trace (run ex_cfg ex_hist)
     = [ [AAuth]; [AAuth; ALimit; ARead; AResolve (str "opaque")]; [AAuth; ALimit; ARead];
         [AAuth; ALimit]; [AAuth; ALimit; ARead; AResolve (str "nope")] ]
  /\ enabled {| c_call_enable := true; c_has_resolver := true; c_principals := [[]];
                c_default_ttl := 0; c_rate := 2; c_has_auth := true; c_window := 3 |} = false.
Proof. cbn [nondecreasing ex_hist ex_req q_now]. repeat split; try lia; vm_compute; reflexivity. Qed.
