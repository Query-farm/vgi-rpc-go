(* Props/C27.v — property C27: browser OAuth login keeps its state, cookie and
   redirects safe. The lemmas behind the theorems are in Proofs/C27.v.

   Oracles (never axioms): [mac] = HMAC-SHA256, [enc]/[enc_raw]/[dec_pad]/[dec_raw] =
   base64url (padded / unpadded encoder, padded / unpadded decoder),
   [parse] = net/url.Parse projected to (scheme, host, hostname, port). Each premise
   about them is written out in the theorem that uses it. *)
From VR Require Import Model.C27 Proofs.C27.
Open Scope N_scope.

(* (a) The PKCE session cookie round-trips exactly what the server packed — under
   the guard the uint16 length prefixes need (every field shorter than 2^16, the
   creation time an int64), for a clock that is a non-negative int64 — and is
   refused exactly when it is older than max_age or from the future. *)
Theorem cookie_roundtrip :
  forall (mac : bytes -> bytes -> bytes) (enc enc_raw : bytes -> bytes) (dec_pad dec_raw : bytes -> option bytes),
  (forall k m, length (mac k m) = MACLEN) ->
  (forall x, dec_pad (enc x) = Some x) -> (forall x, trim_pad (enc x) = enc_raw x) ->
  forall key f now max_age,
  fields_ok f = true -> created_ok f = true -> (0 <= now < two63)%Z -> (max_age < two63)%Z ->
  unpack_text enc_raw dec_pad dec_raw mac key (pack_text enc mac key f) now max_age =
    if fresh now max_age (f_created f)
    then Accepted (f_verifier f) (f_state f) (f_url f) (f_rt f) else Refused.
Proof.
  intros mac enc enc_raw dec_pad dec_raw ML DE ET. intros. unfold unpack_text, pack_text, decode.
  rewrite DE, ET, beqb_refl. cbn [negb]. now apply roundtrip_raw.
Qed.

(* The one tolerated equivalence on the cookie TEXT: trailing '=' padding may be
   stripped (the unpadded fallback decoder); the result is the same. *)
Theorem cookie_roundtrip_padding_stripped :
  forall (mac : bytes -> bytes -> bytes) (enc_raw : bytes -> bytes) (dec_pad dec_raw : bytes -> option bytes),
  (forall k m, length (mac k m) = MACLEN) ->
  (forall x, decode dec_pad dec_raw (enc_raw x) = Some x) -> (forall x, trim_pad (enc_raw x) = enc_raw x) ->
  forall key f now max_age,
  fields_ok f = true -> created_ok f = true -> (0 <= now < two63)%Z -> (max_age < two63)%Z ->
  unpack_text enc_raw dec_pad dec_raw mac key (enc_raw (pack_raw mac key f)) now max_age =
    if fresh now max_age (f_created f)
    then Accepted (f_verifier f) (f_state f) (f_url f) (f_rt f) else Refused.
Proof.
  intros mac enc_raw dec_pad dec_raw ML DE ET. intros. unfold unpack_text.
  rewrite DE, ET, beqb_refl. cbn [negb]. now apply roundtrip_raw.
Qed.

(* The guard is met by everything pkceRedirectToOAuth packs: both validators bound
   their output, the nonces have fixed lengths (constants regenerated from the code);
   the only operator input is the route prefix. *)
Theorem server_fields_meet_guard :
  forall parse allow prefix path q rt_param created verifier state,
  lenN prefix < 65536 ->
  lenN verifier = Z.to_N pkce_verifier_len -> lenN state = Z.to_N pkce_state_len ->
  fields_ok (login_fields parse allow prefix path q rt_param created verifier state) = true.
Proof.
  intros parse allow prefix path q rt created verifier state Hp Hv Hs.
  apply fields_ok_spec. cbn [login_fields f_verifier f_state f_url f_rt].
  pose proof nonce_lens_small as (A & _ & B).
  destruct (validated_fit parse allow rt (join_query path q) prefix Hp). rewrite Hv, Hs. auto.
Qed.

(* ... and the guard is necessary: a 65536-byte field does not survive (uint16 wrap). *)
Theorem roundtrip_guard_needed :
  exists mac f, (forall k m, length (mac k m) = MACLEN) /\ created_ok f = true /\ fields_ok f = false /\
    res_eqb (unpack_raw mac [] (pack_raw mac [] f) 0 0)
            (Accepted (f_verifier f) (f_state f) (f_url f) (f_rt f)) = false.
Proof.
  (* the long field is the last one, so that reading the payload back never walks
     along it: its prefix wraps to 0 and the reader returns the empty string *)
  assert (ML : forall k m : bytes, length (repeat 0 MACLEN) = MACLEN) by (intros; apply repeat_length).
  assert (E : lenN (rep 65536 120) = 65536) by (unfold lenN, rep; rewrite repeat_length; apply N2Nat.id).
  exists (fun _ _ => repeat 0 MACLEN).
  exists {| f_created := 0; f_verifier := []; f_state := []; f_url := []; f_rt := rep 65536 120 |}.
  split; [exact ML|]. split; [reflexivity|]. split.
  - unfold fields_ok. cbn [f_rt]. rewrite E. reflexivity.
  - unfold pack_raw. rewrite (unpack_raw_split _ ML) by apply length_payload_ge.
    rewrite unpack_payload_payload. unfold body, lp. cbn [f_rt]. rewrite E. reflexivity.
Qed.

(* Length-prefix framing: no two distinct field tuples share a MAC input / a cookie. *)
Theorem pack_injective :
  forall mac key f g, (forall k m, length (mac k m) = MACLEN) ->
  fields_ok f = true -> created_ok f = true -> fields_ok g = true -> created_ok g = true ->
  pack_raw mac key f = pack_raw mac key g -> f = g.
Proof. exact Proofs.C27.pack_injective. Qed.

Theorem mac_input_injective :
  forall f g, fields_ok f = true -> created_ok f = true -> fields_ok g = true -> created_ok g = true ->
  payload f = payload g -> f = g.
Proof. exact payload_injective. Qed.

(* Altered / truncated / extended cookies, on the cookie TEXT. The MAC is ideal in
   this sense, stated for the bytes the presented text decodes to: if they carry
   the genuine tag of their own payload, that payload is one the key holder MACed
   ([unforgeable]). Then every text that is not an issued text — up to trailing
   '=' padding, the only tolerated difference — is refused ... *)
Theorem altered_or_truncated_refused :
  forall mac, (forall k m, length (mac k m) = MACLEN) ->
  forall (enc enc_raw : bytes -> bytes) (dec_pad dec_raw : bytes -> option bytes),
  (forall x, trim_pad (enc x) = enc_raw x) ->
  forall key issued text now max_age,
  (forall raw, decode dec_pad dec_raw text = Some raw -> unforgeable mac key issued raw) ->
  (forall f, In f issued -> trim_pad text <> trim_pad (pack_text enc mac key f)) ->
  unpack_text enc_raw dec_pad dec_raw mac key text now max_age = Refused.
Proof.
  intros mac _ enc enc_raw dec_pad dec_raw ET key issued text now max_age U Ne.
  destruct (unpack_text enc_raw dec_pad dec_raw mac key text now max_age) as [v s u r|] eqn:E; [|reflexivity].
  exfalso. apply unpack_text_inv in E as (raw & D & C & A).
  apply (accepted_genuine mac) in A as (p & R & _).
  destruct (U raw D p R) as (f & Hin & P). apply (Ne f Hin).
  unfold pack_text, pack_raw. rewrite ET, <- C. subst. reflexivity.
Qed.

(* ... and whatever IS accepted is an issued text (up to padding), yields exactly
   its fields, and is fresh. *)
Theorem accepted_only_what_was_packed :
  forall mac, (forall k m, length (mac k m) = MACLEN) ->
  forall (enc enc_raw : bytes -> bytes) (dec_pad dec_raw : bytes -> option bytes),
  (forall x, trim_pad (enc x) = enc_raw x) ->
  forall key issued text now max_age v s u r,
  (forall raw, decode dec_pad dec_raw text = Some raw -> unforgeable mac key issued raw) ->
  (forall f, In f issued -> fields_ok f = true /\ created_ok f = true) ->
  (0 <= now < two63)%Z -> (max_age < two63)%Z ->
  unpack_text enc_raw dec_pad dec_raw mac key text now max_age = Accepted v s u r ->
  exists f, In f issued /\ trim_pad text = trim_pad (pack_text enc mac key f)
    /\ v = f_verifier f /\ s = f_state f /\ u = f_url f /\ r = f_rt f
    /\ fresh now max_age (f_created f) = true.
Proof.
  intros mac _ enc enc_raw dec_pad dec_raw ET key issued text now max_age v s u r U G Hn Hm E.
  apply unpack_text_inv in E as (raw & D & C & A).
  destruct (accepted_is_issued mac key issued raw now max_age v s u r (U raw D)) as (f & Hin & R & Ev & Es & Eu & Er & S);
    [intros f Hin; apply (G f Hin) | exact A |].
  (* the clock is sane here, so the age test passed means [fresh] *)
  rewrite stale_fresh in S by (try assumption; apply created_ok_spec, (G f Hin)). apply negb_false_iff in S.
  exists f. split; [exact Hin|]. split; [|repeat split; assumption].
  unfold pack_text. rewrite ET, <- C. now subst.
Qed.

(* The same on the decoded bytes (no base64 premise). *)
Theorem altered_bytes_refused :
  forall mac, (forall k m, length (mac k m) = MACLEN) ->
  forall key issued raw now max_age,
  unforgeable mac key issued raw ->
  (forall f, In f issued -> raw <> pack_raw mac key f) ->
  unpack_raw mac key raw now max_age = Refused.
Proof.
  intros mac _ key issued raw now max_age U Ne.
  destruct (unpack_raw mac key raw now max_age) as [v s u r|] eqn:E; [|reflexivity].
  exfalso. apply (accepted_genuine mac) in E as (p & R & _).
  destruct (U p R) as (f & Hin & P). apply (Ne f Hin). subst. reflexivity.
Qed.

(* The decoder before the fix (lenient base64: unused bits of the last symbol
   ignored, CR/LF skipped) accepted texts that differ from the issued one. *)
Theorem lenient_decoder_legacy_refuted :
  exists enc_raw dec_pad dec_raw mac key f,
    (forall k m, length (mac k m) = MACLEN) /\ fields_ok f = true /\ created_ok f = true /\
    forall text, In text [w_slack; w_crlf] ->
      beqb (trim_pad text) (enc_raw (pack_raw mac key f)) = false /\
      unpack_text_legacy dec_pad dec_raw mac key text 0 0
        = Accepted (f_verifier f) (f_state f) (f_url f) (f_rt f) /\
      unpack_text enc_raw dec_pad dec_raw mac key text 0 0 = Refused.
Proof.
  exists (fun _ => w_canon), (fun _ => Some (pack_raw w_mac [] w_f)), (fun _ => None), w_mac, [], w_f.
  split; [intros; apply repeat_length|]. split; [reflexivity|]. split; [reflexivity|].
  intros text [<- | [<- | []]]; vm_compute; repeat split; reflexivity.
Qed.

(* Without any cryptographic premise: too short is refused. *)
Theorem short_cookie_refused :
  forall mac key raw now max_age, (length raw < MINLEN)%nat -> unpack_raw mac key raw now max_age = Refused.
Proof.
  intros mac key raw now max_age H. unfold unpack_raw. apply Nat.ltb_lt in H. now rewrite H.
Qed.

(* Under collision-freeness only: a cookie MACed with another key, and an issued
   tag moved onto any other payload, are refused. *)
Theorem foreign_key_cookie_refused :
  forall mac, (forall k m, length (mac k m) = MACLEN) ->
  forall k k' f now max_age,
  (forall m, mac k m = mac k' m -> k = k') -> k <> k' ->
  unpack_raw mac k (pack_raw mac k' f) now max_age = Refused.
Proof. exact foreign_key_refused. Qed.

Theorem altered_payload_refused :
  forall mac, (forall k m, length (mac k m) = MACLEN) ->
  forall k f p' now max_age,
  (forall m m', mac k m = mac k m' -> m = m') -> p' <> payload f ->
  unpack_raw mac k (p' ++ mac k (payload f)) now max_age = Refused.
Proof.
  intros mac ML k f p' now max_age C Ne. apply wrong_tag_refused; [apply ML|].
  intro E. apply C in E. congruence.
Qed.

(* Expired (or future-dated) genuine cookies are refused; no guard on the fields. *)
Theorem expired_cookie_refused :
  forall mac, (forall k m, length (mac k m) = MACLEN) ->
  forall key f now max_age,
  created_ok f = true -> (0 <= now < two63)%Z -> (0 < max_age < two63)%Z ->
  fresh now max_age (f_created f) = false ->
  unpack_raw mac key (pack_raw mac key f) now max_age = Refused.
Proof.
  intros mac ML key f now max_age Hc Hn Hm Hx.
  unfold pack_raw. rewrite (unpack_raw_split mac ML) by apply length_payload_ge.
  rewrite unpack_payload_payload. apply created_ok_spec in Hc.
  rewrite stale_fresh by (try assumption; lia). now rewrite Hx.
Qed.

(* The callback unpacks with SESSION_MAX_AGE: it is positive, so the age test is in
   force there, and it meets the premise max_age < 2^63 of the theorems above. *)
Theorem callback_enforces_expiry : (0 < SESSION_MAX_AGE < two63)%Z.
Proof. exact session_age_pos. Qed.

(* (b) The callback exchanges a code only when the returned state equals the
   packed state of an accepted cookie — at most once, with the packed verifier. *)
Theorem code_exchanged_only_if_state_equal :
  forall enc_raw dec_pad dec_raw mac parse key now i,
  let o := callback enc_raw dec_pad dec_raw mac parse key now i in
  co_trace o <> [] ->
  exists text v s u r,
    cb_cookie i = Some text /\
    unpack_text enc_raw dec_pad dec_raw mac key text now SESSION_MAX_AGE = Accepted v s u r /\
    cb_state i = s /\ cb_code i <> [] /\ cb_error i = [] /\
    co_trace o = [(cb_code i, v)].
Proof.
  intros enc_raw dec_pad dec_raw mac parse key now i. cbv zeta.
  (* [cb_run] gives the handler's output as an explicit record in each of its four runs *)
  destruct (callback_run enc_raw dec_pad dec_raw mac parse key now i)
    as [st _ | text v s u r A | text v s u r tok A _ _ _ | text v s u tok A _ _]; cbn [co_trace cb_fail]; intro Ne.
  1: contradiction.
  all: destruct A as (K & _ & U & St & E & C & _); exists text, v, s, u; eexists; repeat split; eassumption || reflexivity.
Qed.

Theorem token_only_after_successful_exchange :
  forall enc_raw dec_pad dec_raw mac parse key now i,
  let o := callback enc_raw dec_pad dec_raw mac parse key now i in
  co_bearer o = true \/ co_auth o <> None ->
  exists tok v, tok <> [] /\ cb_exch i = ExOk tok /\ co_trace o = [(cb_code i, v)] /\ co_status o = 302.
Proof.
  intros enc_raw dec_pad dec_raw mac parse key now i. cbv zeta.
  destruct (callback_run enc_raw dec_pad dec_raw mac parse key now i)
    as [st _ | text v s u r _ | text v s u r tok _ X T _ | text v s u tok _ X T];
    cbn [co_bearer co_auth co_trace co_status cb_fail].
  1,2: intros [H|H]; [discriminate | contradiction].
  all: intros _; exists tok, v; auto.
Qed.

(* Where the bearer goes, for an IdP token of ANY length: it appears in Location
   only next to the non-empty packed return URL; in the same-origin branch it is
   never in Location but whole in the auth cookie; no token appears anywhere else
   in the response. *)
Theorem bearer_placement_any_size :
  forall enc_raw dec_pad dec_raw mac parse key now i,
  let o := callback enc_raw dec_pad dec_raw mac parse key now i in
  co_leak o = false /\
  (co_bearer o = true ->
     exists text v s u r, cb_cookie i = Some text /\
       unpack_text enc_raw dec_pad dec_raw mac key text now SESSION_MAX_AGE = Accepted v s u r /\
       r <> [] /\ co_base o = r /\ co_auth o = None) /\
  (forall a, co_auth o = Some a ->
     cb_exch i = ExOk a /\ co_bearer o = false /\
     exists text v s u, cb_cookie i = Some text /\
       unpack_text enc_raw dec_pad dec_raw mac key text now SESSION_MAX_AGE = Accepted v s u [] /\
       co_base o = validate_original parse u (cb_prefix i)).
Proof.
  intros enc_raw dec_pad dec_raw mac parse key now i. cbv zeta.
  destruct (callback_run enc_raw dec_pad dec_raw mac parse key now i)
    as [st _ | text v s u r _ | text v s u r tok (K & _ & U & _) _ _ Nr | text v s u tok (K & _ & U & _) X _];
    cbn [co_leak co_bearer co_auth co_base cb_fail]; (split; [reflexivity|]); (split; [|intro a]); try discriminate.
  - intros _. exists text, v, s, u, r. auto.
  - intro H. injection H as <-. split; [exact X|]. split; [reflexivity|]. exists text, v, s, u. auto.
Qed.

(* (c) A non-empty result of validateReturnTo is the input itself, http(s), with a
   host, and its scheme+hostname match an allowlist entry (with the port when the
   entry names one) or it is http localhost — relative to what url.Parse returned. *)
Theorem return_target_valid :
  forall parse allow u o,
  validate_return parse allow u = o -> o <> [] ->
  o = u /\ lenN u <= RT_MAX /\ exists r, parse u = Some r
    /\ (u_scheme r = s_http \/ u_scheme r = s_https) /\ u_host r <> []
    /\ ( (is_localhost (u_hostname r) = true /\ u_scheme r = s_http)
         \/ In (origin_of (u_scheme r) (u_hostname r)) allow
         \/ (u_port r <> [] /\ In (origin_port_of (u_scheme r) (u_hostname r) (u_port r)) allow) ).
Proof.
  intros parse allow u o <- Ne.
  destruct (validate_return_cases parse allow u) as [|r Nu L P W H A].
  - contradiction.
  - split; [reflexivity|]. split; [exact L|]. exists r. split; [exact P|].
    split. { unfold web_scheme in W. apply orb_true_iff in W as [W|W]; apply beqb_eq in W; auto. }
    split. { now apply is_nil_false. }
    unfold origin_allowed in A. apply orb_true_iff in A as [A|A]; [apply orb_true_iff in A as [A|A]|].
    + left. apply andb_true_iff in A as [A1 A2]. apply beqb_eq in A2. auto.
    + right; left. now apply memb_In.
    + right; right. apply andb_true_iff in A as [A1 A2]. split.
      * apply is_nil_false. now destruct (is_nil (u_port r)).
      * now apply memb_In.
Qed.

(* The same-origin target: for a proper route prefix ("/x...") the result of
   validateOriginalURL is read by a browser as a same-origin path and lies under
   the prefix, whatever url.Parse answers; for the empty prefix the same holds
   for every input shaped like the page routes' Path?RawQuery. *)
Theorem original_target_same_origin :
  forall parse u prefix,
  good_prefix prefix = true \/ (prefix = [] /\ starts_safe u = true) ->
  let o := validate_original parse u prefix in
  browser_kind o = BSame /\ has_prefix prefix o = true.
Proof.
  intros parse u p H. cbv zeta.
  split; [exact (starts_safe_same _ (validate_original_safe parse u p H)) | apply validate_original_under].
Qed.

(* Without that restriction on the input the validator alone is not enough (latent weakness, not
   reachable through the page routes): with an empty prefix it keeps /\host. *)
Theorem original_target_unpinned_refuted :
  exists parse u, browser_kind (validate_original parse u []) = BNetwork.
Proof.
  exists (fun _ => Some {| u_scheme := []; u_host := []; u_hostname := []; u_port := [] |}).
  exists (str "/\evil.example"). vm_compute. reflexivity.
Qed.

(* A bearer token is only ever placed in a redirect to a URL the server itself
   validated: composition of callback, codec (ideal MAC) and validateReturnTo. *)
Theorem bearer_only_to_validated_return :
  forall enc_raw dec_pad dec_raw mac parse key now allow issued i,
  (forall k m, length (mac k m) = MACLEN) ->
  (0 <= now < two63)%Z ->
  (forall f, In f issued -> fields_ok f = true /\ created_ok f = true /\
                            exists x, f_rt f = validate_return parse allow x) ->
  (forall text raw, cb_cookie i = Some text -> decode dec_pad dec_raw text = Some raw ->
                    unforgeable mac key issued raw) ->
  let o := callback enc_raw dec_pad dec_raw mac parse key now i in
  co_bearer o = true ->
  co_auth o = None /\ co_base o <> [] /\
  exists f x, In f issued /\ cb_state i = f_state f /\ co_base o = validate_return parse allow x.
Proof.
  intros enc_raw dec_pad dec_raw mac parse key now allow issued i _ _ G U. cbv zeta.
  destruct (callback_run enc_raw dec_pad dec_raw mac parse key now i)
    as [st _ | text v s u r _ | text v s u r tok (K & _ & Un & St & _) _ _ Nr | text v s u tok _ _ _];
    cbn [co_bearer co_auth co_base cb_fail]; try discriminate.
  intros _. apply unpack_text_inv in Un as (raw & Dc & _ & Un).
  destruct (accepted_is_issued mac key issued raw now SESSION_MAX_AGE v s u r (U text raw K Dc))
    as (f & Hin & _ & _ & Es & _ & Er & _); [intros f Hin; apply (G f Hin) | exact Un |].
  destruct (G f Hin) as (_ & _ & x & Ex).
  split; [reflexivity|]. split; [exact Nr|]. exists f, x. repeat split; congruence.
Qed.

(* The whole property in the decidable form the correspondence check evaluates on
   the implementation's observables; [input_sane] collects the premises on the
   oracle answers an input carries (ideal MAC for that cookie, url.Parse agreeing
   with the browser-style reading on accepted return URLs, sane clock). *)
Theorem spec_holds_on_model : forall i, input_sane i = true -> spec_ok i (model i) = true.
Proof.
  destruct i as [k c | u allow pr | u p pr | i c pr | allow p path q rt tbl | allow rt tok pr];
    cbn [input_sane model spec_ok]; intro Sn.
  - apply andb_true_iff in Sn as [M T]. now apply unpack_spec_model.
  - exact (return_spec_model (fun _ => pr) allow u Sn).
  - exact (orig_spec_model (fun _ => pr) u p).
  - apply cb_spec_model.
  - apply andb_true_iff in Sn as [Sp Lp]. apply N.ltb_lt in Lp.
    unfold login_spec. cbn [login_fields f_url f_rt].
    rewrite (orig_spec_model (tbl_parse tbl)), (return_spec_model (tbl_parse tbl) allow rt Sp).
    destruct (validated_fit (tbl_parse tbl) allow rt (join_query path q) p Lp) as [Vr Vo].
    apply N.ltb_lt in Vr, Vo. rewrite Vr, Vo. reflexivity.
  - unfold early_spec, early.
    destruct (is_nil (validate_return (fun _ => pr) allow rt)) eqn:Nr; cbn [orb]; [reflexivity|].
    destruct (is_nil tok) eqn:Ntk; [reflexivity|].
    rewrite Nr. cbn [negb andb]. exact (return_spec_model (fun _ => pr) allow rt Sn).
Qed.

(* non-vacuity: premises are met by concrete non-trivial values *)
Example premises_satisfiable :
  let f := {| f_created := 1790000000; f_verifier := str "verifier-43-chars";
              f_state := str "state-nonce"; f_url := str "/vgi/describe?x=1";
              f_rt := str "https://cupola.query-farm.services/app" |} in
  fields_ok f = true /\ created_ok f = true /\ fresh 1790000100 600 (f_created f) = true
  /\ fresh 1790000601 600 (f_created f) = false
  /\ good_prefix (str "/vgi") = true /\ starts_safe (str "/describe?x=//evil") = true
  /\ validate_return (fun _ => Some {| u_scheme := s_https; u_host := str "cupola.query-farm.services";
                                      u_hostname := str "cupola.query-farm.services"; u_port := [] |})
       [pkce_default_origin] (f_rt f) = f_rt f
  /\ input_sane (IReturn (f_rt f) [pkce_default_origin]
       (Some {| u_scheme := s_https; u_host := str "cupola.query-farm.services";
                u_hostname := str "cupola.query-farm.services"; u_port := [] |})) = true.
Proof. vm_compute. repeat split; reflexivity. Qed.
