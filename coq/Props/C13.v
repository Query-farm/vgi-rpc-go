(* Props/C13.v — property C13: a cursor, call or sticky-session token minted for one
   caller identity is refused when presented by any different identity, a token of one
   kind is never accepted in place of another kind, and acceptance never depends on
   which identities used the server before.  Lemmas in Proofs/C13.v.

   Identities: [Anon] (nil or not Authenticated) or [Auth domain principal]; the
   quantifier is [valid_ident] = the auth domain has no NUL byte, the principal is
   arbitrary.  The AEAD (XChaCha20-Poly1305 with the gob/zstd/base64 codecs folded in)
   is an oracle: every theorem below that mentions [seal]/[open] holds for EVERY pair
   satisfying correctness and AAD-binding, which are explicit premises. *)
From VR Require Import Model.C13 Proofs.C13.

(* When Gen/Consts.v was generated, the compiled stateTokenAad,
   callTokenAad, the sticky path's AAD, callStateIdentity, principalKeyFromAuth and the
   cache key had, on the hook's probe identities, exactly the framing of [token_aad],
   [cache_key], [principal_key] (a changed framing makes this fail before any test) *)
Theorem compiled_framing_is_the_modelled_one : aad_framing_ok = 1%Z.
Proof. reflexivity. Qed.

(* cursor and call tokens: equal AAD  ==>  same kind and same identity *)
Theorem aad_injective : forall k1 k2 i1 i2,
  k1 <> Sticky -> k2 <> Sticky ->
  valid_ident i1 = true -> valid_ident i2 = true ->
  token_aad k1 i1 = token_aad k2 i2 -> k1 = k2 /\ i1 = i2.
Proof.
  intros k1 k2 i1 i2 Hk1 Hk2 V1 V2 H. destruct (token_aad_inj _ _ _ _ V1 V2 H) as [F E].
  split; [|exact E]. destruct k1, k2; try discriminate F; congruence.
Qed.

(* FULL STATEMENT WANTED: the same for all three kinds (k1 = k2).  It is false: sticky
   session tokens are sealed under the cursor's AAD (next theorem).  What holds for
   all three kinds: the identity, and the kind up to {Cursor, Sticky}. *)
Theorem aad_injective_all_kinds_partial : forall k1 k2 i1 i2,
  valid_ident i1 = true -> valid_ident i2 = true ->
  token_aad k1 i1 = token_aad k2 i2 -> aad_family k1 = aad_family k2 /\ i1 = i2.
Proof. exact token_aad_inj. Qed.

Theorem aad_kind_separation_refuted :
  exists k1 k2, k1 <> k2 /\ forall i, token_aad k1 i = token_aad k2 i.
Proof. exists Sticky, Cursor. split; [discriminate | reflexivity]. Qed.

(* the NUL-free-domain premise is necessary *)
Theorem aad_injective_needs_nul_free_domain_refuted :
  exists i1 i2, i1 <> i2 /\ token_aad Cursor i1 = token_aad Cursor i2.
Proof. exists (Auth [97; 0; 98] [99]), (Auth [97] [98; 0; 99]). split; [discriminate | reflexivity]. Qed.

(* identities are byte strings: no normalisation (letter case of the scheme name or of
   the principal, blanks) may conflate two of them — e.g. ("SSO", p) and ("sso", p) *)
Theorem identity_bytes_significant : forall k1 k2 d1 p1 d2 p2,
  nul_free d1 = true -> nul_free d2 = true ->
  token_aad k1 (Auth d1 p1) = token_aad k2 (Auth d2 p2) -> d1 = d2 /\ p1 = p2.
Proof.
  intros k1 k2 d1 p1 d2 p2 Hd1 Hd2 H.
  destruct (token_aad_inj k1 k2 (Auth d1 p1) (Auth d2 p2) Hd1 Hd2 H) as [_ E]. now injection E.
Qed.

Theorem domain_case_is_significant :
  forall k1 k2 p, token_aad k1 (Auth (str "SSO") p) <> token_aad k2 (Auth (str "sso") p).
Proof.
  intros k1 k2 p H. apply identity_bytes_significant in H as [E _]; [discriminate| |]; reflexivity.
Qed.

(* A token presented as it was minted.  Envelope (version byte) + AEAD alone decide:
   no appeal to what the plaintext looks like. *)
Theorem accept_iff_same_identity_and_kind :
  forall (CT : Type) (seal : N -> bytes -> payload -> CT) (open : bytes -> CT -> option payload),
  (forall n a p, open a (seal n a p) = Some p) ->
  (forall n a a' p p', open a' (seal n a p) = Some p' -> a' = a) ->
  forall slot j k i n id,
  valid_ident i = true -> valid_ident j = true ->
  (aead_open CT open slot j (mint CT seal k i n id) <> None) <-> (k = slot /\ i = j).
Proof.
  intros CT seal open Hs Hb slot j k i n id Vi Vj.
  change (mint CT seal k i n id) with (env CT false slot (mint CT seal k i n id)).
  rewrite (aead_open_env CT seal open Hs Hb). cbn [orb]. split.
  - destruct (version_of k =? version_of slot) eqn:V, (beqb (token_aad slot j) (token_aad k i)) eqn:B;
      cbn [andb]; try congruence. intros _. apply N.eqb_eq in V. apply beqb_eq in B.
    destruct (token_aad_inj _ _ _ _ Vj Vi B) as [F ->]. split; [|reflexivity].
    symmetry in F. exact (as_minted_separated _ _ V F).
  - intros [-> ->]. rewrite N.eqb_refl, beqb_refl. discriminate.
Qed.

(* A token whose unauthenticated envelope its holder rewrote for the slot (version
   byte, base64 alphabet).  The cryptographic layer then separates identities and
   {Call} from {Cursor, Sticky}, nothing more: *)
Theorem reenveloped_aead_layer_iff :
  forall (CT : Type) (seal : N -> bytes -> payload -> CT) (open : bytes -> CT -> option payload),
  (forall n a p, open a (seal n a p) = Some p) ->
  (forall n a a' p p', open a' (seal n a p) = Some p' -> a' = a) ->
  forall slot j k i n id,
  valid_ident i = true -> valid_ident j = true ->
  (aead_open CT open slot j (reenvelope CT slot (mint CT seal k i n id)) <> None)
  <-> (aad_family k = aad_family slot /\ i = j).
Proof.
  intros CT seal open Hs Hb slot j k i n id Vi Vj.
  change (reenvelope CT slot (mint CT seal k i n id)) with (env CT true slot (mint CT seal k i n id)).
  rewrite (aead_open_env CT seal open Hs Hb). cbn [orb andb]. split.
  - destruct (beqb (token_aad slot j) (token_aad k i)) eqn:B; [|congruence]. intros _.
    apply beqb_eq in B. destruct (token_aad_inj _ _ _ _ Vj Vi B) as [F ->]. auto.
  - intros [F ->]. unfold token_aad. rewrite (aad_family_prefix _ _ F), beqb_refl. discriminate.
Qed.

(* The slot's full opener, either presentation ([re] = re-enveloped).  PARTIAL for
   re = true and {k, slot} = {Cursor, Sticky}: there the refusal is produced only by
   the modelled plaintext grammar (gob cursorTokenData vs the fixed sticky layout:
   [pl_kind]), which neither the AAD nor the version byte enforces; the harness shows
   on real tokens that the real parsers do refuse them. *)
Theorem slot_accept_iff_any_envelope_partial :
  forall (CT : Type) (seal : N -> bytes -> payload -> CT) (open : bytes -> CT -> option payload),
  (forall n a p, open a (seal n a p) = Some p) ->
  (forall n a a' p p', open a' (seal n a p) = Some p' -> a' = a) ->
  forall re slot j k i n id x,
  valid_ident i = true -> valid_ident j = true ->
  open_slot CT open slot j (env CT re slot (mint CT seal k i n id)) = Some x
  <-> (k = slot /\ i = j /\ x = id).
Proof. exact open_slot_iff. Qed.

(* Continuations: never for another identity or kind, under ANY call-state cache. *)
Theorem continuation_refuses_foreign_token_any_cache :
  forall (CT : Type) (seal : N -> bytes -> payload -> CT) (open : bytes -> CT -> option payload),
  (forall n a p, open a (seal n a p) = Some p) ->
  (forall n a a' p p', open a' (seal n a p) = Some p' -> a' = a) ->
  forall cache j re k i n id tk,
  valid_ident i = true -> valid_ident j = true ->
  continue_dec CT open cache j (env CT re Cursor (mint CT seal k i n id)) tk <> None ->
  k = Cursor /\ i = j.
Proof.
  intros CT seal open Hs Hb cache j re k i n id tk Vi Vj. unfold continue_dec.
  destruct (open_slot CT open Cursor j (env CT re Cursor (mint CT seal k i n id))) as [c|] eqn:Hopen; [|congruence].
  apply (open_slot_iff CT seal open Hs Hb) in Hopen as [-> [-> _]]; auto.
Qed.

(* Session tokens, on EVERY route on which one is presented — a resume (unary, /init,
   /exchange carrying VGI-Session) and the teardown DELETE {prefix}/__session__ —
   for all identity pairs, whatever the registry holds: *)
Theorem session_refuses_foreign_token_any_registry :
  forall (CT : Type) (seal : N -> bytes -> payload -> CT) (open : bytes -> CT -> option payload),
  (forall n a p, open a (seal n a p) = Some p) ->
  (forall n a a' p p', open a' (seal n a p) = Some p' -> a' = a) ->
  forall (route : sroute) reg j re k i n id,
  valid_ident i = true -> valid_ident j = true ->
  sticky_accepts CT open route reg j (env CT re Sticky (mint CT seal k i n id)) = true ->
  k = Sticky /\ i = j.
Proof.
  intros CT seal open Hs Hb route reg j re k i n id Vi Vj H.
  assert (R : resume_dec CT open reg j (env CT re Sticky (mint CT seal k i n id)) = true)
    by (destruct route; [exact H | now rewrite resume_is_teardown]).
  unfold resume_dec in R.
  destruct (open_slot CT open Sticky j (env CT re Sticky (mint CT seal k i n id))) as [x|] eqn:Hopen; [|discriminate].
  apply (open_slot_iff CT seal open Hs Hb) in Hopen as [-> [-> _]]; auto.
Qed.

(* the teardown route takes exactly the decision a resume takes (no second look under
   another identity) *)
Theorem session_routes_agree :
  forall (CT : Type) (open : bytes -> CT -> option payload) (r r' : sroute) reg j t,
  sticky_accepts CT open r reg j t = sticky_accepts CT open r' reg j t.
Proof.
  intros CT open r r' reg j t. destruct r, r'; cbn [sticky_accepts]; rewrite ?resume_is_teardown; reflexivity.
Qed.

(* A cursor together with the call token of the same call (what the protocol makes the
   client echo): the decision is the same under EVERY cache as under the empty one,
   and it is "accepted iff the presenter is the identity the pair was minted for". *)
Theorem history_independent :
  forall (CT : Type) (seal : N -> bytes -> payload -> CT) (open : bytes -> CT -> option payload),
  (forall n a p, open a (seal n a p) = Some p) ->
  (forall n a a' p p', open a' (seal n a p) = Some p' -> a' = a) ->
  forall cache i j re re' n m c,
  valid_ident i = true -> valid_ident j = true ->
  let tc := env CT re Cursor (mint CT seal Cursor i n c) in
  let tk := Some (env CT re' Call (mint CT seal Call i m c)) in
  is_some (continue_dec CT open cache j tc tk) = is_some (continue_dec CT open [] j tc tk)
  /\ (is_some (continue_dec CT open cache j tc tk) = true <-> i = j).
Proof.
  intros CT seal open Hs Hb cache i j re re' n m c Vi Vj tc tk.
  assert (E : forall ca, is_some (continue_dec CT open ca j tc tk) = true <-> i = j).
  { intros ca. split.
    - destruct (continue_dec CT open ca j tc tk) eqn:D; [|discriminate]. intros _.
      apply (continuation_refuses_foreign_token_any_cache CT seal open Hs Hb ca j re Cursor i n c tk Vi Vj).
      subst tc. congruence.
    - intros ->. subst tc tk. now rewrite (continue_echo CT seal open Hs). }
  split; [|apply E]. apply eq_true_iff_eq. now rewrite !E.
Qed.

(* Whatever is put in the call slot (nothing, garbage, another call's token): if call
   ids are fresh (every id has ONE owner; entries are stored under the owner, as the
   reachable caches are — see reachable_cache_owned), then entries stored by any
   other identity never change the decision for [j] — although the cache key itself
   is not injective on identities (cache_identity_key_collision). *)
Theorem other_identities_irrelevant :
  forall (CT : Type) (seal : N -> bytes -> payload -> CT) (open : bytes -> CT -> option payload),
  (forall n a p, open a (seal n a p) = Some p) ->
  (forall n a a' p p', open a' (seal n a p) = Some p' -> a' = a) ->
  forall (owner : bytes -> ident) (es : list (bytes * ident)) j re n c tk,
  (forall e, In e es -> snd e = owner (fst e) /\ nul_free (fst e) = true) ->
  nul_free c = true -> valid_ident j = true -> valid_ident (owner c) = true ->
  let tc := env CT re Cursor (mint CT seal Cursor (owner c) n c) in
  continue_dec CT open (keys es) j tc tk
  = continue_dec CT open (keys (filter (fun e => ident_eqb (snd e) j) es)) j tc tk.
Proof.
  intros CT seal open Hs Hb owner es j re n c tk Hes Nc Vj Vo tc. unfold continue_dec.
  (* the cursor opens only for the owner of c; every entry under call id c was stored by
     that owner, so the filter keeps exactly the entries the lookup can see *)
  destruct (open_slot CT open Cursor j tc) as [x|] eqn:Hopen; [|reflexivity].
  apply (open_slot_iff CT seal open Hs Hb) in Hopen as [_ [Ho ->]]; auto.
  unfold resolve_dec.
  replace (has_key (cache_key c j) (keys (filter (fun e => ident_eqb (snd e) j) es)))
    with (has_key (cache_key c j) (keys es)); [reflexivity|].
  apply eq_true_iff_eq. rewrite !has_key_keys. split; intros [e [He Hk]].
  - exists e. split; [|exact Hk]. apply filter_In. split; [exact He|].
    destruct (Hes e He) as [Hse Hn]. apply cache_key_callid in Hk as [Hc _]; auto.
    apply ident_eqb_eq. now rewrite Hse, Hc.
  - apply filter_In in He as [He _]. eauto.
Qed.

(* The caches the server can actually reach.  For EVERY history [ops] of inits, session
   opens, cache resets, continuations, resolves, resumes and session teardowns by valid identities: each
   cache entry was stored under the owner of its call id ([owner_of]: the identity of the
   n-th /init owns the n-th, fresh, call id) ... *)
Theorem reachable_cache_owned :
  forall (CT : Type) (seal : N -> bytes -> payload -> CT) (open : bytes -> CT -> option payload),
  (forall n a p, open a (seal n a p) = Some p) ->
  (forall n a a' p p', open a' (seal n a p) = Some p' -> a' = a) ->
  forall ids, Forall (fun r => valid_ident (norm r) = true) ids ->
  forall ops, exists es,
    s_cache CT (exec CT seal open ids (st0 CT) ops) = keys es
    /\ forall e, In e es -> snd e = owner_of ids ops (fst e) /\ nul_free (fst e) = true.
Proof.
  intros CT seal open Hs Hb ids Hids ops.
  destruct (exec_owned_inv CT seal open Hs Hb ids Hids ops _ _ (owned_inv0 CT open _)) as [_ _ [es [E H]]].
  exists es. split; [exact E|].
  intros e He. destruct (H e He) as [m [Ec Hm]]. rewrite Ec. split; [|apply callid_nul_free].
  unfold owner_of, callid. rewrite N.add_sub, Nat2N.id. symmetry. now apply nth_error_nth.
Qed.

(* ... hence, after any history, the entries stored by identities other than [j] are
   irrelevant to [j]'s decision on a cursor of any call of that history, whatever sits
   in the call slot. *)
Theorem reachable_history_independent :
  forall (CT : Type) (seal : N -> bytes -> payload -> CT) (open : bytes -> CT -> option payload),
  (forall n a p, open a (seal n a p) = Some p) ->
  (forall n a a' p p', open a' (seal n a p) = Some p' -> a' = a) ->
  forall ids, Forall (fun r => valid_ident (norm r) = true) ids ->
  forall ops j re n m tk, valid_ident j = true ->
  exists es, s_cache CT (exec CT seal open ids (st0 CT) ops) = keys es /\
    let tc := env CT re Cursor (mint CT seal Cursor (owner_of ids ops (callid m)) n (callid m)) in
    continue_dec CT open (keys es) j tc tk
    = continue_dec CT open (keys (filter (fun e => ident_eqb (snd e) j) es)) j tc tk.
Proof.
  intros CT seal open Hs Hb ids Hids ops j re n m tk Vj.
  destruct (reachable_cache_owned CT seal open Hs Hb ids Hids ops) as [es [E H]].
  exists es. split; [exact E|].
  apply (other_identities_irrelevant CT seal open Hs Hb (owner_of ids ops)); auto.
  - apply callid_nul_free.
  - apply owner_of_valid, Hids.
Qed.

(* callStateIdentity / principalKeyFromAuth map anonymous
   and the authenticated identity ("", "anonymous") to one key — and that is the only
   collision among valid identities *)
Theorem cache_identity_key_collision :
  cache_ident Anon = cache_ident (Auth [] (str "anonymous"))
  /\ principal_key Anon = principal_key (Auth [] (str "anonymous")).
Proof. split; reflexivity. Qed.

Theorem cache_identity_key_only_collision : forall i1 i2,
  valid_ident i1 = true -> valid_ident i2 = true -> cache_ident i1 = cache_ident i2 ->
  i1 = i2 \/ (i1 = Anon /\ i2 = Auth [] (str "anonymous")) \/ (i2 = Anon /\ i1 = Auth [] (str "anonymous")).
Proof.
  assert (A : ck_anon = [] ++ 0 :: str "anonymous") by reflexivity.
  destruct sep_is_nul as [_ [Hck _]].
  intros [|d1 p1] [|d2 p2]; cbn [valid_ident cache_ident]; intros V1 V2 H.
  - auto.
  - rewrite A, Hck in H. cbn [app] in H.
    destruct (split_at_nul [] d2 _ _ eq_refl V2 H) as [<- <-]. auto.
  - rewrite A, Hck in H. cbn [app] in H. symmetry in H.
    destruct (split_at_nul [] d1 _ _ eq_refl V1 H) as [<- <-]. auto.
  - rewrite Hck in H. cbn [app] in H. destruct (split_at_nul _ _ _ _ V1 V2 H) as [-> ->]. auto.
Qed.

(* Every history, in the decidable form the correspondence evaluates on the
   implementation's outputs: in any sequence of inits, session opens, cache
   resets, continuations, resumes and session teardowns by any identities, an accepted
   presentation is of the slot's kind and by the minting identity, and an
   identity presenting its own cursor with the echoed call token / its own
   session token is accepted — whatever happened before. *)
Theorem spec_holds_on_model : forall i, spec_ok i (model i) = true.
Proof.
  intros i. exact (spec_run_holds sym_ct sym_seal sym_open sym_open_seal sym_open_binds (i_ids i) (i_ops i)
                     (st0 sym_ct) [] None [] (inv0 sym_ct sym_seal)).
Qed.

Theorem spec_holds_for_every_ideal_aead :
  forall (CT : Type) (seal : N -> bytes -> payload -> CT) (open : bytes -> CT -> option payload),
  (forall n a p, open a (seal n a p) = Some p) ->
  (forall n a a' p p', open a' (seal n a p) = Some p' -> a' = a) ->
  forall ids ops, spec_run ids ops (run CT seal open ids (st0 CT) ops) [] 0 0 None [] = true.
Proof.
  intros CT seal open H1 H2 ids ops.
  exact (spec_run_holds CT seal open H1 H2 ids ops (st0 CT) [] None [] (inv0 CT seal)).
Qed.

(* the AEAD premises are satisfiable (by the symbolic AEAD the executable model uses) *)
Example aead_premises_satisfiable :
  (forall n a p, sym_open a (sym_seal n a p) = Some p)
  /\ (forall n a a' p p', sym_open a' (sym_seal n a p) = Some p' -> a' = a).
Proof. split; [exact sym_open_seal | exact sym_open_binds]. Qed.

(* valid identities exist that differ only in where the bytes sit, and a non-trivial
   history on which the model accepts and refuses *)
Example premises_satisfiable :
  valid_ident (Auth (str "jwt") [97; 0; 108]) = true /\ valid_ident Anon = true
  /\ valid_ident (Auth [] (str "anonymous")) = true
  /\ model {| i_ids := [RCtx true (str "jwt") (str "alice"); RCtx true (str "jwt") (str "alic")];
              i_ops := [OInit 0; OContinue 1 (TTok 0 false) (TTok 1 false);
                        OContinue 0 (TTok 0 false) (TTok 1 false); OReset;
                        OContinue 0 (TLast false) TNone; OContinue 0 (TLast false) (TTok 1 false)] |}
     = [true; false; true; true; false; true].
Proof. repeat split; vm_compute; reflexivity. Qed.

(* a reachable cache that really holds entries of two identities whose keys collide *)
Example reachable_premises_satisfiable :
  let ids := [RNil; RCtx true [] (str "anonymous")] in
  Forall (fun r => valid_ident (norm r) = true) ids
  /\ s_cache sym_ct (exec sym_ct sym_seal sym_open ids (st0 sym_ct) [OInit 0; OInit 1])
     = keys [([2], Auth [] (str "anonymous")); ([1], Anon)].
Proof. cbn zeta. split; [repeat constructor | vm_compute; reflexivity]. Qed.

Example owner_premise_satisfiable :
  let owner := fun c : bytes => if beqb c [1] then Anon else Auth [] (str "anonymous") in
  let es := [([1], Anon); ([2], Auth [] (str "anonymous"))] in
  (forall e, In e es -> snd e = owner (fst e) /\ nul_free (fst e) = true)
  /\ keys es = [[1; 0; 0; 97; 110; 111; 110; 121; 109; 111; 117; 115]; [2; 0; 0; 97; 110; 111; 110; 121; 109; 111; 117; 115]].
Proof.
  cbn zeta. split; [|vm_compute; reflexivity].
  intros e [<-|[<-|[]]]; split; reflexivity.
Qed.
