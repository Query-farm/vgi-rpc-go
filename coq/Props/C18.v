(* Props/C18.v — property C18: request bodies are decoded exactly and never beyond their
   caps. The lemmas are in Proofs/C18.v.

   Reading guide.
   MODEL (follows the Go code): configure (the three setters on a fresh server), raw_limit /
   decode_cap (readHTTPBody's cap cascade), take_z (io.LimitReader as a counter),
   decompress_bounded, read_body, precheck (ServeHTTP), status_of
   (writeBodyReadError), lim_plus_one / sat_mul16 (capPlusOne / saturatingMul16, saturating at
   MaxInt64 since afb7453), decode_ce (DecodeContentEncoding); run http orc c rq = what a request
   observes (http = through ServeHTTP, else readHTTPBody + writeBodyReadError).
   SPEC (written with options, no mechanics): s_adv = the advertised max_request_bytes that
   applies to the route, s_raw_cap / s_dec_cap = the wire-size / decoded-size cap in force
   paired with a flag saying it IS the advertised cap; within n cap; s_maxwin = the decoder's
   window ceiling under a cap.
   ORACLE: orc coding data = the stream a codec library sees in data (segments with their
   window need and output, clean end, declared size of the first frame). The codec premise
   [codec_ok] says decomp (comp x) = x in that form; [need] is the window memory an encoding
   needs (the property's quantifier includes streaming frames only when it does not exceed the
   decoded-size cap).
   GUARD: the caps are unrestricted (any Z, MaxInt64 included). The only guard is a
   fact about Go values: the byte strings in play are shorter than MaxInt64 bytes
   (zlen (r_raw rq) < max64, zlen x < max64; [fits] in the decidable form). It is genuinely
   needed only when a cap equals MaxInt64 exactly: there is then no representable byte past
   the cap for the code to read. The wrapping arithmetic of the code before afb7453 is kept
   as model_wrap (see maxint_cap_legacy_refuted). *)
From VR Require Import Model.C18 Proofs.C18.
From Coq Require Import ZifyBool Lia.
Open Scope Z_scope.

(* 1. within the caps the handler receives exactly what the client encoded: identity ... *)
Theorem within_caps_exact_identity : forall http orc c rq,
  zlen (r_raw rq) < max64 -> (http = true -> precheck c rq = false) ->
  is_identity (norm_coding (r_ce rq)) = true -> r_rderr rq = false ->
  within (zlen (r_raw rq)) (s_raw_cap c (r_exempt rq)) = true ->
  run http orc c rq = OBody 200 (r_raw rq) (zlen (r_raw rq)).
Proof.
  intros http orc c rq Hn Hp Hi Hrd Hw. destruct (raw_limit c (r_exempt rq)) as [limit rca] eqn:Hr.
  rewrite (run_within _ _ _ _ _ _ Hr Hn Hp Hw). unfold decode_part. now rewrite Hrd, Hi.
Qed.

(*    ... and zstd / gzip, for every encoder setting p and payload x, under the codec premise *)
Theorem within_caps_exact : forall orc (P : Type) (comp : bytes -> P -> bytes -> bytes) (need : bytes -> P -> bytes -> Z),
  (forall c p x, In c c18_decodable_codings ->
     let st := orc c (comp c p x) in
     st_clean st = true /\ total st = x /\
     Forall (fun s => s_win s <= need c p x) (st_segs st) /\
     (forall f, st_fcs st = Some f -> f <= zlen x)) ->
  forall http c rq enc p x,
  zlen (r_raw rq) < max64 -> zlen x < max64 -> (http = true -> precheck c rq = false) ->
  norm_coding (r_ce rq) = enc -> In enc c18_decodable_codings ->
  r_raw rq = comp enc p x -> r_rderr rq = false ->
  within (zlen (r_raw rq)) (s_raw_cap c (r_exempt rq)) = true ->
  within (zlen x) (s_dec_cap c (r_exempt rq)) = true ->
  need enc p x <= s_maxwin (s_dec_cap c (r_exempt rq)) ->
  run http orc c rq = OBody 200 x (zlen (r_raw rq)).
Proof.
  intros orc P comp need codec_ok http c rq enc p x Hn Hx Hp He Hc Hraw Hrd Hw Hd Hneed.
  rewrite (run_compressed orc P comp need codec_ok http c rq enc p x) by assumption.
  destruct (s_dec_cap c (r_exempt rq)) as [[k adv]|]; [|reflexivity]. cbn [within] in Hd. now rewrite Z.ltb_antisym, Hd.
Qed.

(* 2. over a cap: 413 naming max_request_bytes iff the cap in force is the advertised one,
      else 400 naming nothing; wire size (exactly cap + 1 bytes are read) ... *)
Theorem over_cap_status_raw : forall http orc c rq k adv,
  zlen (r_raw rq) < max64 -> (http = true -> precheck c rq = false) ->
  s_raw_cap c (r_exempt rq) = Some (k, adv) -> k < zlen (r_raw rq) ->
  answers (run http orc c rq) (if adv then 413 else 400) (if adv then Some k else None) /\
  nread_of (run http orc c rq) = k + 1.
Proof.
  intros http orc c rq k adv Hn Hp Hc Hk. rewrite (run_over _ _ _ _ _ _ Hc Hn Hp Hk), nread_obs_of.
  split; [apply answers_cap_err | reflexivity].
Qed.

(*    ... decoded size ... *)
Theorem over_cap_status_decoded : forall orc (P : Type) (comp : bytes -> P -> bytes -> bytes) (need : bytes -> P -> bytes -> Z),
  (forall c p x, In c c18_decodable_codings ->
     let st := orc c (comp c p x) in
     st_clean st = true /\ total st = x /\
     Forall (fun s => s_win s <= need c p x) (st_segs st) /\
     (forall f, st_fcs st = Some f -> f <= zlen x)) ->
  forall http c rq enc p x k adv,
  zlen (r_raw rq) < max64 -> zlen x < max64 -> (http = true -> precheck c rq = false) ->
  norm_coding (r_ce rq) = enc -> In enc c18_decodable_codings ->
  r_raw rq = comp enc p x -> r_rderr rq = false ->
  within (zlen (r_raw rq)) (s_raw_cap c (r_exempt rq)) = true ->
  s_dec_cap c (r_exempt rq) = Some (k, adv) -> k < zlen x ->
  need enc p x <= s_maxwin (s_dec_cap c (r_exempt rq)) ->
  answers (run http orc c rq) (if adv then 413 else 400) (if adv then Some k else None).
Proof.
  intros orc P comp need codec_ok http c rq enc p x k adv Hn Hx Hp He Hc Hraw Hrd Hw Hd Hk Hneed.
  rewrite (run_compressed orc P comp need codec_ok http c rq enc p x) by assumption.
  rewrite Hd, (proj2 (Z.ltb_lt _ _) Hk). apply answers_cap_err.
Qed.

(*    ... and a declared Content-Length over the advertised cap: 413 at once, nothing read *)
Theorem over_cap_status_declared : forall c rq orc,
  precheck c rq = true ->
  run true orc c rq = OHttpRefused 413 (Some (mrb c)) true 0 /\ s_adv c (r_exempt rq) = Some (mrb c).
Proof. exact precheck_status. Qed.

(* 3. never more than one byte past a cap, for EVERY oracle (hostile streams included), every
      cap and every size, no guard: from the request body ... *)
Theorem reads_at_most_cap_plus_one : forall http orc c rq,
  nread_of (run http orc c rq) <= zlen (r_raw rq) /\
  forall k adv, s_raw_cap c (r_exempt rq) = Some (k, adv) -> nread_of (run http orc c rq) <= k + 1.
Proof.
  intros http orc c rq.
  pose proof (zlen_nonneg (r_raw rq)) as Hz.
  destruct (read_body_shape orc c rq) as [Hs _].
  destruct (raw_limit c (r_exempt rq)) as [limit rca] eqn:Hr. cbn [fst] in Hs.
  destruct (caps_agree c _ _ _ Hr) as (Hrc & _ & _).
  pose proof (take_z_len (lim_plus_one limit) (r_raw rq)) as HL.
  pose proof (lim_plus_one_bounds limit) as Hb.
  destruct (nread_run http orc c rq) as [E|E]; rewrite E; clear E.
  - split; [lia|]. intros k adv Hc. rewrite Hrc in Hc. destruct (0 <? limit) eqn:E0; inversion Hc; subst. lia.
  - rewrite Hs. split.
    + destruct (0 <? limit); [|lia]. rewrite HL. destruct (lim_plus_one limit <=? 0); lia.
    + intros k adv Hc. rewrite Hrc in Hc. destruct (0 <? limit) eqn:E0; inversion Hc; subst.
      rewrite HL. destruct (lim_plus_one k <=? 0); lia.
Qed.

(*    ... and out of the decoder; what is returned is within the cap *)
Theorem decodes_at_most_cap_plus_one : forall orc c data m,
  0 < m ->
  0 <= snd (decompress_bounded orc c data m) <= m + 1 /\
  forall b, fst (decompress_bounded orc c data m) = DOk b -> zlen b <= m.
Proof.
  intros orc c data m H0. destruct (db_bounds orc c data m) as [Hr Hn]. split; [now apply Hn|].
  intros b Hb. rewrite Hb in Hr. now apply Hr.
Qed.

(* 4. an unknown coding is refused with 415, and nothing else ever is *)
Theorem unknown_415 : forall http orc c rq,
  zlen (r_raw rq) < max64 -> (http = true -> precheck c rq = false) ->
  r_rderr rq = false -> within (zlen (r_raw rq)) (s_raw_cap c (r_exempt rq)) = true ->
  is_identity (norm_coding (r_ce rq)) = false -> memb (norm_coding (r_ce rq)) c18_decodable_codings = false ->
  answers (run http orc c rq) 415 None.
Proof.
  intros http orc c rq Hn Hp Hrd Hw Hi Hm. destruct (raw_limit c (r_exempt rq)) as [limit rca] eqn:Hr.
  rewrite (run_within _ _ _ _ _ _ Hr Hn Hp Hw). unfold decode_part. rewrite Hrd, Hi, Hm.
  destruct http; split; reflexivity.
Qed.

Theorem only_unknown_415 : forall http orc c rq nm,
  answers (run http orc c rq) 415 nm ->
  is_identity (norm_coding (r_ce rq)) = false /\ memb (norm_coding (r_ce rq)) c18_decodable_codings = false.
Proof.
  intros http orc c rq nm Ha. unfold run in Ha.
  destruct (http && precheck c rq); [cbn [answers] in Ha; destruct Ha; discriminate|].
  destruct (read_body_shape orc c rq) as [_ H]. destruct (read_body orc c rq) as [[b|e] n]; [contradiction|].
  apply (H e eq_refl). destruct http; apply Ha.
Qed.

(* 5. the intermediary decoder undoes any stack of zstd/gzip codings in reverse order ... *)
Theorem decode_stack : forall orc (P : Type) (comp : bytes -> P -> bytes -> bytes) (need : bytes -> P -> bytes -> Z),
  (forall c p x, In c c18_decodable_codings ->
     let st := orc c (comp c p x) in
     st_clean st = true /\ total st = x /\
     Forall (fun s => s_win s <= need c p x) (st_segs st) /\
     (forall f, st_fcs st = Some f -> f <= zlen x)) ->
  forall m cs x, stack_ok P comp need m cs x ->
  decode_ce orc (encode_stack P comp cs x) (stack_header P cs) m = DOk x.
Proof.
  intros orc P comp need codec_ok m cs x Hok. unfold stack_header.
  rewrite decode_ce_layers, (s_layers_join _ (stack_ok_names comp need m cs x Hok)), <- (app_nil_r (rev _)).
  exact (layers_stack orc P comp need codec_ok m cs x [] Hok).
Qed.

(*    ... and never returns more than its per-coding limit, for every oracle and header *)
Theorem stack_limit_never_exceeded : forall orc data ce m b,
  0 < m -> s_layers ce <> [] ->
  decode_ce orc data ce m = DOk b -> zlen b <= m.
Proof.
  intros orc data ce m b H0 Hl Hd. rewrite decode_ce_layers in Hd.
  pose proof (layers_bounds orc m _ data Hl) as Hb. rewrite Hd in Hb. exact (Hb H0).
Qed.

(* 6. the caps of the spec are the caps of the code, for every setting *)
Theorem caps_in_force : forall c ex limit rca,
  raw_limit c ex = (limit, rca) ->
  s_raw_cap c ex = (if 0 <? limit then Some (limit, rca) else None) /\
  (rca = true -> 0 < limit /\ s_adv c ex = Some limit) /\
  s_dec_cap c ex = (if 0 <? decode_cap c limit rca
                    then Some (decode_cap c limit rca, rca && (decode_cap c limit rca =? limit)) else None).
Proof. exact caps_agree. Qed.

(* 7. the same property in the decidable form the correspondence check evaluates on the
      implementation's observables *)
Theorem spec_holds_on_model : forall i, fits i = true -> spec_ok i (model i) = true.
Proof.
  intros i Hn. unfold spec_ok, model. rewrite resolve_eq. apply core_meets_spec. now rewrite fits_resolve.
Qed.

(* 8. before fix d7c7597 every decoded-size overrun answered 413 naming max_request_bytes:
      with only SetMaxDecompressedBodySize(100) and a gzip body of 101 bytes the old code said
      413 max_request_bytes=100 although no request cap was ever advertised *)
Theorem decoded_overrun_413_legacy_refuted :
  fits legacy_witness = true /\ spec_ok legacy_witness (model_legacy legacy_witness) = false /\
  model_legacy legacy_witness = ORefused 413 (EReqTooLarge 100) 20 /\
  model legacy_witness = ORefused 400 (EDecTooLarge 100) 20.
Proof. repeat split; vm_compute; reflexivity. Qed.

(* 9. before fix afb7453 cap+1 and cap*16 wrapped in int64: with SetMaxBodySize(MaxInt64) a
      10-byte identity body within the cap was delivered EMPTY (LimitReader got a negative
      count), and DecodeContentEncoding(gz, gzip, MaxInt64) returned empty bytes without error;
      the current model delivers both exactly *)
Theorem maxint_cap_legacy_refuted :
  fits maxint_witness = true /\
  spec_ok maxint_witness (model_wrap maxint_witness) = false /\ model_wrap maxint_witness = OBody 200 [] 0 /\
  model maxint_witness = OBody 200 (pat 1 0 10) 10 /\
  fits maxint_stack_witness = true /\
  spec_ok maxint_stack_witness (model_wrap maxint_stack_witness) = false /\
  model_wrap maxint_stack_witness = OStack (DOk []) /\
  model maxint_stack_witness = OStack (DOk (pat 0 0 50)).
Proof. repeat split; vm_compute; reflexivity. Qed.

(* 10. which routes escape the advertised cap: exactly the health probe ("/health" and, under a
       route prefix, prefix ++ "/health") and what lies BELOW it after a slash — a method whose
       name merely starts with health (healthcheck, health_echo) is capped like any other.
       The code's test (is_exempt) is the specification's (s_exempt, written differently), and
       the At inputs are the plain ones with the exemption computed from prefix and path, so
       theorems 1-4 apply to them with r_exempt = is_exempt pfx path. *)
Theorem exempt_exactly_the_health_routes : forall pfx path,
  is_exempt pfx path = true <->
  exists base, (base = pfx ++ health_route \/ base = health_route) /\
               (path = base \/ exists rest, path = base ++ SLASH :: rest).
Proof.
  intros pfx path.
  unfold is_exempt. rewrite orb_true_iff, !path_under_iff. split.
  - intros [H|H]; [exists (pfx ++ health_route) | exists health_route]; auto.
  - intros [base [[E|E] H]]; subst base; auto.
Qed.

Theorem exempt_code_is_spec : forall pfx path, is_exempt pfx path = s_exempt pfx path.
Proof. exact exempt_eq. Qed.

Theorem at_inputs_resolve : forall pfx path ops rq t,
  model (DirectAt pfx path ops rq t) = model (Direct ops (with_exempt (is_exempt pfx path) rq) t) /\
  model (HttpAt pfx path ops rq t) = model (Http ops (with_exempt (is_exempt pfx path) rq) t).
Proof. intros pfx path ops rq t. split; reflexivity. Qed.

Example exempt_examples :
  is_exempt [] (str "/health") = true /\ is_exempt [] (str "/health/live") = true /\
  is_exempt [] (str "/healthcheck") = false /\ is_exempt [] (str "/health_echo/init") = false /\
  is_exempt (str "/vgi") (str "/vgi/health") = true /\ is_exempt (str "/vgi") (str "/vgi/healthz") = false /\
  is_exempt (str "/vgi") (str "/health") = true /\ is_exempt (str "/vgi") (str "/x/health") = false /\
  is_exempt [] [] = false.
Proof. repeat split; vm_compute; reflexivity. Qed.

(* non-vacuity: the codec premise is satisfiable (the identity transform seen as one clean
   segment), and concrete requests meet the hypotheses of 1, 2 and 5 *)
Example premises_satisfiable :
  (forall (c : bytes) (p : unit) (x : bytes), In c c18_decodable_codings ->
     let st := id_oracle c ((fun _ _ y => y) c p x) in
     st_clean st = true /\ total st = x /\
     Forall (fun s => s_win s <= (fun _ _ _ => 0) c p x) (st_segs st) /\
     (forall f, st_fcs st = Some f -> f <= zlen x)) /\
  (let c := configure [SetMaxRequestBytes 50] in
   let rq := {| r_exempt := false; r_cl := 30; r_raw := pat 1 0 30; r_rderr := false; r_ce := c18_zstd |} in
   precheck c rq = false /\ In c18_zstd c18_decodable_codings /\
   within 30 (s_raw_cap c false) = true /\ s_dec_cap c false = Some (50, true) /\
   run true id_oracle c rq = OBody 200 (pat 1 0 30) 30) /\
  (let c := configure [SetMaxRequestBytes 29] in
   let rq := {| r_exempt := false; r_cl := -1; r_raw := pat 1 0 30; r_rderr := false; r_ce := [] |} in
   s_raw_cap c false = Some (29, true) /\ run true id_oracle c rq = OHttpRefused 413 (Some 29) false 30) /\
  (let c := configure [SetMaxBodySize max64] in
   let rq := {| r_exempt := false; r_cl := 30; r_raw := pat 1 0 30; r_rderr := false; r_ce := c18_gzip |} in
   s_raw_cap c false = Some (max64, false) /\ s_dec_cap c false = Some (max64, false) /\
   run false id_oracle c rq = OBody 200 (pat 1 0 30) 30) /\
  stack_ok unit (fun _ _ y => y) (fun _ _ _ => 0) 40 [(c18_zstd, tt); (c18_gzip, tt)] (pat 1 0 30).
Proof.
  split; [|split; [|split; [|split]]].
  - (* the identity transform meets the codec premise *)
    intros c p x _. cbn. repeat split; [apply app_nil_r | constructor; [cbn; lia | constructor] |].
    intros f H. inversion H. lia.
  - (* 1: a zstd body under an advertised cap *)
    cbv zeta. repeat split; try (vm_compute; reflexivity).
    apply existsb_beqb_In. vm_compute. reflexivity.
  - (* 2: one byte over the advertised cap *)
    cbv zeta. split; vm_compute; reflexivity.
  - (* 1 with a cap of MaxInt64 *)
    cbv zeta. repeat split; vm_compute; reflexivity.
  - (* 5: two codings, 30 bytes under a per-coding limit of 40, no window needed *)
    assert (Hlen : 40 <= 0 \/ zlen (pat 1 0 30) <= 40) by (right; vm_compute; discriminate).
    assert (Hwin : 0 <= maxwin 40) by (vm_compute; discriminate).
    cbn [stack_ok]. repeat split; try assumption; try (vm_compute; reflexivity);
      apply existsb_beqb_In; vm_compute; reflexivity.
Qed.
