(* Props/C07.v — property C07: a call dispatches to its handler only if the
   parameter batch's schema equals the method's declared parameter schema (field
   order, names, types, nullability — and, as arrow-go's Field.Equal has it,
   per-field metadata); any other shape is a TypeError and the handler never
   runs; when it runs each field holds the value sent, and a null sent for a
   field with a declared default yields that default.
   The lemmas on schema equality, the field loop and the gate are in Proofs/C07.v.

   Reading guide.  [derive ds] is the schema the struct-tag deriver gives for the
   parameter struct [ds] (None = registration fails).  [unwrap b] is the batch
   the binder actually looks at: [b] itself, or — the documented reserved shape,
   modelled explicitly — the batch carried inside a lone binary column named
   request; [EErr] = that payload is not an IPC stream.  [model] is the code at
   /repo main; [model_with c] the same code under revision switches [c]. *)
From VR Require Import Model.C07 Proofs.C07.

(* schema_eqb is Schema.Equal on the modelled type language: it decides
   structural equality (so it is an equivalence), at any nesting depth *)
Theorem schema_eqb_decides_equality : forall a b : schema, schema_eqb a b = true <-> a = b.
Proof. exact schema_eqb_eq. Qed.

Theorem type_eqb_decides_equality : forall a b : ty, ty_eqb a b = true <-> a = b.
Proof. apply ty_fields_eqb_eq. Qed.

Theorem schema_eqb_is_equivalence :
  (forall a, schema_eqb a a = true) /\
  (forall a b, schema_eqb a b = schema_eqb b a) /\
  (forall a b c, schema_eqb a b = true -> schema_eqb b c = true -> schema_eqb a c = true).
Proof.
  split; [exact schema_eqb_refl|]. split.
  - intros a b. apply eq_true_iff_eq. rewrite !schema_eqb_eq. split; congruence.
  - intros a b c. rewrite !schema_eqb_eq. congruence.
Qed.

(* the handler runs ONLY behind an equal schema: for every parameter struct,
   every batch (plain or wrapped to any depth), every revision switch *)
Theorem handler_runs_only_if_schema_equal : forall c i,
  o_outcome (model_with c i) = Ran ->
  exists declared vs, derive (i_decl i) = Some declared /\ unwrap (i_sent i) = EBatch declared vs.
Proof.
  intros c i R. destruct (derive (i_decl i)) as [declared|] eqn:Hd.
  - destruct (proj1 (runs_iff c i declared Hd) R) as (vs & Hu & _). eauto.
  - unfold model_with in R. rewrite Hd in R. discriminate R.
Qed.

(* ... and it runs IFF the schema is equal and every cell can be bound
   ([cells_bind]: a non-null cell's column type fits the Go field kind — a fact
   about the declaration, see [untagged_leaf_always_binds] — and a null cell's
   default literal, if any, is a literal of the field's kind) *)
Theorem handler_runs_iff_schema_equal : forall c i declared,
  derive (i_decl i) = Some declared ->
  (o_outcome (model_with c i) = Ran <->
   exists vs, unwrap (i_sent i) = EBatch declared vs /\
              cells_bind c (i_decl i) (ftypes declared) vs).
Proof. exact runs_iff. Qed.

(* a leaf field without a type option always fits the column derived from it *)
Theorem untagged_leaf_always_binds : forall k t v,
  leaf_ty k = Some t -> exists x, conv_leaf k t v = Some x.
Proof. intros k t v. destruct k; intros [= <-]; cbn [conv_leaf conv_prim kind_int]; eauto. Qed.

(* any mismatch (reordered, renamed, narrowed, widened, a type / nullability
   / field-metadata difference at any depth) is a TypeError and the handler
   trace is empty *)
Theorem mismatch_is_TypeError : forall c i declared fs vs,
  derive (i_decl i) = Some declared -> unwrap (i_sent i) = EBatch fs vs -> fs <> declared ->
  o_outcome (model_with c i) = TypeErr /\ o_trace (model_with c i) = [].
Proof.
  intros c i declared fs vs Hd Hu Hne. destruct (model_with_obs c i declared Hd) as (_ & _ & -> & ->).
  rewrite (deserialize_eq _ _ _ _ Hd), Hu.
  destruct (schema_eqb fs declared) eqn:E; [apply schema_eqb_eq in E; contradiction | auto].
Qed.

(* a request column whose payload is not an IPC stream never reaches the handler *)
Theorem unreadable_request_never_runs : forall c i declared,
  derive (i_decl i) = Some declared -> unwrap (i_sent i) = EErr ->
  o_outcome (model_with c i) <> Ran /\ o_trace (model_with c i) = [].
Proof.
  intros c i declared Hd Hu. destruct (model_with_obs c i declared Hd) as (_ & _ & -> & ->).
  rewrite (deserialize_eq _ _ _ _ Hd), Hu. split; [discriminate | reflexivity].
Qed.

(* the handler is invoked once when the call runs and never otherwise *)
Theorem trace_matches_outcome : forall c i,
  (o_outcome (model_with c i) = Ran -> exists xs, o_trace (model_with c i) = [xs]) /\
  (o_outcome (model_with c i) <> Ran -> o_trace (model_with c i) = []).
Proof.
  intros c i. unfold model_with. destruct (derive (i_decl i)) as [dc|]; [|split; [discriminate | reflexivity]].
  destruct (deserialize c (i_decl i) dc (i_sent i)) as [[| |] xs]; cbn; split; intro H;
    try discriminate; eauto; now destruct H.
Qed.

(* when it runs, field j holds: the value sent in column j (in the field's
   Go representation) if that cell is non-null; the declared default if the
   cell is null and a default is declared; the zero value / nil otherwise.
   Binding is positional even with duplicate column names. *)
Theorem bound_values_exact : forall i xs,
  o_trace (model i) = [xs] ->
  exists declared vs,
    derive (i_decl i) = Some declared /\ unwrap (i_sent i) = EBatch declared vs /\
    length xs = length (i_decl i) /\
    forall j d, nth_error (i_decl i) j = Some d ->
      exists x, nth_error xs j = Some x /\
        let t := nth j (ftypes declared) (TPrim PNull) in
        let v := nth j vs VNull in
        (is_null v = false -> conv (d_go d) t v = Some x) /\
        (is_null v = true -> forall s, d_default d = Some s -> default_literal (d_go d) s = Some x) /\
        (is_null v = true -> d_default d = None -> x = zero_of d).
Proof.
  intros i xs Ht. unfold model in Ht. destruct (derive (i_decl i)) as [declared|] eqn:Hd.
  2:{ unfold model_with in Ht. rewrite Hd in Ht. discriminate Ht. }
  destruct (model_with_obs current i declared Hd) as (_ & _ & _ & Et).
  rewrite Et, (deserialize_eq _ _ _ _ Hd) in Ht. clear Et.
  destruct (unwrap (i_sent i)) as [|fs vs]; [discriminate Ht|].
  destruct (schema_eqb fs declared) eqn:E; [|discriminate Ht]. apply schema_eqb_eq in E as ->.
  destruct (bind_zip current (i_decl i) (ftypes declared) vs) as [[| |] ys] eqn:Eb; try discriminate Ht.
  injection Ht as ->. destruct (bind_zip_ran _ _ _ _ _ Eb) as [Hl Hc].
  exists declared, vs. repeat split; try assumption.
  intros j d Ej. destruct (Hc j d Ej) as (x & Hx & Hb). exists x. split; [exact Hx|].
  apply expect_field_some. rewrite bind_field_expect in Hb.
  destruct (expect_field d _ _); [now injection Hb as -> | destruct (is_null _); discriminate Hb].
Qed.

(* a dictionary-encoded (enum / dict_string) cell — top level, list item or
   struct child — holds the dictionary entry selected by the row's INDEX, whatever
   else the dictionary contains (unused entries, duplicates) *)
Theorem dictionary_cell_binds_indexed_entry : forall ti tv o i d s,
  (0 <= i)%Z -> nth_error d (Z.to_nat i) = Some s ->
  conv_leaf KString (TDict ti tv o) (VD i d) = Some (VS s).
Proof.
  intros ti tv o i d s Hi Hn. cbn. destruct (i <? 0)%Z eqn:E; [lia|]. now rewrite Hn.
Qed.

Theorem resolve_column_is_positional : forall names ord name,
  nth_error names ord = Some name -> resolve names ord name = Some ord.
Proof. exact resolve_positional. Qed.

(* the property in the decidable form that the correspondence check
   evaluates on the implementation's observables *)
Theorem spec_holds_on_model : forall i, spec_ok i (model i) = true.
Proof.
  intro i. unfold spec_ok, model. destruct (derive (i_decl i)) as [declared|] eqn:Hd.
  2:{ unfold model_with. rewrite Hd. reflexivity. }
  destruct (model_with_obs current i declared Hd) as (-> & -> & -> & ->).
  rewrite (deserialize_eq _ _ _ _ Hd). cbn [negb].
  destruct (unwrap (i_sent i)) as [|fs vs]; [reflexivity|].
  destruct (schema_eqb fs declared) eqn:E; [|reflexivity]. apply schema_eqb_eq in E as ->.
  destruct (Nat.eqb (length vs) (flen declared)) eqn:El; [|reflexivity]. apply Nat.eqb_eq in El.
  pose proof (bind_zip_vs_expect (i_decl i) (ftypes declared) vs
                ltac:(rewrite ftypes_len; now apply derive_len)
                ltac:(rewrite El; now apply derive_len)) as Hz.
  destruct (expect_all (zip3 (i_decl i) (ftypes declared) vs)) as [xs|].
  - rewrite Hz. cbn [fst snd outcome_eqb andb]. apply list_eqb_refl, list_eqb_refl, val_eqb_refl.
  - destruct (bind_zip current (i_decl i) (ftypes declared) vs) as [[| |] ys]; cbn in *;
      destruct Hz as [Z1 ->]; try reflexivity. now destruct Z1.
Qed.

(* the code before c81cf36 violated "a null sent for a field with a
   declared default yields that default" for pointer fields (the setter
   panicked) and for sized numeric fields (refused); the code before 099ce14
   violated "schema equal => handler runs with the value sent" for
   pointer-to-map fields (a non-null cell was refused) *)
Theorem null_default_legacy_refuted :
  exists i, spec_ok i (model_legacy_defaults i) = false /\ o_outcome (model_legacy_defaults i) <> Ran /\
            exists x, o_trace (model i) = [[x]].
Proof.
  exists w_ptr_default. destruct legacy_defaults_refuted as [[A [B C]] _].
  split; [exact A|]. split; [rewrite B; discriminate|]. eexists; exact C.
Qed.

Theorem sized_default_legacy_refuted :
  exists i, spec_ok i (model_legacy_defaults i) = false /\ o_outcome (model_legacy_defaults i) = TypeErr /\
            o_trace (model i) = [[VI 5]].
Proof. exists w_int32_default. exact (proj2 legacy_defaults_refuted). Qed.

Theorem ptr_map_legacy_refuted :
  exists i, spec_ok i (model_legacy_ptrmap i) = false /\ o_outcome (model_legacy_ptrmap i) <> Ran /\
            o_outcome (model i) = Ran.
Proof.
  exists w_ptr_map. destruct legacy_ptr_map_refuted as (A & B & C & _).
  split; [exact A|]. split; [rewrite B; discriminate | exact C].
Qed.

(* non-vacuity: a three-field struct (string; int64 nullable with default
   42; pointer-to-[]int32) whose equal batch [hi, null, [1, null]] runs the
   handler with (hi, 42, [1, 0]); the same batch with the first two columns
   swapped is a TypeError with an empty trace; wrapped in a request column it
   runs again *)
Definition ex_decl : list dfield :=
  [ df (str "name") (GLeaf KString) false false None;
    df (str "n") (GLeaf KInt64) false true (Some (str "42"));
    df (str "xs") (GSlice KInt32 ONone) true false None ].
Definition ex_fields : fields :=
  FCons (str "name") (TPrim PUtf8) false []
  (FCons (str "n") (TPrim (PInt true W64)) true []
  (FCons (str "xs") (TList (TPrim (PInt true W32)) true []) true [] FNil)).
Definition ex_swapped : fields :=
  FCons (str "n") (TPrim (PInt true W64)) true []
  (FCons (str "name") (TPrim PUtf8) false []
  (FCons (str "xs") (TList (TPrim (PInt true W32)) true []) true [] FNil)).
Definition ex_vals : list val := [VS (str "hi"); VNull; VL [VI 1; VNull]].

Example premises_satisfiable :
  derive ex_decl = Some ex_fields /\
  model {| i_decl := ex_decl; i_sent := Plain ex_fields ex_vals |} =
    {| o_reg := true; o_declared := ex_fields; o_outcome := Ran;
       o_trace := [[VS (str "hi"); VI 42; VL [VI 1; VI 0]]] |} /\
  o_outcome (model {| i_decl := ex_decl; i_sent := Plain ex_swapped [VNull; VS (str "hi"); VL []] |}) = TypeErr /\
  o_trace (model {| i_decl := ex_decl; i_sent := Wrapped false (Some (Plain ex_fields ex_vals)) [] |}) =
    [[VS (str "hi"); VI 42; VL [VI 1; VI 0]]] /\
  cells_bind current ex_decl (ftypes ex_fields) ex_vals.
Proof. vm_compute. repeat split; reflexivity. Qed.

(* an enum field sent as index 2 into the dictionary [slow; fast; turbo; fast]
   binds turbo; the same field as a list item binds per item *)
Example dictionary_example :
  let dt := TDict (TPrim (PInt true W16)) (TPrim PUtf8) false in
  let d := [str "slow"; str "fast"; str "turbo"; str "fast"] in
  let decl := [ {| d_name := str "mode"; d_go := GLeaf KString; d_ptr := false; d_over := OEnum;
                   d_nullable := false; d_default := None |};
                {| d_name := str "modes"; d_go := GSlice KString OEnum; d_ptr := false; d_over := ONone;
                   d_nullable := false; d_default := None |} ] in
  let fs := FCons (str "mode") dt false [] (FCons (str "modes") (TList dt true []) false [] FNil) in
  derive decl = Some fs /\
  o_trace (model {| i_decl := decl; i_sent := Plain fs [VD 2 d; VL [VD 3 d; VNull; VD 0 d]] |}) =
    [[VS (str "turbo"); VL [VS (str "fast"); VS []; VS (str "slow")]]].
Proof. vm_compute. split; reflexivity. Qed.
