(* Props/C02.v — property C02: a pipe / Unix / TCP session stays in frame after
   every request, good or bad. The lemmas are in Proofs/C02.v.

   Vocabulary (Model/C02.v). A history is a list of [call]s; [client_writes]
   is the flat sequence of IPC streams the client puts on the connection (one
   request stream per call and, for a stream call, its input stream right
   behind it). [serve_flat] is the serve loop of the code: it reads ONE stream
   as a request (ReadRequest), answers, and reads or drains one more stream
   exactly where serveOne / serveStream / drainInputStream do, whatever that
   stream is. [serve_call g c] is the complete response to call c alone: the
   outcome class (missing routing metadata, bad UTF-8 method, missing / wrong
   request version, wrong row count, shm pointer without a segment, describe,
   transport options, unknown method, protocol-version gate refusal, parameter
   mismatch, handler value / error / panic, stream-init error / panic / nil
   result, lockstep loop incl. mid-stream error, panic, no data batch, two data
   batches, Finish on an exchange, input-schema mismatch, client cancel) and
   the streams written for it.

   [in_scope c] is the premise on a call, a condition on what the CLIENT sends:
   a call written as a stream call names a registered stream method with valid
   routing metadata and row count (parameters, script and inputs arbitrary); a
   call written as a unary-shaped request is anything else (garbage included). *)
From VR Require Import Model.C02 Proofs.C02.

(* Stays in frame: on every history of in-scope calls, of any length, the bytes
   the server writes are exactly the per-call responses, in request order, with
   nothing added, dropped or shifted. *)
Theorem stays_in_frame : forall gate calls,
  forallb in_scope calls = true ->
  serve_flat current gate (client_writes calls) = concat (map (serve_call gate) calls).
Proof. intros g cs H. exact (stays_in_frame g cs (scope_forall g cs H)). Qed.

(* Nothing a request leaves behind is read as part of the next one: after any
   in-scope history the reader stands exactly at the first byte of whatever the
   client writes next (ws is arbitrary: valid calls, garbage, anything). *)
Theorem nothing_left_behind : forall gate calls ws,
  forallb in_scope calls = true ->
  serve_flat current gate (client_writes calls ++ ws)
  = concat (map (serve_call gate) calls) ++ serve_flat current gate ws.
Proof. intros g cs ws H. exact (serve_flat_prefix g cs ws (scope_forall g cs H)). Qed.

(* Pipelined clients: however the client groups the calls of an in-scope history
   into writes (request k+1 already on the wire while request k is being read),
   the connection carries the concatenation of what each group gets when it is
   the whole connection - no response is lost, merged or reordered across a
   write boundary. The harness drives exactly these groupings over TCP / Unix. *)
Theorem pipelining_irrelevant : forall gate sizes calls,
  forallb in_scope calls = true ->
  serve_flat current gate (client_writes calls)
  = concat (map (fun b => serve_flat current gate (client_writes b)) (bursts_of sizes calls)).
Proof. exact pipelining_irrelevant. Qed.

(* Exactly one complete response per request, in order: the output splits into
   one group per call, each an optional header stream (stream calls only)
   followed by exactly one data stream that is well formed for that call (not a
   header, exception only as the last batch, request id echoed, a unary-shaped
   call gets exactly one result-or-exception batch). *)
Theorem one_response_per_request : forall gate calls,
  forallb in_scope calls = true ->
  exists resps, serve_flat current gate (client_writes calls) = concat resps
                /\ Forall2 well_formed_response calls resps.
Proof. exact one_response_per_request. Qed.

(* The server reads (runs or drains) an input stream for a request if and only
   if the request is routed and names a registered stream method - on every
   path: gate refusal, parameter mismatch, pointer refusal, init error / panic /
   nil result, and the lockstep loop. *)
Theorem input_consumed_iff_stream_request : forall gate r,
  consumes_input (classify gate r) = routed r && is_stream_method (r_method r).
Proof. exact consumes_input_eq. Qed.

(* the premise is exactly [client and server agree on whether the call has an
   input stream]; it does not depend on the gate, the script or the parameters *)
Theorem in_scope_iff_in_frame : forall gate c, in_scope c = true <-> in_frame gate c = true.
Proof. intros g c. now rewrite in_frame_scope. Qed.

(* The same, in the decidable form that the correspondence check evaluates on
   the implementation's observables (no escaped panic, every script ran, the
   response groups parse call by call with nothing left over, valid unary calls
   get their value, and the connection output is the concatenation of what each
   call gets when served alone on a fresh connection). *)
Theorem spec_holds_on_model : forall i, spec_ok i (model i) = true.
Proof.
  intros i. unfold spec_ok. destruct (forallb in_scope (i_calls i)) eqn:Hs; [|reflexivity].
  cbn [negb orb]. pose proof (scope_forall (i_gate i) _ Hs) as Hf.
  unfold model. cbn [o_streams o_alone o_escaped o_leftover negb andb N.eqb].
  unfold run_conn at 1 3. rewrite (Proofs.C02.stays_in_frame _ _ Hf), (responses_ok_loop _ _ Hf), (alone_ok_model _ _ Hf), (concat_alone _ _ Hf).
  apply list_eqb_refl, stream_eqb_refl.
Qed.

(* The unrepaired code paths violate the property; the repaired ones do not. *)
Theorem param_mismatch_legacy_refuted :
  forallb in_scope w_param = true /\ length (serve_loop false w_param) = 2%nat
  /\ length (serve_flat legacy_param false (client_writes w_param)) = 3%nat
  /\ serve_flat current false (client_writes w_param) = serve_loop false w_param.
Proof. repeat split; vm_compute; reflexivity. Qed.

Theorem gate_refusal_legacy_refuted :
  forallb in_scope w_gate = true /\ length (serve_loop true w_gate) = 2%nat
  /\ length (serve_flat legacy_gate true (client_writes w_gate)) = 3%nat
  /\ serve_flat current true (client_writes w_gate) = serve_loop true w_gate.
Proof. repeat split; vm_compute; reflexivity. Qed.

(* found by this model: a stream call whose request is a shm pointer batch on a
   connection without a segment; with an empty input stream the session ended *)
Theorem ptr_stream_nodrain_legacy_refuted :
  forallb in_scope (w_ptr one_tick) = true /\ length (serve_loop false (w_ptr one_tick)) = 2%nat
  /\ length (serve_flat legacy_ptr false (client_writes (w_ptr one_tick))) = 3%nat
  /\ length (serve_flat legacy_ptr false (client_writes (w_ptr no_inputs))) = 1%nat
  /\ serve_flat current false (client_writes (w_ptr one_tick)) = serve_loop false (w_ptr one_tick)
  /\ serve_flat current false (client_writes (w_ptr no_inputs)) = serve_loop false (w_ptr no_inputs).
Proof. repeat split; vm_compute; reflexivity. Qed.

(* The premise cannot be dropped: a client that writes an input stream behind a
   request the server cannot recognise as a stream call (unknown method, or a
   request refused by ReadRequest) is mis-framed on the current code too. *)
Theorem premise_is_needed :
  forallb in_scope w_unknown_stream = false
  /\ length (serve_flat current false (client_writes w_unknown_stream)) = 3%nat
  /\ forallb in_scope w_badversion_stream = false
  /\ length (serve_flat current false (client_writes w_badversion_stream)) = 3%nat.
Proof. repeat split; vm_compute; reflexivity. Qed.

(* tie: the request-level refusals of the model are those of the compiled ReadRequest *)
Theorem read_request_constants :
  ss_exc_accepted = [] /\ ss_exc_empty_schema_rows = [] /\ ss_exc_ptr_zero_rows = []
  /\ ss_exc_zero_rows = ss_exc_bad_rows /\ ss_exc_bad_rows <> [] /\ ss_exc_no_method <> []
  /\ ss_exc_no_version <> [] /\ ss_exc_bad_version <> [] /\ ss_exc_bad_utf8 <> [].
Proof. repeat split; try reflexivity; discriminate. Qed.

(* non-vacuity: an in-scope history that mixes a garbage request, a refused
   stream call with a pending input stream, a pointer refusal and valid calls *)
Example premises_satisfiable :
  forallb in_scope (w_param ++ w_gate ++ w_ptr one_tick
                    ++ [Unary {| r_method := MAbsent; r_ver := VBad; r_pv := PVAbsent; r_ptr := false; r_shape := SOther;
                                 r_rows := 3; r_x := 0%Z; r_reqid := []; r_extra := 2; r_script := good_script |};
                        Stream (good_req MExchH (str "s")) {| in_shape := SX; in_items := [ {| it_cancel := false; it_vals := [1%Z; 2%Z] |};
                                                                                           {| it_cancel := true; it_vals := [] |} ] |};
                        canary]) = true.
Proof. vm_compute; reflexivity. Qed.
