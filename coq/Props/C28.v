(* Props/C28.v — property C28: client-side parsing recovers exactly what the
   WWW-Authenticate header advertises.  The lemmas are in Proofs/C28.v. *)
From VR Require Import Model.C28 Proofs.C28.

(* For every metadata URL without a double quote and every metadata record whose
   four id/secret fields are in Validate's charset (empty = absent), parsing the
   header the server builds recovers all six advertised items exactly. *)
Theorem parse_build_roundtrip : forall u m,
  url_ok u = true -> meta_ok m = true ->
  let h := build u m in
  parse_param h p_resource_metadata = u
  /\ parse_param h p_client_id = m_client_id m
  /\ beqb (parse_param h p_use_id_token) www_true = m_id_token m
  /\ parse_param h p_client_secret = m_client_secret m
  /\ parse_param h p_dc_client_id = m_dc_id m
  /\ parse_param h p_dc_client_secret = m_dc_secret m.
Proof.
  intros u m Hu Hm h. subst h.
  repeat split; rewrite parse_build by (assumption || (unfold all_names; auto 7 with datatypes)).
  1, 2, 4, 5, 6: reflexivity.
  (* the flag: its field holds "true" or nothing *) unfold fields. now destruct (m_id_token m).
Qed.

(* The same, in the decidable form that the correspondence check evaluates on
   the implementation's observables. *)
Theorem spec_holds_on_model : forall i, spec_ok i (model i) = true.
Proof.
  destruct i as [u m|h]; [|reflexivity]. cbn [spec_ok model].
  destruct (url_ok u && meta_ok m) eqn:E; [|reflexivity]. apply andb_true_iff in E as [Hu Hm].
  destruct (parse_build_roundtrip u m Hu Hm) as (H1 & H2 & H3 & H4 & H5 & H6).
  unfold parse_all. cbn [o_url o_cid o_flag o_csec o_dcid o_dcsec].
  now rewrite H1, H2, H3, H4, H5, H6, !beqb_refl, Bool.eqb_reflx.
Qed.

(* Any list of well-formed name="value" segments, of any length, is parsed by
   first match on the parameter NAME (not on a substring). *)
Theorem parse_any_segments : forall p pv segs,
  name_ok p -> Forall seg_ok segs ->
  scan (key p) false pv (render segs) = lookup p segs.
Proof. exact scan_segs. Qed.

(* The unrepaired parser (plain strings.Index) violates the property. *)
Theorem parse_legacy_refuted :
  exists u m, url_ok u = true /\ meta_ok m = true /\
              parse_legacy (build u m) p_client_id <> m_client_id m.
Proof. exact legacy_refuted. Qed.

(* non-vacuity: a concrete valid, fully populated metadata record *)
Example premises_satisfiable :
  url_ok (str "https://example.com/.well-known/oauth-protected-resource") = true /\
  meta_ok {| m_client_id := str "cid"; m_id_token := true; m_client_secret := str "s~1";
             m_dc_id := str "dev-id"; m_dc_secret := str "d.s" |} = true.
Proof. split; vm_compute; reflexivity. Qed.
