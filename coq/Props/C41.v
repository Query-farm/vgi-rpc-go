(* Props/C41.v — property C41: after any call completes (success, error, panic,
   cancel, cap refusal, cast failure, shared-memory or external resolution)
   every Arrow buffer the framework allocated for it has been released, so the
   outstanding allocation returns to its baseline between calls.
   Lemmas are in Proofs/C41.v.

   FULL STATEMENT (false for the code as it is, see current_code_refuted):
     forall t k e f pre, valid t k e f = true ->
       outstanding Current t k e f pre = Some [].
   What is proved: the statement for the Current traces on every class except
   the one recorded finding (HTTP stream turn whose data batch the IPC writer
   refuses: finding-http-write-error-leak, user code breaking the emit
   contract), and for the Repaired traces (that Release added) on the whole
   lattice.  The two defects repaired by 4160b39 (EmitMap double emit) and
   7e94fa0 (castRecordBatch source datum) survive as _legacy_refuted. *)
From Coq Require Import List Bool NArith ZArith.
From VR Require Import Model.C41 Proofs.C41.
Import ListNotations.
Open Scope N_scope.

(* For every path class of the lattice (2 transports x 4 method kinds x 18 exits
   x 13 features, 675 valid classes: finite, swept once by vm_compute on the
   call with one turn before the exit and lifted with forallb_forall) and EVERY
   number of successful stream turns before the exit (the segments are the same
   ones, repeated), the Current traces leave nothing behind — no object at all,
   tracked by the checked allocator or not — unless the class is an HTTP
   write-error exit (the one recorded finding). *)
Theorem outstanding_zero_on_every_exit_partial : forall t k e f pre,
  valid t k e f = true -> in_finding t k e f = false ->
  outstanding Current t k e f pre = Some [].
Proof. intros t k e f pre. exact (outstanding_zero Current t k e f pre). Qed.

(* With the HTTP flush loops releasing the rest of the cycle on a write error
   the full statement holds. *)
Theorem outstanding_zero_on_every_exit_repaired : forall t k e f pre,
  valid t k e f = true -> outstanding Repaired t k e f pre = Some [].
Proof. intros t k e f pre V. exact (outstanding_zero Repaired t k e f pre V eq_refl). Qed.

(* No trace is ill-formed — no double release, no use after release — on any
   path, leaking or not, in any variant, for any number of turns. *)
Theorem never_double_release : forall v t k e f pre,
  valid t k e f = true -> outstanding v t k e f pre <> None.
Proof. intros v t k e f pre V. eapply collect_some, segments_ok, V. Qed.

(* Histories: for every list of calls (any length) that avoids the HTTP
   write-error classes, the allocator is at its baseline after every call —
   the decidable form evaluated on the implementation's observables. *)
Theorem spec_holds_on_model_partial : forall i,
  forallb call_valid i = true -> forallb (fun c => negb (call_in_finding c)) i = true ->
  spec_ok i (model i) = true.
Proof.
  intros i V NF. apply spec_ok_map. intros [t k e f pre] Hc.
  rewrite forallb_forall in V, NF. specialize (V _ Hc). apply NF, negb_true_iff in Hc.
  unfold model_call. now rewrite (outstanding_zero Current t k e f pre V Hc).
Qed.

Theorem spec_holds_on_repaired_model : forall i,
  forallb call_valid i = true -> spec_ok i (map model_call_repaired i) = true.
Proof.
  intros i V. apply spec_ok_map. intros [t k e f pre] Hc.
  rewrite forallb_forall in V. specialize (V _ Hc).
  unfold model_call_repaired. now rewrite (outstanding_zero Repaired t k e f pre V eq_refl).
Qed.

(* The enumerated lattice is exactly the set of valid combinations, and it is
   the list of path classes the harness drives (regenerated from the compiled
   hook vgirpc.VerifC41Classes into Gen/Consts.v on every run). *)
Theorem paths_exhaustive :
  (forall t k e f, valid t k e f = true <-> In (t, k, e, f) all_classes)
  /\ flat_map class_code all_classes = c41_path_classes
  /\ transports = c41_transports /\ kinds = c41_kinds
  /\ exits = c41_exits /\ features = c41_features.
Proof.
  split; [intros t k e f; split; [apply valid_in_all_classes | apply all_classes_valid]|].
  split; [exact classes_tie | repeat split; vm_compute; reflexivity].
Qed.

(* The code as it is still violates the property on one exit (recorded finding
   finding-http-write-error-leak; witnesses in corpus/C41.jsonl): over HTTP, a
   data batch the IPC writer refuses, followed by a log batch. *)
Theorem current_code_refuted :
  (valid tH kR eWrite fNone = true /\ leaked Current tH kR eWrite fNone 0 = 1%nat)
  /\ (valid tH kX eWrite fNone = true /\ leaked Current tH kX eWrite fNone 0 = 1%nat).
Proof. repeat split; vm_compute; reflexivity. Qed.

(* Before fix 4160b39: EmitMap called twice in one Produce/Exchange left the
   second batch outstanding; the current traces do not. *)
Theorem double_emit_legacy_refuted :
  valid tP kR eDouble fNone = true /\ leaked Legacy tP kR eDouble fNone 0 = 1%nat
  /\ leaked Current tP kR eDouble fNone 0 = 0%nat.
Proof. repeat split; vm_compute; reflexivity. Qed.

(* Before fix 7e94fa0: an externally resolved exchange input that needs a cast
   leaked one batch PER SUCCESSFUL TURN, on both transports, without bound. *)
Theorem cast_legacy_refuted :
  forall t, In t transports -> forall pre, leaked Legacy t kX eOk fExtCast pre = pre.
Proof.
  (* on either transport the outer segment leaves nothing and a turn leaves IN, held once *)
  intros t Ht pre. destruct Ht as [<-|[<-|[]]].
  - rewrite (leaked_turns Legacy tP kX eOk fExtCast pre [] [(IN, 1%nat)]); [apply Nat.mul_1_r | reflexivity..].
  - rewrite (leaked_turns Legacy tH kX eOk fExtCast pre [] [(IN, 1%nat)]); [apply Nat.mul_1_r | reflexivity..].
Qed.

(* The legacy code leaked nowhere else: every class outside the two repaired
   families and the remaining finding was already balanced. *)
Theorem legacy_clean_elsewhere : forall t k e f pre,
  valid t k e f = true -> in_finding t k e f = false -> in_legacy_finding t k e f = false ->
  outstanding Legacy t k e f pre = Some [].
Proof. intros t k e f pre V NF NL. apply outstanding_zero; [exact V|]. cbn. now rewrite NF, NL. Qed.

(* non-vacuity: the premises are met by concrete non-trivial values *)
Example premises_satisfiable :
  valid tH kX eTPanic fExtIn = true /\ in_finding tH kX eTPanic fExtIn = false
  /\ valid tP kX eDouble fExtCast = true /\ in_finding tP kX eDouble fExtCast = false
  /\ forallb call_valid [Call tP kX eTErr fShm 3; Call tH kR eCap fExtOut 2; Call tH kX eOk fExtCast 5] = true
  /\ forallb (fun c => negb (call_in_finding c))
       [Call tP kX eTErr fShm 3; Call tH kR eCap fExtOut 2; Call tH kX eOk fExtCast 5] = true
  /\ length all_classes = 675%nat.
Proof. do 6 (split; [vm_compute; reflexivity|]). exact classes_count. Qed.
