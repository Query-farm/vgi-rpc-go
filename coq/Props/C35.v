(* Props/C35.v — property C35: batches written to shared memory read back
   identically and pointer batches are safe.  The lemmas are in
   Proofs/C35.v.  [resolve] is the model of ResolveShmBatch (IsShmPointerBatch,
   strconv parsing, ReadBatch's uint64 arithmetic with explicit wrap, the slice
   as a partial operation, the deferred recover); [Read o l md'] means: bytes
   [o, o+l) of the mapping are handed to the IPC reader and, when it succeeds,
   the result carries metadata md'.  Sizes are Go ints: 0 <= size < 2^63. *)
From VR Require Import Model.C35 Proofs.C35.
Open Scope Z_scope.

(* ParseUint(s,10,64) succeeds exactly on non-empty all-digit strings below 2^64
   (no sign, no space, no exponent, no underscore), for strings of any length. *)
Theorem offset_string_accepted_iff : forall s v,
  parse_uint s = Some v <-> denotes_uint s v /\ v < TWO64.
Proof. exact parse_uint_iff. Qed.

(* Atoi succeeds exactly on an optional single sign followed by digits, value in int64. *)
Theorem length_string_accepted_iff : forall s v,
  parse_int s = Some v <-> denotes_int s v /\ - TWO63 <= v < TWO63.
Proof. exact parse_int_iff. Qed.

(* Whatever the metadata strings are: if any bytes are read, they are the bytes
   [o, o+l) named by the two strings, with 0 <= o, 0 <= l and o + l <= size in
   unbounded arithmetic (so no uint64 wrap happened), on an open segment.
   NOTE: the code does not require header_size <= o; a pointer into the allocator
   header is read (and then rejected or not by the IPC decoder). *)
Theorem any_read_is_inside_segment : forall seg closed size name rows md o l md',
  0 <= size < TWO63 ->
  resolve seg closed size name rows md = Read o l md' ->
  seg = true /\ closed = false /\ is_ptr rows md = true
  /\ parse_uint (get c35_k_off md) = Some o /\ parse_int (get c35_k_len md) = Some l
  /\ 0 <= o /\ 0 <= l /\ o + l <= size /\ md' = resolved_md md name.
Proof.
  intros seg closed size name rows md o l md' Hs H. rewrite resolve_eq in H by exact Hs.
  destruct seg; [|discriminate]. destruct (is_ptr rows md); [|discriminate]. cbn [negb orb] in H.
  destruct (parse_uint (get c35_k_off md)) as [off|] eqn:Eo; [|discriminate].
  destruct (parse_int (get c35_k_len md)) as [len|] eqn:El; [|discriminate].
  destruct closed; [discriminate|]. apply parse_uint_range in Eo as Ro.
  destruct ((0 <=? len) && (off + len <=? size)) eqn:E; [|now destruct (slice_panics size off len)].
  inversion H; subst. repeat split; try reflexivity; lia.
Qed.

(* [in_segment] = Some exactly for well-formed strings naming a region inside the segment *)
Theorem in_segment_characterised : forall size offs lens off len,
  in_segment size offs lens = Some (off, len) <->
  denotes_uint offs off /\ off < TWO64 /\ denotes_int lens len /\ 0 <= len < TWO63 /\ off + len <= size.
Proof.
  intros size offs lens off len. unfold in_segment. split.
  - destruct (parse_uint offs) as [o|] eqn:Eo; [|discriminate].
    destruct (parse_int lens) as [l|] eqn:El; [|discriminate].
    destruct (Z.leb_spec 0 l); cbn [andb]; [|discriminate].
    destruct (Z.leb_spec (o + l) size); [|discriminate]. intro E; inversion E; subst.
    apply parse_uint_iff in Eo as [A1 A2]. apply parse_int_iff in El as [A3 A4].
    split; [exact A1|]. split; [exact A2|]. split; [exact A3|]. lia.
  - intros (Ho & Hlt & Hl & Hr & Hb).
    assert (Eo : parse_uint offs = Some off) by (apply parse_uint_iff; auto).
    assert (El : parse_int lens = Some len) by (apply parse_int_iff; split; [assumption | unfold TWO63 in *; lia]).
    rewrite Eo, El. destruct (Z.leb_spec 0 len); [|lia]. destruct (Z.leb_spec (off + len) size); [|lia]. reflexivity.
Qed.

(* a pointer batch whose strings do not name such a region (or whose segment is
   closed) yields one of the five error outcomes: never a read, never the batch
   passed through, and (the model being total, the slice being guarded or its
   panic recovered) never a panic *)
Theorem bad_pointer_is_error : forall seg closed size name rows md,
  0 <= size < TWO63 -> seg = true -> is_ptr rows md = true ->
  in_segment size (get c35_k_off md) (get c35_k_len md) = None \/ closed = true ->
  is_error (resolve seg closed size name rows md).
Proof.
  intros seg closed size name rows md Hs -> Hp Hbad. rewrite resolve_eq, Hp by exact Hs. cbn [negb orb].
  unfold is_error, in_segment in *.
  destruct (parse_uint (get c35_k_off md)) as [off|]; [|auto].
  destruct (parse_int (get c35_k_len md)) as [len|]; [|auto].
  destruct closed; [auto|]. destruct Hbad as [Hbad|]; [|discriminate].
  destruct ((0 <=? len) && (off + len <=? size)); [discriminate|].
  destruct (slice_panics size off len); [do 4 right | do 3 right; left]; reflexivity.
Qed.

(* conversely a well-formed in-segment pointer reads exactly its region *)
Theorem good_pointer_reads_exact_region : forall seg size name rows md off len,
  0 <= size < TWO63 -> seg = true -> is_ptr rows md = true ->
  parse_uint (get c35_k_off md) = Some off -> parse_int (get c35_k_len md) = Some len ->
  0 <= len -> off + len <= size ->
  resolve seg false size name rows md = Read off len (resolved_md md name).
Proof. exact resolve_good. Qed.

(* what must not change: anything that is not a pointer batch, or no segment *)
Theorem non_pointer_unchanged : forall seg closed size name rows md,
  seg = false \/ is_ptr rows md = false -> resolve seg closed size name rows md = Unchanged.
Proof.
  intros seg closed size name rows md. unfold resolve. intros [-> | ->]; [reflexivity|]. now rewrite orb_true_r.
Qed.

(* ReadBatch's own check (end > size) does not by itself guard the slice: the
   deferred recover in ResolveShmBatch is what turns exactly these inputs into
   errors — a uint64 wrap of off+len, or a negative length with off+len >= 0. *)
Theorem recover_needed_exactly_when : forall size name rows md,
  0 <= size < TWO63 ->
  (resolve true false size name rows md = ERecovered <->
   is_ptr rows md = true /\ exists off len,
     parse_uint (get c35_k_off md) = Some off /\ parse_int (get c35_k_len md) = Some len /\
     ((0 <= len /\ TWO64 <= off + len /\ off + len - TWO64 <= size) \/ (len < 0 /\ 0 <= off + len <= size))).
Proof.
  intros size name rows md Hs. rewrite resolve_eq by exact Hs. cbn [negb orb]. destruct (is_ptr rows md); cbn [negb].
  2:{ split; [discriminate | intros [? _]; discriminate]. }
  destruct (parse_uint (get c35_k_off md)) as [off|] eqn:Eo.
  2:{ split; [discriminate | intros [_ (? & ? & ? & _)]; discriminate]. }
  destruct (parse_int (get c35_k_len md)) as [len|] eqn:El.
  2:{ split; [discriminate | intros [_ (? & ? & _ & ? & _)]; discriminate]. }
  apply parse_uint_range in Eo. apply parse_int_range in El.
  split.
  - intro H. split; [reflexivity|]. exists off, len. repeat split.
    destruct ((0 <=? len) && (off + len <=? size)); [discriminate|].
    destruct (slice_panics size off len) eqn:W; [|discriminate]. unfold slice_panics in W. lia.
  - intros [_ (o' & l' & Eo' & El' & H)]. inversion Eo'; inversion El'; subst o' l'.
    assert (W : slice_panics size off len = true) by (unfold slice_panics; lia). rewrite W.
    destruct ((0 <=? len) && (off + len <=? size)) eqn:E; [unfold TWO63, TWO64 in *; lia | reflexivity].
Qed.

(* "ReadBatch never panics" is false for the code as it stands (public method,
   no recover of its own): offset 100, length -1 on a 128 KiB segment *)
Theorem readbatch_never_panics_refuted :
  exists size off len, 0 <= size < TWO63 /\ go_uint64 off /\ go_int len /\
                       read_region false size off len = RPanic.
Proof. exists 131072, 100, (-1). vm_compute. repeat split; congruence. Qed.

(* The pointer keys are replaced by the source key; every other entry stays. *)
Theorem pointer_keys_replaced_by_source : forall md name,
  lookup c35_k_off (resolved_md md name) = None
  /\ lookup c35_k_len (resolved_md md name) = None
  /\ In (c35_k_source, name) (resolved_md md name)
  /\ (lookup c35_k_source md = None -> lookup c35_k_source (resolved_md md name) = Some name)
  /\ (forall k, is_ptr_key k = false -> k <> c35_k_source -> lookup k (resolved_md md name) = lookup k md)
  /\ (forall kv, In kv md -> is_ptr_key (fst kv) = false -> In kv (resolved_md md name)).
Proof.
  intros md name. destruct ptr_keys as (Ho & Hl & Hs & _), keys_distinct as (_ & _ & _ & Hso & Hsl).
  unfold resolved_md. repeat split.
  - rewrite lookup_app, lookup_strip, Ho. cbn [lookup]. now rewrite Hso.
  - rewrite lookup_app, lookup_strip, Hl. cbn [lookup]. now rewrite Hsl.
  - apply in_or_app. right. now left.
  - intro H. rewrite lookup_app, lookup_strip, Hs, H. cbn [lookup]. now rewrite beqb_refl.
  - intros k Hk Hne. rewrite lookup_app, lookup_strip, Hk.
    destruct (lookup k md); [reflexivity|]. cbn [lookup].
    destruct (beqb c35_k_source k) eqn:E; [apply beqb_eq in E; congruence | reflexivity].
  - intros kv Hin Hk. apply in_or_app. left. apply filter_In. split; [exact Hin | now rewrite Hk].
Qed.

(* the pointer MaybeWriteToShm builds for region (off, len) — decimal strings, the
   batch's own metadata minus stale pointer keys — resolves to exactly that region
   and to the batch's metadata plus the source key *)
Theorem written_pointer_resolves_to_its_region : forall size name md off len,
  0 <= size < TWO63 -> 0 <= off -> 0 <= len -> off + len <= size ->
  has_key c35_k_loglevel md = false ->
  resolve true false size name 0 (ptr_md_of off len md) = Read off len (resolved_md md name).
Proof. exact written_pointer_resolves. Qed.

(* skipOneIPCMessage delimits any encapsulated message whose flatbuffer declares its body length *)
Theorem skip_delimits_wellformed_message : forall h0 h1 h2 h3 m body tail,
  le_dec [h0; h1; h2; h3] = zlen m -> m <> [] ->
  body_len m = Some (zlen body) ->
  zlen m + zlen body + 8 < TWO63 ->
  let msg := CONT ++ [h0; h1; h2; h3] ++ m ++ body in
  skip_msg (msg ++ tail) = Some (zlen msg).
Proof.
  intros h0 h1 h2 h3 m body tail Hh Hm Hb Hlen msg.
  assert (Lm : zlen msg = 8 + zlen m + zlen body).
  { subst msg. rewrite !zlen_app. unfold CONT, zlen. cbn [length]. lia. }
  assert (Hp : has_prefix CONT (msg ++ tail) = true).
  { subst msg. rewrite <- app_assoc. apply has_prefix_app. }
  assert (Hr : rdle (msg ++ tail) 4 4 = zlen m).
  { subst msg. unfold rdle, sub, CONT. cbn [Z.to_nat Pos.to_nat Pos.iter_op Nat.add app skipn firstn]. exact Hh. }
  assert (Hsub : sub (msg ++ tail) (4 + 4) (zlen m) = m).
  { subst msg. replace (4 + 4) with (zlen (CONT ++ [h0; h1; h2; h3])) by reflexivity.
    replace ((CONT ++ [h0; h1; h2; h3] ++ m ++ body) ++ tail)
      with ((CONT ++ [h0; h1; h2; h3]) ++ m ++ (body ++ tail)) by (now rewrite <- !app_assoc).
    apply sub_mid. }
  assert (zlen m <> 0) by (unfold zlen; destruct m; [now elim Hm | cbn [length]; lia]).
  pose proof (zlen_nonneg m). pose proof (zlen_nonneg body). pose proof (zlen_nonneg tail).
  clearbody msg. clear Hh Hm.
  unfold skip_msg. rewrite zlen_app, Lm, Hp, Hr.
  destruct (Z.ltb_spec (8 + zlen m + zlen body + zlen tail) 8); [lia|].
  destruct (Z.eqb_spec (zlen m) 0); [lia|].
  destruct (Z.ltb_spec (8 + zlen m + zlen body + zlen tail) (4 + 4 + zlen m)); [lia|].
  rewrite Hsub, Hb. f_equal. apply s64_small. lia.
Qed.

(* reconstruct (strip full) = full, for streams of any length *)
Theorem reconstruct_strip_is_identity : forall sm rest,
  skip_msg (sm ++ rest ++ EOS) = Some (zlen sm) ->
  strip_stream (sm ++ rest ++ EOS) = WBytes rest
  /\ reconstruct (sm ++ EOS) rest = Some (sm ++ rest ++ EOS).
Proof. exact strip_reconstruct. Qed.

(* writer and reader choose the layout from the same discriminator *)
Theorem writer_and_reader_layouts_agree : forall s,
  (writer_layout s = WStripped <-> has_top_dict s = true)
  /\ (writer_layout s = WFull -> existsb ty_has_dict s = true)
  /\ (writer_layout s = WFast -> existsb ty_has_dict s = false).
Proof.
  intro s. unfold writer_layout, has_nested_dict. destruct (has_top_dict s) eqn:T; cbn [negb andb].
  - repeat split; intros; try reflexivity; discriminate.
  - destruct (existsb ty_has_dict s); repeat split; intros; try reflexivity; try discriminate.
Qed.

(* PARTIAL (named premises = arrow-go): for every batch, over every schema shape
   (dictionaries at any depth), what the writer stores is read back as the same
   batch, PROVIDED arrow-go decodes what it encoded and its schema message is one
   that skipOneIPCMessage delimits.  Those two premises are exercised by the
   correspondence harness on real batches (a test). *)
Theorem shm_read_back_identical_partial :
  forall (batch schema : Type) (schema_of : batch -> schema) (shape : schema -> list ty)
         (enc_schema : schema -> bytes) (enc_body : batch -> bytes) (dec : bytes -> option batch),
    (forall b, dec (enc_schema (schema_of b) ++ enc_body b ++ EOS) = Some b) ->
    (forall s tail, skip_msg (enc_schema s ++ tail) = Some (zlen (enc_schema s))) ->
    forall b,
      let s := schema_of b in
      let full := enc_schema s ++ enc_body b ++ EOS in
      exists stored, stored_region (shape s) full = WBytes stored
        /\ exists ri, reader_input (shape s) (enc_schema s ++ EOS) stored = Some ri /\ dec ri = Some b.
Proof.
  intros batch schema schema_of shape enc_schema enc_body dec Hdec Hskip b s full.
  destruct (stored_read_back (shape s) (enc_schema s) (enc_body b) (Hskip _ _)) as (st & Hw & Hr).
  exists st. split; [exact Hw|]. exists full. split; [exact Hr | apply Hdec].
Qed.

(* The segment memoises the fast path's schema message (schemaCache).  Provided a cache key
   identifies the schema message (the code keys by *arrow.Schema identity), what write k
   stores is what it would store on a fresh segment, whatever was written before: for
   histories of any length, any mix of layouts and any reuse of keys. *)
Theorem stored_bytes_depend_only_on_own_write : forall ws,
  key_sound ws -> run_writes [] ws = map fresh_store ws.
Proof. exact run_writes_fresh. Qed.

(* PARTIAL (same two arrow-go premises): every write of every history reads back as the
   batch that this write passed in, in schema and values. *)
Theorem history_read_back_identical_partial :
  forall (batch schema : Type) (schema_of : batch -> schema) (shape : schema -> list ty)
         (enc_schema : schema -> bytes) (enc_body : batch -> bytes) (dec : bytes -> option batch)
         (key : batch -> N) (region : batch -> Z * Z) (md_of : batch -> meta),
    (forall b, dec (enc_schema (schema_of b) ++ enc_body b ++ EOS) = Some b) ->
    (forall s tail, skip_msg (enc_schema s ++ tail) = Some (zlen (enc_schema s))) ->
    forall bs,
      (forall b1 b2, In b1 bs -> In b2 bs -> key b1 = key b2 ->
                     enc_schema (schema_of b1) = enc_schema (schema_of b2)) ->
      let wr_of := fun b => {| w_key := key b; w_schema := shape (schema_of b); w_sm := enc_schema (schema_of b);
                               w_body := enc_body b; w_md := md_of b; w_alloc := Some (region b) |} in
      Forall2 (fun b res => exists st, res = WBytes st /\
                 exists ri, reader_input (shape (schema_of b)) (enc_schema (schema_of b) ++ EOS) st = Some ri
                            /\ dec ri = Some b)
              bs (run_writes [] (map wr_of bs)).
Proof.
  intros batch schema schema_of shape enc_schema enc_body dec key region md_of Hdec Hskip bs Hk wr_of.
  rewrite run_writes_fresh.
  - clear Hk. induction bs as [|b bs IH]; cbn [map]; constructor; [|exact IH].
    destruct (shm_read_back_identical_partial _ _ schema_of shape _ _ dec Hdec Hskip b) as (st & Hw & Hr).
    exists st. split; [exact Hw | exact Hr].
  - intros w1 w2 H1 H2 Ek. apply in_map_iff in H1 as (b1 & <- & H1), H2 as (b2 & <- & H2). now apply Hk.
Qed.

(* A cache key that does not identify the schema (e.g. a fingerprint that leaves out field
   metadata or a list child's name) breaks it: the second write is stored under the first
   write's schema message. *)
Theorem lossy_cache_key_refuted :
  exists ws, run_writes [] ws <> map fresh_store ws.
Proof. exists lossy_pair. exact (proj1 (proj2 lossy_key_breaks)). Qed.

(* The pointer batch is an input.  [resolve] is a function of the segment and of the batch's metadata and returns NEW metadata
   ([resolved_md]); the decidable spec therefore demands of the implementation that the pointer
   batch's own metadata is unchanged after a resolve and that the same object, and any batch
   sharing its metadata object, resolves again to the same answer (spec_ok, IPtr / IRt).  A
   filter that compacts the caller's key/value slices in place violates it: the second
   resolve of the same pointer returns the zero-row batch unchanged. *)
Theorem inplace_metadata_compaction_refuted :
  exists md name o l md',
    is_ptr 0 md = true
    /\ resolve true false 131072 name 0 md = Read o l md'
    /\ resolve true false 131072 name 0 (inplace_after md name) = Unchanged.
Proof.
  destruct inplace_breaks as (H1 & H2 & _ & H4).
  exists ptr_md_demo, (str "/seg"). eexists _, _, _. split; [exact H1|]. split; [exact H2 | exact H4].
Qed.

(* The decidable form that the correspondence check evaluates on the implementation's
   observables holds on the model's. *)
Theorem spec_holds_on_model : forall i, spec_ok i (model i) = true.
Proof.
  destruct i as [c|c|b|c]; cbn [model spec_ok].
  - destruct (size_ok (p_size c)) eqn:Hs; cbn [negb orb]; [|reflexivity].
    unfold run_ptr. rewrite spec_ptr_model by exact Hs. now rewrite md_eqb_refl, robs_same_refl.
  - cbv zeta. now rewrite spec_rt_model, robs_same_refl.
  - reflexivity.
  - unfold run_hist. destruct (size_ok (h_size c)) eqn:Hs; cbn [negb orb]; [|reflexivity].
    destruct (key_sound_b (h_writes c)) eqn:Hk; cbn [negb orb]; [|reflexivity].
    rewrite run_writes_fresh by now apply key_sound_b_sound. now apply spec_ws_fresh.
Qed.

(* regenerated constants the model depends on *)
Theorem go_int_is_64_bits : c35_int_size = 64.
Proof. reflexivity. Qed.

(* a concrete pointer batch that satisfies the premises of the read theorems *)
Example premises_satisfiable_pointer :
  let md := [(c35_k_off, str "65536"); (str "k", str "v"); (c35_k_len, str "+816")] in
  is_ptr 0 md = true /\ in_segment 131072 (get c35_k_off md) (get c35_k_len md) = Some (65536, 816)
  /\ resolve true false 131072 (str "/seg") 0 md
     = Read 65536 816 [(str "k", str "v"); (c35_k_source, str "/seg")].
Proof. vm_compute. repeat split. Qed.

(* a concrete bad pointer of each kind *)
Example premises_satisfiable_bad_pointers :
  in_segment 131072 (str "+5") (str "1") = None /\ in_segment 131072 (str "65536") (str "-1") = None
  /\ in_segment 131072 (str "18446744073709551608") (str "16") = None
  /\ in_segment 131072 (str "65536") (str "65537") = None
  /\ resolve true false 131072 [] 0 [(c35_k_off, str "18446744073709551608"); (c35_k_len, str "16")] = ERecovered.
Proof. vm_compute. repeat split. Qed.

(* a concrete well-formed message for skip_delimits_wellformed_message *)
Example premises_satisfiable_message :
  le_dec [32; 0; 0; 0]%N = zlen (demo_meta 3) /\ body_len (demo_meta 3) = Some (zlen [1; 2; 3]%N)
  /\ skip_msg (demo_msg 3 [1; 2; 3]%N ++ EOS) = Some 43.
Proof. vm_compute. repeat split. Qed.

(* the two arrow-go premises of shm_read_back_identical_partial are consistent *)
Example premises_satisfiable_ipc :
  let enc_schema := fun _ : unit => demo_msg 0 [] in
  let dec := fun x : bytes => Some (sub x (zlen (demo_msg 0 [])) (zlen x - zlen (demo_msg 0 []) - zlen EOS)) in
  (forall b : bytes, dec (enc_schema tt ++ b ++ EOS) = Some b)
  /\ (forall (s : unit) tail, skip_msg (enc_schema s ++ tail) = Some (zlen (enc_schema s))).
Proof.
  cbn zeta. split.
  - intro b. f_equal. rewrite !zlen_app.
    replace (zlen (demo_msg 0 []) + (zlen b + zlen EOS) - zlen (demo_msg 0 []) - zlen EOS) with (zlen b) by lia.
    apply sub_mid.
  - intros _ tail. apply (skip_delimits_wellformed_message 32 0 0 0 (demo_meta 0) [] tail)%N; try reflexivity.
    discriminate.
Qed.
