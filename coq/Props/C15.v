(* Props/C15.v — token lifetime is enforced and the call cache never changes outcomes.

   Property (properties.jsonl): a continuation whose cursor or call token is older than the
   configured TTL is refused. For any history of continuations, the outcome of each request is the
   same whether the call-state cache hits, misses, is disabled, or the request lands on a different
   instance sharing the key — the cache only saves work and never extends a call token's lifetime.

   Reading of the quantifier (decided from the property text and the wire protocol): a
   CONTINUATION echoes the call token of its stream (MetaCallState: echoed by the client on every
   subsequent request). A request that does not is outside the quantifier; the premise
   [echoes_call_token] is explicit, [echo_premise_necessary] shows it cannot be dropped (such a
   request is accepted on a hit and refused on a miss — the harness reports it under the tag
   obs-noecho-hit-accepts-...), and [expired_refused] / [spec_holds] still bound what the cache may
   do for such requests: it never accepts an expired call and never changes a refusal's class.

   Everything is for ALL histories (no bound on length, the clock need not even be monotone),
   all ttls (positive, zero, negative), all capacities, all routings over any number of instances,
   every value [fb] of newCallStateCache's fallback ttl and [dcap] of the default capacity.
   [sane_clock] only constrains servers configured with ttl <= 0: they are shown cursors minted
   strictly before the request instant. Time is in one arbitrary integer clock unit. *)
From Coq Require Import ZArith List Bool Lia.
From VR Require Import Model.C15 Proofs.C15.
Import ListNotations.
Open Scope Z_scope.

(* 1. Lifetime. The n-th request of any history reaches a server whose ttl is then t; if its
      cursor, or the call token of the call the cursor names, is older than t, it is refused —
      whatever the caches contain, whatever call token (if any) it presents. *)
Theorem expired_refused :
  forall (fb dcap : Z) (created : nat -> Z) (cfgs : list (Z * Z)) (hist : list op)
         (n : nat) (now : Z) (i k : nat) (cc : Z) (call : calltok) (t : Z),
    nth_error hist n = Some (Cont now i (k, cc) call) ->
    nth_error (ttl_trace (map fst cfgs) hist) n = Some (Some t) ->
    0 < t \/ cc < now ->
    t < now - cc \/ t < now - created k ->
    exists c dump,
      nth_error (run false fb dcap created (start fb cfgs) hist) n = Some (Ref c, dump).
Proof.
  intros fb dcap created cfgs hist n now i k cc call t Hn Ht Hs He.
  destruct (run_expired fb dcap created cfgs hist _ _ _ _ _ _ _ Hn Ht Hs He) as (c & dump & _ & H). eauto.
Qed.

(* 2. The cache is unobservable. For every history, every initial (ttl, capacity) per instance
      (capacity 0 / negative = disabled, 1, n), every SetTokenTTL / SetCallStateCacheEntries /
      init / routing in the history: the list of outcomes is that of the cache-free reference,
      which keeps nothing but each instance's ttl and decides from the presented tokens alone. *)
Theorem cache_transparent :
  forall (fb dcap : Z) (created : nat -> Z) (cfgs : list (Z * Z)) (hist : list op),
    echoes_call_token hist = true ->
    sane_clock (map fst cfgs) hist = true ->
    map fst (run false fb dcap created (start fb cfgs) hist)
    = ref_run created (map fst cfgs) hist.
Proof.
  intros fb dcap created cfgs hist He Hs. rewrite <- (start_ttls fb) in *.
  apply transparent; auto. apply start_ok.
Qed.

(* 2'. Appendix A's form: one positive ttl everywhere, never changed — the outcome of every
       request is [decide] of its own tokens: independent of capacities AND of the routing. *)
Theorem cache_transparent_uniform :
  forall (fb dcap : Z) (created : nat -> Z) (t : Z) (caps : list Z) (hist : list op),
    0 < t -> caps <> [] -> no_setttl hist = true ->
    echoes_call_token hist = true ->
    map fst (run false fb dcap created (start fb (map (fun c => (t, c)) caps)) hist)
    = map (ref_out created t) hist.
Proof.
  intros fb dcap created t caps hist Ht Hc Hn He. rewrite cache_transparent; auto.
  - rewrite map_fst_pair. apply ref_run_uniform; auto. destruct caps; [congruence|cbn; lia].
  - rewrite map_fst_pair. apply sane_uniform with (t := t); auto.
    apply Forall_forall. intros x Hx. now apply repeat_spec in Hx.
Qed.

(* 3. Invariant of every reachable cache of every instance: an entry expires exactly at its call
      token's CreatedAt + the cache's ttl; with a positive tokenTTL that is the instant the token
      itself expires — the cache never extends a call token's lifetime. *)
Theorem cache_never_extends :
  forall (fb dcap : Z) (created : nat -> Z) (cfgs : list (Z * Z)) (hist : list op)
         (s : inst) (k : nat) (e : Z),
    In s (exec false fb dcap created (start fb cfgs) hist) ->
    In (k, e) (ents s) ->
    e = created k + cache_ttl fb (ttl s) /\ (0 < ttl s -> e <= created k + ttl s).
Proof.
  intros fb dcap created cfgs hist s k e Hs He.
  assert (Hok : inst_ok fb created s) by (eapply Forall_forall; [apply exec_ok, start_ok | exact Hs]).
  destruct Hok as [Hc Hf]. rewrite Forall_forall in Hf. specialize (Hf _ He).
  unfold ent_ok in Hf. cbn [fst snd] in Hf. rewrite Hc in Hf. split; [exact Hf|].
  intros Ht. rewrite Hf, cache_ttl_pos by exact Ht. apply Z.le_refl.
Qed.

(* 4. ttl <= 0 (newCallStateCache then keeps entries for [fb] = 1 h while checkTokenAge refuses
      everything): the cursor check comes first, so every request presenting a cursor minted
      before the request instant is refused as expired, warm cache or not. *)
Theorem nonpositive_ttl_refused :
  forall (fb dcap : Z) (created : nat -> Z) (cfgs : list (Z * Z)) (hist : list op)
         (n : nat) (now : Z) (i k : nat) (cc : Z) (call : calltok) (t : Z),
    nth_error hist n = Some (Cont now i (k, cc) call) ->
    nth_error (ttl_trace (map fst cfgs) hist) n = Some (Some t) ->
    t <= 0 -> cc < now ->
    exists dump,
      nth_error (run false fb dcap created (start fb cfgs) hist) n = Some (Ref RExpired, dump).
Proof.
  intros fb dcap created cfgs hist n now i k cc call t Hn Ht H0 Hc.
  destruct (run_expired fb dcap created cfgs hist _ _ _ _ _ _ _ Hn Ht (or_intror Hc)) as (c & dump & Hd & H); [lia|].
  (* the reference checks the cursor's age first *)
  cbn [decide] in Hd. unfold age_ok in Hd. destruct (t <? now - cc) eqn:A; [|lia].
  injection Hd as <-. eauto.
Qed.

(* 5. The decidable form evaluated on the implementation's observables holds of the model. *)
Theorem spec_holds : forall i : input, spec_ok i (model i) = true.
Proof.
  intros i. unfold spec_ok, model. rewrite <- (start_ttls (i_tick i * c15_fallback_ttl_s)).
  apply spec_run_holds. apply start_ok.
Qed.

(* The pre-fix code (1df4332^): put stored now + ttl at insertion. *)
(* 2-unit seconds, ttl 100 s = 200, fb = 7200 (the 1 h fallback), 4096 = the default capacity;
   call 0 created at second 1000 and initialised on instance 0.
   Instance 1 first sees it at age 99.5 s (miss: re-arms to 1099.5+100); at age 101.5 s instance 1
   hits and ACCEPTS, instance 2 (cold) refuses: the cache changed the outcome and extended the
   lifetime. The repaired model refuses on both and equals the reference. *)
Definition legacy_cfgs : list (Z * Z) := [(200, 4096); (200, 4096); (200, 4096)].
Definition legacy_created (k : nat) : Z := 2000.
Definition legacy_hist : list op :=
  [Init 0 0; Cont 2199 1 (0%nat, 2100) (CTok 0);
   Cont 2203 1 (0%nat, 2198) (CTok 0); Cont 2203 2 (0%nat, 2198) (CTok 0)].

Theorem cache_transparent_legacy_refuted :
  echoes_call_token legacy_hist = true
  /\ sane_clock (map fst legacy_cfgs) legacy_hist = true
  /\ map fst (run true 7200 4096 legacy_created (start 7200 legacy_cfgs) legacy_hist)
     = [Done; Acc; Acc; Ref RExpired]
  /\ ref_run legacy_created (map fst legacy_cfgs) legacy_hist
     = [Done; Acc; Ref RExpired; Ref RExpired]
  /\ map fst (run false 7200 4096 legacy_created (start 7200 legacy_cfgs) legacy_hist)
     = [Done; Acc; Ref RExpired; Ref RExpired]
  (* and the re-armed entry outlives its token: 2399 > 2000 + 200 *)
  /\ In (0%nat, 2399)
        (ents (nth 1 (exec true 7200 4096 legacy_created (start 7200 legacy_cfgs)
                           [Init 0 0; Cont 2199 1 (0%nat, 2100) (CTok 0)])
                   (mk 7200 0 0))).
Proof. vm_compute. repeat split; auto. Qed.

(* The echo premise cannot be dropped (an OBSERVATION about the current code). *)
(* one instance, ttl 100 s; the request presents NO call token: accepted when the cache is on
   (the init warmed it), refused "missing call token" when it is disabled *)
Theorem echo_premise_necessary :
  let hist := [Init 0 0; Cont 2001 0 (0%nat, 2000) CNone] in
  echoes_call_token hist = false
  /\ map fst (run false 7200 4096 legacy_created (start 7200 [(200, 4096)]) hist) = [Done; Acc]
  /\ map fst (run false 7200 4096 legacy_created (start 7200 [(200, 0)]) hist) = [Done; Ref RNoCall]
  /\ ref_run legacy_created [200] hist = [Done; Ref RNoCall].
Proof. vm_compute. repeat split; auto. Qed.

(* a history with a ttl change, a disabled cache, three instances, accepted and refused
   continuations satisfies the premises of cache_transparent *)
Example premises_satisfiable :
  let hist := [SetCap 2 0; Init 0 0; Cont 2001 0 (0%nat, 2000) (CTok 0);
               Cont 2101 1 (0%nat, 2001) (CTok 0); SetTTL 1 0; Cont 2103 1 (0%nat, 2101) (CTok 0);
               Cont 2203 2 (0%nat, 2103) (CTok 0)] in
  echoes_call_token hist = true
  /\ sane_clock (map fst legacy_cfgs) hist = true
  /\ ref_run legacy_created (map fst legacy_cfgs) hist
     = [Done; Done; Acc; Acc; Done; Ref RExpired; Ref RExpired].
Proof. vm_compute. auto. Qed.

(* the premises of expired_refused at a concrete request (those of nonpositive_ttl_refused are met
   by request 5 of premises_satisfiable: ttl 0 after SetTTL 1 0, cursor minted at 2101 < 2103) *)
Example expired_premises_satisfiable :
  nth_error legacy_hist 2 = Some (Cont 2203 1 (0%nat, 2198) (CTok 0))
  /\ nth_error (ttl_trace (map fst legacy_cfgs) legacy_hist) 2 = Some (Some 200)
  /\ 0 < 200 /\ 200 < 2203 - legacy_created 0.
Proof. vm_compute. auto. Qed.
