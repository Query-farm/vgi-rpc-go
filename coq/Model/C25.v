(* Model/C25.v — proxy proofs verify only for their worker and can never be replayed.
   Go: vgirpc/proof.go — proofKidRe/proofTsRe/proofNonceRe/proofOriginRe/proofMacRe,
   proofCanonicalString, VerifyProof, nonceCache.checkAndAdd, newNonceCache, proofReplayTTL,
   ProofAuthenticate (constructor checks + the returned gate), verifyRequestProof;
   the answer a refused request gets: unauthorized.go (NewAuthFailure / writeUnauthorized).

   Bytes are [list N]. Clock reads are Z nanoseconds since the epoch. A request carries two
   readings [r_tv] / [r_tc] of the injected clock: the first and the second value it returns.
   Since d22e231 VerifyProof reads the clock ONCE and judges both the window (whole seconds,
   .Unix()) and the nonce cache (nanoseconds) at that reading: the current gate is [step] on the
   normalised request [norm r] (r_tc := r_tv). Before d22e231 the cache read the clock a second
   time: that gate is [step] on the request as given ([model_two_reads], kept for the
   _legacy_refuted witness). HMAC-SHA256 is a section variable ([hmac key msg]); the executable [model]
   instantiates it with a finite table supplied by the harness (computed with Go's crypto/hmac
   over a canonical string the harness frames independently). base64url decoding of the 43-char
   MAC field is defined (Go's RawURLEncoding is NOT strict: the two spare bits are ignored). *)
From VR Require Export Lib.Strs Gen.Consts.
Open Scope N_scope.

(* ---- field charsets (the regexps' source text is in Gen/Consts.v, tied in Props/C25.v) ---- *)
Definition is_digit (c : N) : bool := (48 <=? c) && (c <=? 57).
Definition is_alnum (c : N) : bool :=
  is_digit c || ((65 <=? c) && (c <=? 90)) || ((97 <=? c) && (c <=? 122)).
Definition is_tokch (c : N) : bool := is_alnum c || (c =? 95) || (c =? 45).      (* [A-Za-z0-9_-] *)
Definition is_origch (c : N) : bool := is_tokch c || (c =? 46) || (c =? 58) || (c =? 47). (* [A-Za-z0-9._:/-] *)
Definition len_in (lo hi : nat) (s : bytes) : bool :=
  Nat.leb lo (length s) && Nat.leb (length s) hi.

Definition kid_ok (s : bytes) : bool := forallb is_tokch s && len_in 1 64 s.
Definition ts_ok (s : bytes) : bool := forallb is_digit s && len_in 1 20 s.
Definition nonce_ok (s : bytes) : bool := forallb is_tokch s && len_in 22 22 s.
Definition mac_ok (s : bytes) : bool := forallb is_tokch s && len_in 43 43 s.
Definition origin_ok (s : bytes) : bool := forallb is_origch s && len_in 1 255 s.

(* ---- base64url (raw, non-strict) --------------------------------------------------- *)
Definition b64val (c : N) : N :=
  if (65 <=? c) && (c <=? 90) then c - 65
  else if (97 <=? c) && (c <=? 122) then c - 71
  else if is_digit c then c + 4
  else if c =? 45 then 62 else if c =? 95 then 63 else 0.

Fixpoint b64dec (s : bytes) : bytes :=
  match s with
  | a :: b :: c :: d :: t =>
      let v := ((b64val a * 64 + b64val b) * 64 + b64val c) * 64 + b64val d in
      (v / 65536) :: ((v / 256) mod 256) :: (v mod 256) :: b64dec t
  | [a; b; c] =>
      let v := (b64val a * 64 + b64val b) * 64 + b64val c in      (* 18 bits: 2 bytes, 2 spare bits dropped *)
      [v / 1024; (v / 4) mod 256]
  | [a; b] => [(b64val a * 64 + b64val b) / 16]
  | _ => []
  end.

(* ---- the MAC input --------------------------------------------------------------------- *)
Definition canonical (kid ts nonce origin : bytes) : bytes :=
  c25_domain_prefix ++ 0 :: kid ++ 0 :: ts ++ 0 :: nonce ++ 0 :: origin.

(* ---- wire grammar: v1.kid.ts.nonce.mac ------------------------------------------------- *)
Record fields := { f_kid : bytes; f_ts : bytes; f_nonce : bytes; f_mac : bytes }.
Definition fields_ok (f : fields) : bool :=
  kid_ok (f_kid f) && ts_ok (f_ts f) && nonce_ok (f_nonce f) && mac_ok (f_mac f).
Definition dot : N := 46.
Definition wire (f : fields) : bytes :=
  join [dot] [c25_version; f_kid f; f_ts f; f_nonce f; f_mac f].

Definition parse (tok : bytes) : option fields :=
  if (Z.of_nat (length tok) >? c25_max_header_len)%Z then None else
  match split_on dot tok with
  | [v; k; t; n; m] =>
      let f := {| f_kid := k; f_ts := t; f_nonce := n; f_mac := m |} in
      if beqb v c25_version && fields_ok f then Some f else None
  | _ => None
  end.

(* strconv.ParseInt(ts, 10, 64) on 1..20 digits: the value, refused above MaxInt64 *)
Definition digits_val (s : bytes) : Z :=
  fold_left (fun acc c => (acc * 10 + Z.of_N (c - 48))%Z) s 0%Z.
Definition max_int64 : Z := 9223372036854775807%Z.
Definition wrap64 (z : Z) : Z := ((z + 9223372036854775808) mod 18446744073709551616 - 9223372036854775808)%Z.
Definition ns_per_s : Z := 1000000000%Z.
Definition unix_s (ns : Z) : Z := (ns / ns_per_s)%Z.

(* age := now.Unix() - ts ; if age > skew expired ; if -age > skew not_yet_valid  (int64) *)
Inductive window := WOk | WExpired | WNotYet.
Definition window_check (skew now_s ts : Z) : window :=
  let age := wrap64 (now_s - ts) in
  if (age >? skew)%Z then WExpired
  else if (wrap64 (- age) >? skew)%Z then WNotYet else WOk.

(* ---- configuration ---------------------------------------------------------------------- *)
Inductive mode := MOff | MAllow | MRequire | MOther.
Record config := {
  c_mode : mode;
  c_origin : bytes;
  c_secrets : list (bytes * (bytes * bytes));   (* kid -> (secret, label); a Go map: kids distinct *)
  c_skew : Z;
  c_cap : Z;                                    (* ReplayCapacity as configured *)
  c_nocache : bool;                             (* DisableReplayCache *)
  c_inner_nil : bool                            (* inner == nil *)
}.

(* 32 copies of one byte: how the harness names its secrets compactly *)
Definition sec (b : N) : bytes := repeat b 32.

Fixpoint lookup_kid (k : bytes) (l : list (bytes * (bytes * bytes))) : option (bytes * bytes) :=
  match l with
  | [] => None
  | (k', v) :: t => if beqb k k' then Some v else lookup_kid k t
  end.

(* ProofAuthenticate's constructor checks (any failure = an error, no gate) *)
Definition ctor_ok (c : config) : bool :=
  match c_mode c with MAllow | MRequire => true | _ => false end
  && origin_ok (c_origin c)
  && negb (match c_secrets c with [] => true | _ => false end)
  && forallb (fun e => kid_ok (fst e) && (Z.of_nat (length (fst (snd e))) =? c25_secret_len)%Z) (c_secrets c)
  && (c_skew c >? 0)%Z.

Definition eff_cap (c : config) : Z := if (c_cap c <=? 0)%Z then c25_default_capacity else c_cap c.
(* proofReplayTTL(skew) as a Duration (int64 ns); linear by the regenerated constants *)
Definition ttl_ns (skew : Z) : Z := wrap64 (c25_ttl_base_ns + skew * c25_ttl_step_ns).
(* the pre-fix TTL: time.Duration(skew) * time.Second *)
Definition legacy_ttl_ns (skew : Z) : Z := wrap64 (skew * ns_per_s).

(* ---- the nonce cache: front of the list = front of the Go list ----------------------- *)
Definition cache := list (bytes * Z).          (* (nonce, expiresAt ns) *)

Fixpoint sweep (now : Z) (l : cache) : cache :=   (* drop the expired PREFIX: !expiresAt.After(now) *)
  match l with
  | (n, e) :: t => if (e <=? now)%Z then sweep now t else l
  | [] => []
  end.
Definition seen (n : bytes) (l : cache) : bool := existsb (fun p => beqb n (fst p)) l.
(* for order.Len() >= capacity { remove front } *)
Definition evict (cap : Z) (l : cache) : cache :=
  skipn (Z.to_nat (Z.of_nat (length l) + 1 - cap)) l.
Definition check_and_add (ttl cap now : Z) (n : bytes) (l : cache) : bool * cache :=
  let l1 := sweep now l in
  if seen n l1 then (false, l1)
  else (true, evict cap l1 ++ [(n, (now + ttl)%Z)]).

(* ---- requests, results ----------------------------------------------------------------- *)
Inductive inner_script :=
| IOk (dom prin : bytes) (authd : bool)     (* inner returns this AuthContext *)
| IErr (tag : N).                           (* inner returns the harness's tag-th sentinel error *)

Record req := {
  r_tv : Z;                   (* clock reading in VerifyProof  (ns) *)
  r_tc : Z;                   (* clock reading in checkAndAdd  (ns) *)
  r_hdrs : list bytes;        (* r.Header.Values("VGI-Proxy-Proof") *)
  r_inner : inner_script
}.

Inductive reason := RNoProof | RMalformed | RUnknownKid | RExpired | RNotYet | RBadMac | RReplayed.
Definition reason_bytes (r : reason) : bytes :=
  match r with
  | RNoProof => str "no_proof" | RMalformed => str "malformed" | RUnknownKid => str "unknown_kid"
  | RExpired => str "expired" | RNotYet => str "not_yet_valid" | RBadMac => str "bad_mac"
  | RReplayed => str "replayed"
  end.
Definition reason_eqb (a b : reason) : bool := beqb (reason_bytes a) (reason_bytes b).

Inductive vres := VOk (label kid : bytes) | VErr (r : reason).

(* the one answer of a refusal: AuthFailure reason + detail, and what the HttpServer writes *)
Record answer := { a_reason : bytes; a_detail : bytes; a_status : Z; a_hdr : bytes; a_body : bytes }.
Definition proxy_required : answer :=
  {| a_reason := c25_refusal_reason; a_detail := c25_refusal_detail; a_status := c25_refusal_status;
     a_hdr := c25_refusal_hdr_reason; a_body := c25_refusal_body |}.
Definition answer_eqb (a b : answer) : bool :=
  beqb (a_reason a) (a_reason b) && beqb (a_detail a) (a_detail b) && (a_status a =? a_status b)%Z
  && beqb (a_hdr a) (a_hdr b) && beqb (a_body a) (a_body b).

Inductive out :=
| ORefused (a : answer) (inner_called : bool)
| OInnerErr (tag : N)                                 (* inner's error, verbatim (same pointer) *)
| OPass (inner_called : bool) (dom prin : bytes) (authd : bool)
        (claims : list bytes).                        (* verified, proxy, kid, origin_id, reason *)

Section HM.
  Variable hmac : bytes -> bytes -> bytes.            (* key, message *)
  Variable ttlf : Z -> Z.                             (* skew -> nonce TTL in ns *)

  (* VerifyProof up to (not including) the replay cache; [now_s] = nowFn().Unix() *)
  Definition precheck (c : config) (now_s : Z) (tok : bytes) : reason + (fields * bytes) :=
    match parse tok with
    | None => inl RMalformed
    | Some f =>
      match lookup_kid (f_kid f) (c_secrets c) with
      | None => inl RUnknownKid
      | Some (secret, label) =>
        let ts := digits_val (f_ts f) in
        if (ts >? max_int64)%Z then inl RMalformed else
        match window_check (c_skew c) now_s ts with
        | WExpired => inl RExpired
        | WNotYet => inl RNotYet
        | WOk =>
          if beqb (b64dec (f_mac f)) (hmac secret (canonical (f_kid f) (f_ts f) (f_nonce f) (c_origin c)))
          then inr (f, label) else inl RBadMac
        end
      end
    end.

  Definition verify_token (c : config) (st : cache) (tv tc : Z) (tok : bytes) : vres * cache :=
    match precheck c (unix_s tv) tok with
    | inl r => (VErr r, st)
    | inr (f, label) =>
      if c_nocache c then (VOk label (f_kid f), st) else
      let '(fresh, st') := check_and_add (ttlf (c_skew c)) (eff_cap c) tc (f_nonce f) st in
      if fresh then (VOk label (f_kid f), st') else (VErr RReplayed, st')
    end.

  (* verifyRequestProof *)
  Definition verify_request (c : config) (st : cache) (r : req) : vres * cache :=
    match r_hdrs r with
    | [] => (VErr RNoProof, st)
    | v0 :: rest =>
      match v0 with
      | [] => (VErr RNoProof, st)
      | _ =>
        if negb (match rest with [] => true | _ => false end) || mem 44 v0
        then (VErr RMalformed, st)
        else verify_token c st (r_tv r) (r_tc r) v0
      end
    end.

  Definition claims_of (c : config) (v : vres) : list bytes :=
    match v with
    | VOk label kid => [str "true"; label; kid; c_origin c; str "ok"]
    | VErr r => [str "false"; []; []; c_origin c; reason_bytes r]
    end.

  (* the closure returned by ProofAuthenticate, after verifyRequestProof *)
  Definition gate_out (c : config) (v : vres) (r : req) : out :=
    match v, c_mode c with
    | VErr _, MRequire => ORefused proxy_required false
    | _, _ =>
      let cl := claims_of c v in
      if c_inner_nil c then OPass false c25_claims_key (nth 1 cl []) true cl
      else match r_inner r with
           | IOk d p a => OPass true d p a cl
           | IErr t => OInnerErr t
           end
    end.

  Definition step (c : config) (st : cache) (r : req) : (vres * out) * cache :=
    let '(v, st') := verify_request c st r in ((v, gate_out c v r), st').

  Fixpoint run (c : config) (st : cache) (h : list req) : list (vres * out) :=
    match h with
    | [] => []
    | r :: t => let '(vo, st') := step c st r in vo :: run c st' t
    end.
  (* the cache after a history *)
  Fixpoint exec (c : config) (st : cache) (h : list req) : cache :=
    match h with
    | [] => st
    | r :: t => exec c (snd (step c st r)) t
    end.
End HM.

(* ---- executable instance ---------------------------------------------------------------- *)
Definition hm_table := list ((bytes * bytes) * bytes).
Fixpoint hm_lookup (t : hm_table) (k m : bytes) : bytes :=
  match t with
  | [] => []
  | ((k', m'), v) :: t' => if beqb k k' && beqb m m' then v else hm_lookup t' k m
  end.

Record input := {
  i_cfg : config;
  i_hm : hm_table;                                     (* HMAC-SHA256 on the points that matter *)
  i_canon : list ((bytes * bytes) * (bytes * bytes));  (* probes of proofCanonicalString *)
  i_hist : list req
}.
Record obs := {
  o_ctor : bool;                 (* ProofAuthenticate returned a gate *)
  o_canon : list bytes;
  o_outs : list out
}.

(* one clock reading per verification (d22e231): window and cache both judged at r_tv *)
Definition norm (r : req) : req :=
  {| r_tv := r_tv r; r_tc := r_tv r; r_hdrs := r_hdrs r; r_inner := r_inner r |}.

Definition model_gen (two_reads : bool) (ttlf : Z -> Z) (i : input) : obs :=
  let c := i_cfg i in
  {| o_ctor := ctor_ok c;
     o_canon := map (fun p => canonical (fst (fst p)) (snd (fst p)) (fst (snd p)) (snd (snd p))) (i_canon i);
     o_outs := if ctor_ok c
               then map snd (run (hm_lookup (i_hm i)) ttlf c []
                                 (if two_reads then i_hist i else map norm (i_hist i)))
               else [] |}.
Definition model : input -> obs := model_gen false ttl_ns.                 (* the current code *)
Definition model_two_reads : input -> obs := model_gen true ttl_ns.        (* 0a1ccaa .. d22e231^ *)
Definition model_legacy_ttl : input -> obs := model_gen true legacy_ttl_ns. (* before 0a1ccaa *)

Definition out_eqb (a b : out) : bool :=
  match a, b with
  | ORefused x i, ORefused y j => answer_eqb x y && Bool.eqb i j
  | OInnerErr s, OInnerErr t => s =? t
  | OPass i d p a cl, OPass j d' p' a' cl' =>
      Bool.eqb i j && beqb d d' && beqb p p' && Bool.eqb a a' && list_eqb beqb cl cl'
  | _, _ => false
  end.
Definition obs_eqb (a b : obs) : bool :=
  Bool.eqb (o_ctor a) (o_ctor b) && list_eqb beqb (o_canon a) (o_canon b)
  && list_eqb out_eqb (o_outs a) (o_outs b).

(* ---- the property in decidable form, on observables --------------------------------------- *)
Definition is_refusal (o : out) : bool := match o with ORefused _ _ => true | _ => false end.
Definition verified_claim (o : out) : option bool :=     (* what the out says about the proof *)
  match o with
  | OPass _ _ _ _ cl => Some (beqb (nth 0 cl []) (str "true"))
  | _ => None
  end.
(* the gate certainly admitted the proof / certainly did not / cannot tell (allow mode + inner error) *)
Definition admitted (m : mode) (o : out) : option bool :=
  match m, o with
  | MRequire, ORefused _ _ => Some false
  | MRequire, _ => Some true
  | _, OPass _ _ _ _ _ => verified_claim o
  | _, _ => None
  end.
Definition maybe_admitted (m : mode) (o : out) : bool :=
  match admitted m o with Some false => false | _ => true end.

(* clock premises *)
Definition max_ns : Z := (4611686018427387904 * 1000000000)%Z.   (* 2^62 s *)
Definition sane_req (r : req) : bool := (0 <=? r_tv r)%Z && (r_tv r <? max_ns)%Z.
Definition same_second (r : req) : bool := (unix_s (r_tv r) =? unix_s (r_tc r))%Z.
Fixpoint reads (h : list req) : list Z :=
  match h with [] => [] | r :: t => r_tv r :: r_tc r :: reads t end.
Fixpoint nondecr (l : list Z) : bool :=
  match l with
  | a :: ((b :: _) as t) => (a <=? b)%Z && nondecr t
  | _ => true
  end.
Definition monotone (h : list req) : bool := nondecr (reads h).
Definition max_skew : Z := 4611686017%Z.     (* (2*skew+1) s fits a Duration *)

(* a single well-formed proof header that verifies for this worker at second [now_s] *)
Definition valid_proof (hm : bytes -> bytes -> bytes) (c : config) (now_s : Z) (hdrs : list bytes) : bool :=
  match hdrs with
  | [tok] =>
    match parse tok with
    | Some f =>
      match lookup_kid (f_kid f) (c_secrets c) with
      | Some (secret, _) =>
          (Z.abs (now_s - digits_val (f_ts f)) <=? c_skew c)%Z
          && beqb (b64dec (f_mac f)) (hm secret (canonical (f_kid f) (f_ts f) (f_nonce f) (c_origin c)))
      | None => false
      end
    | None => false
    end
  | _ => false
  end.

(* would the timestamp of the (single, well-formed) proof header be accepted at second [now_s]? *)
Definition ts_acceptable (c : config) (now_s : Z) (hdrs : list bytes) : bool :=
  match hdrs with
  | [tok] => match parse tok with
             | Some f => (Z.abs (now_s - digits_val (f_ts f)) <=? c_skew c)%Z
             | None => false
             end
  | _ => false
  end.
Fixpoint count_ok (tr : list (vres * out)) : Z :=
  match tr with
  | [] => 0%Z
  | (VOk _ _, _) :: t => (1 + count_ok t)%Z
  | _ :: t => count_ok t
  end.

(* uniform refusal + mode semantics + passes-only-if, per request *)
Definition req_ok (hm : bytes -> bytes -> bytes) (c : config) (r : req) (o : out) : bool :=
  match o with
  | ORefused a called =>
      match c_mode c with MRequire => answer_eqb a proxy_required && negb called | _ => false end
  | OInnerErr _ => negb (c_inner_nil c)
  | OPass called _ _ _ _ => Bool.eqb called (negb (c_inner_nil c))
  end
  && (match admitted (c_mode c) o with
      | Some true => negb (sane_req r) || valid_proof hm c (unix_s (r_tv r)) (r_hdrs r)
      | _ => true
      end).

(* replay: request j presents the same proof (same_proof: any wire spelling) as an admitted request i<j, its timestamp would
   still be accepted at j, fewer than capacity admissions strictly in between => not admitted *)
Fixpoint count_maybe (m : mode) (os : list out) : Z :=
  match os with [] => 0%Z | o :: t => ((if maybe_admitted m o then 1 else 0) + count_maybe m t)%Z end.

(* the same proof, possibly in another wire spelling: one well-formed header each, equal kid, ts
   and nonce text, and MAC fields that DECODE to the same bytes (the 43-character base64url MAC
   has two spare bits, so four spellings of its last character are the same MAC) *)
Definition same_proof (a b : list bytes) : bool :=
  match a, b with
  | [ta], [tb] =>
      match parse ta, parse tb with
      | Some fa, Some fb =>
          beqb (f_kid fa) (f_kid fb) && beqb (f_ts fa) (f_ts fb) && beqb (f_nonce fa) (f_nonce fb)
          && beqb (b64dec (f_mac fa)) (b64dec (f_mac fb))
      | _, _ => false
      end
  | _, _ => false
  end.

(* [later rs os]: scan the requests after i; [k] = admissions seen so far in between *)
Fixpoint replay_scan (hm : bytes -> bytes -> bytes) (c : config) (hd : list bytes)
         (k : Z) (rs : list req) (os : list out) : bool :=
  match rs, os with
  | r :: rt, o :: ot =>
      (if same_proof hd (r_hdrs r) && valid_proof hm c (unix_s (r_tv r)) (r_hdrs r) && (k <? eff_cap c)%Z
       then match admitted (c_mode c) o with Some true => false | _ => true end
       else true)
      && replay_scan hm c hd (if maybe_admitted (c_mode c) o then k + 1 else k)%Z rt ot
  | _, _ => true
  end.
Fixpoint replay_ok (hm : bytes -> bytes -> bytes) (c : config) (rs : list req) (os : list out) : bool :=
  match rs, os with
  | r :: rt, o :: ot =>
      (match admitted (c_mode c) o with
       | Some true => replay_scan hm c (r_hdrs r) 0 rt ot
       | _ => true
       end) && replay_ok hm c rt ot
  | _, _ => true
  end.

Fixpoint all2 {A B} (f : A -> B -> bool) (a : list A) (b : list B) : bool :=
  match a, b with
  | x :: a', y :: b' => f x y && all2 f a' b'
  | [], [] => true
  | _, _ => false
  end.

Definition monotone1 (h : list req) : bool := nondecr (map r_tv h).

(* the property only speaks of the instant a request is judged at: r_tv *)
Definition spec_ok (i : input) (o : obs) : bool :=
  let c := i_cfg i in
  let hm := hm_lookup (i_hm i) in
  let h := map norm (i_hist i) in
  if negb (o_ctor o) then (match o_outs o with [] => true | _ => false end) else
  all2 (req_ok hm c) h (o_outs o)
  && (c_nocache c
      || negb (monotone h && forallb sane_req h && (c_skew c <=? max_skew)%Z)
      || replay_ok hm c h (o_outs o)).
