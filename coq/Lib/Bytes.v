(* Lib/Bytes.v — byte strings as [list N]: the boolean equality [beqb] and its
   lemmas; the literals [hx] (hex, in which the harness and Gen/Consts.v hand concrete
   bytes to the model) and [str] (ASCII); the equality tests [opt_eqb], [list_eqb],
   [pair_eqb] from which the models build their [obs_eqb], each with a lemma [_eq]
   (it decides equality if the test it is given does) and [_refl]. Stdlib only. Whoever
   imports this file gets with it List, NArith, ZArith, Bool, Lia, the list notations
   and an open [N_scope]: a bare numeral is an [N]. *)
From Coq Require Export List NArith ZArith Bool Lia.
From Coq Require Import Ascii.
From Coq Require Strings.String.
Export String.StringSyntax.
Delimit Scope string_scope with bstr.
Export ListNotations.
Open Scope N_scope.

Definition bytes := list N.

(* [bytes] does not bound its elements; where a statement needs them below 256 it
   says so with [all_bytes] *)
Definition is_byte (b : N) : bool := N.ltb b 256.
Definition all_bytes (l : bytes) : bool := forallb is_byte l.

Fixpoint beqb (a b : bytes) : bool :=
  match a, b with
  | [], [] => true
  | x :: a', y :: b' => N.eqb x y && beqb a' b'
  | _, _ => false
  end.

Lemma beqb_refl a : beqb a a = true.
Proof. induction a as [|x a IH]; cbn; [reflexivity|]. now rewrite N.eqb_refl, IH. Qed.

Lemma beqb_eq a b : beqb a b = true <-> a = b.
Proof.
  revert b; induction a as [|x a IH]; intros [|y b]; cbn; split; intro H;
    try reflexivity; try discriminate.
  - apply andb_true_iff in H as [H1 H2]. apply N.eqb_eq in H1. apply IH in H2. now subst.
  - inversion H; subst. now rewrite N.eqb_refl, beqb_refl.
Qed.

Lemma beqb_neq a b : beqb a b = false <-> a <> b.
Proof.
  split; intro H.
  - intro E. apply beqb_eq in E. congruence.
  - destruct (beqb a b) eqn:E; [apply beqb_eq in E; contradiction | reflexivity].
Qed.

Lemma beqb_sym a b : beqb a b = beqb b a.
Proof. revert b; induction a as [|x a IH]; intros [|y b]; cbn; try reflexivity. now rewrite N.eqb_sym, IH. Qed.

Lemma existsb_beqb_In x l : existsb (beqb x) l = true <-> In x l.
Proof.
  rewrite existsb_exists. split.
  - intros (y & Hy & E). apply beqb_eq in E. now subst.
  - intro H. exists x. split; [exact H | apply beqb_refl].
Qed.

(* ---- hex literals: [hx "68690a"] = [104;105;10] ------------------------- *)
Definition hexval (c : ascii) : N :=
  let n := N_of_ascii c in
  if (48 <=? n) && (n <=? 57) then n - 48
  else if (97 <=? n) && (n <=? 102) then n - 87
  else if (65 <=? n) && (n <=? 70) then n - 55
  else 0.

Fixpoint hx (s : String.string) : bytes :=
  match s with
  | String.String a (String.String b r) => (16 * hexval a + hexval b) :: hx r
  | _ => []
  end.

Arguments hx s%bstr.

(* plain ASCII literal: [str "abc"] *)
Fixpoint str (s : String.string) : bytes :=
  match s with
  | String.EmptyString => []
  | String.String a r => N_of_ascii a :: str r
  end.

Arguments str s%bstr.

Definition opt_eqb {A} (e : A -> A -> bool) (a b : option A) : bool :=
  match a, b with
  | Some x, Some y => e x y
  | None, None => true
  | _, _ => false
  end.

Fixpoint list_eqb {A} (e : A -> A -> bool) (a b : list A) : bool :=
  match a, b with
  | [], [] => true
  | x :: a', y :: b' => e x y && list_eqb e a' b'
  | _, _ => false
  end.

Definition pair_eqb {A B} (ea : A -> A -> bool) (eb : B -> B -> bool)
  (a b : A * B) : bool := ea (fst a) (fst b) && eb (snd a) (snd b).

Lemma list_eqb_eq {A} (e : A -> A -> bool)
  (He : forall x y, e x y = true <-> x = y) a b :
  list_eqb e a b = true <-> a = b.
Proof.
  revert b; induction a as [|x a IH]; intros [|y b]; cbn; split; intro H;
    try reflexivity; try discriminate.
  - apply andb_true_iff in H as [H1 H2]. apply He in H1. apply IH in H2. now subst.
  - inversion H; subst. apply andb_true_iff; split; [now apply He | now apply IH].
Qed.

Lemma opt_eqb_eq {A} (e : A -> A -> bool)
  (He : forall x y, e x y = true <-> x = y) a b :
  opt_eqb e a b = true <-> a = b.
Proof.
  destruct a, b; cbn; split; intro H; try discriminate; try reflexivity.
  - apply He in H; now subst.
  - inversion H; now apply He.
Qed.

Lemma pair_eqb_eq {A B} (ea : A -> A -> bool) (eb : B -> B -> bool)
  (Ha : forall x y, ea x y = true <-> x = y) (Hb : forall x y, eb x y = true <-> x = y) p q :
  pair_eqb ea eb p q = true <-> p = q.
Proof.
  destruct p as [a b], q as [a' b']. unfold pair_eqb. cbn [fst snd].
  rewrite andb_true_iff, Ha, Hb. split; [intros [-> ->]; reflexivity | intro H; inversion H; auto].
Qed.

Lemma list_eqb_refl {A} (e : A -> A -> bool) (He : forall x, e x x = true) l : list_eqb e l l = true.
Proof. induction l as [|x l IH]; cbn; [reflexivity | now rewrite He, IH]. Qed.

Lemma opt_eqb_refl {A} (e : A -> A -> bool) (He : forall x, e x x = true) o : opt_eqb e o o = true.
Proof. destruct o; cbn; auto. Qed.

Lemma pair_eqb_refl {A B} (ea : A -> A -> bool) (eb : B -> B -> bool)
  (Ha : forall x, ea x x = true) (Hb : forall x, eb x x = true) p : pair_eqb ea eb p p = true.
Proof. unfold pair_eqb. now rewrite Ha, Hb. Qed.
