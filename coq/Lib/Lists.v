(* Lib/Lists.v — facts about the standard list functions that the standard
   library of Coq 8.16 lacks, in this order: [app] (a list is cut in one way only),
   the length of a [flat_map], [fold_left], [forallb], [find], [filter],
   [Forall] / [Forall2], [NoDup]; then, in Section Eqb, membership, duplicate check
   and function update over a boolean equality test. Stdlib only. Files of Proofs/ and
   a few of Props/ import it by name; no model and no other file of Lib does. *)
From Coq Require Import List Bool Arith NArith Permutation.
Import ListNotations.

Lemma app_eq_len {A} (a b c d : list A) : a ++ c = b ++ d -> length a = length b -> a = b /\ c = d.
Proof.
  revert b; induction a as [|x a IH]; intros [|y b] H L; try discriminate L.
  - now split.
  - cbn in H. injection H as -> H. injection L as L. destruct (IH b H L) as [-> ->]. now split.
Qed.

(* a list is cut in one way only at the first occurrence of a separator *)
Lemma app_sep_inj {A} (c : A) a a' b b' :
  ~ In c a -> ~ In c a' -> a ++ c :: b = a' ++ c :: b' -> a = a' /\ b = b'.
Proof.
  revert a'. induction a as [|x a IH]; intros [|y a'] Ha Ha' E; cbn in *.
  - injection E as ->. auto.
  - injection E as -> _. tauto.
  - injection E as -> _. tauto.
  - injection E as -> E. destruct (IH a') as [-> ->]; tauto.
Qed.

Lemma length_flat_map_const {A B} (f : A -> list B) n l :
  (forall x, length (f x) = n) -> length (flat_map f l) = length l * n.
Proof. intro H. induction l as [|x l IH]; cbn; [reflexivity | now rewrite app_length, H, IH]. Qed.

(* the same in N, for product lists whose length would be a large nat *)
Lemma nlen_flat_map {A B} (f : A -> list B) n l :
  (forall x, N.of_nat (length (f x)) = n x) ->
  N.of_nat (length (flat_map f l)) = fold_right (fun x s => (n x + s)%N) 0%N l.
Proof.
  intro H. induction l as [|x l IH]; cbn [flat_map fold_right]; [reflexivity|].
  now rewrite app_length, Nat2N.inj_add, H, IH.
Qed.

Lemma nlen_flat_map_const {A B} (f : A -> list B) n l :
  (forall x, N.of_nat (length (f x)) = n) ->
  N.of_nat (length (flat_map f l)) = (N.of_nat (length l) * n)%N.
Proof.
  intro H. rewrite (nlen_flat_map f (fun _ => n) l H).
  induction l as [|x l IH]; cbn [fold_right length]; [reflexivity|].
  now rewrite IH, Nat2N.inj_succ, N.mul_succ_l, N.add_comm.
Qed.

Lemma fold_left_preserves {A B} (f : A -> B -> A) (P : A -> Prop) :
  (forall s o, P s -> P (f s o)) -> forall l s, P s -> P (fold_left f l s).
Proof. intros H l. induction l as [|o l IH]; intros s Hs; [exact Hs | apply IH, H, Hs]. Qed.

(* elements that leave the state m as it is are folded over without effect *)
Lemma fold_left_silent {A B} (f : A -> B -> A) (q : B -> bool) m :
  (forall e, q e = true -> f m e = m) -> forall l, forallb q l = true -> fold_left f l m = m.
Proof.
  intros H l. induction l as [|e l IH]; intro Q; [reflexivity|].
  cbn in *. apply andb_true_iff in Q as [Qe Q]. rewrite (H e Qe). exact (IH Q).
Qed.

Lemma forallb_ext {A} (f g : A -> bool) l : (forall x, f x = g x) -> forallb f l = forallb g l.
Proof. intros H. induction l as [|x l IH]; [reflexivity|]. cbn [forallb]. now rewrite H, IH. Qed.

Lemma forallb_imp {A} (p q : A -> bool) l :
  (forall x, p x = true -> q x = true) -> forallb p l = true -> forallb q l = true.
Proof. rewrite !forallb_forall. auto. Qed.

Lemma forallb_map {A B} (p : B -> bool) (f : A -> B) l : forallb p (map f l) = forallb (fun x => p (f x)) l.
Proof. induction l as [|x l IH]; cbn; [reflexivity | now rewrite IH]. Qed.

Lemma forallb_nth {A} (f : A -> bool) l j x : forallb f l = true -> nth_error l j = Some x -> f x = true.
Proof. intros H Hj. eapply forallb_forall; [exact H | eapply nth_error_In; exact Hj]. Qed.

(* the first element that fails the test, with all before it passing *)
Lemma forallb_false_split {A} (p : A -> bool) l :
  forallb p l = false -> exists pre x post, l = pre ++ x :: post /\ forallb p pre = true /\ p x = false.
Proof.
  induction l as [|o t IH]; intro H; [discriminate|]. cbn [forallb] in H.
  destruct (p o) eqn:Ho.
  - destruct (IH H) as (pre & x & post & -> & Hp & Hx). exists (o :: pre), x, post.
    repeat split; [cbn [forallb]; now rewrite Ho | exact Hx].
  - exists [], o, t. now repeat split.
Qed.

Lemma forallb_false_ex {A} (f : A -> bool) l : forallb f l = false -> exists x, In x l /\ f x = false.
Proof.
  intro H. apply forallb_false_split in H as (pre & x & post & -> & _ & Hx).
  exists x. split; [apply in_elt | exact Hx].
Qed.

(* [find] returns the first element that passes, or nothing passes *)
Lemma find_first {A} (f : A -> bool) l :
  match find f l with
  | Some g => exists pre post, l = pre ++ g :: post /\ Forall (fun x => f x = false) pre /\ f g = true
  | None => Forall (fun x => f x = false) l
  end.
Proof.
  induction l as [|x r IH]; cbn [find]; [constructor|].
  destruct (f x) eqn:E.
  - exists [], r. repeat split; [constructor | exact E].
  - destruct (find f r) as [g|].
    + destruct IH as (pre & post & E1 & E2 & E3). exists (x :: pre), post.
      subst r. repeat split; [constructor; assumption | exact E3].
    + constructor; assumption.
Qed.

Lemma filter_filter {A} (g h : A -> bool) l : filter h (filter g l) = filter (fun x => g x && h x) l.
Proof. induction l as [|x l IH]; [reflexivity|]. cbn. destruct (g x); cbn; now rewrite IH. Qed.

Lemma length_filter_cons {A} (p : A -> bool) x l :
  length (filter p (x :: l)) = (if p x then 1 else 0) + length (filter p l).
Proof. cbn [filter]. now destruct (p x). Qed.

(* q is p with the one element i of l switched off *)
Lemma filter_drop_one {A} (p q : A -> bool) i l :
  NoDup l -> In i l -> p i = true -> q i = false -> (forall j, j <> i -> q j = p j) ->
  S (length (filter q l)) = length (filter p l).
Proof.
  intros ND HI Pi Qi E. induction l as [|x l IH]; [destruct HI|].
  inversion ND as [|? ? Hx ND']; subst. cbn [filter]. destruct HI as [-> | HI].
  - rewrite Pi, Qi. cbn [length]. do 2 f_equal. apply filter_ext_in. intros j Hj. apply E. intros ->. contradiction.
  - rewrite (E x) by (intros ->; contradiction). destruct (p x); cbn [length]; rewrite <- (IH ND' HI); reflexivity.
Qed.

Lemma map_filter_perm {A B} (f : A -> B) p (l : list A) :
  Permutation (map f l) (map f (filter (fun x => negb (p x)) l) ++ map f (filter p l)).
Proof.
  induction l as [|a l IH]; cbn; [constructor|]. destruct (p a); cbn.
  - now apply Permutation_cons_app.
  - now constructor.
Qed.

Lemma Forall_firstn {A} (P : A -> Prop) n l : Forall P l -> Forall P (firstn n l).
Proof.
  revert l. induction n as [|n IH]; intros [|a l] H; cbn [firstn]; auto.
  inversion H; subst. constructor; auto.
Qed.

Lemma Forall2_len {A B} (P : A -> B -> Prop) a b : Forall2 P a b -> length a = length b.
Proof. induction 1; cbn; congruence. Qed.

Lemma Forall2_nth {A B} (P : A -> B -> Prop) a b : Forall2 P a b -> forall i,
  match nth_error a i, nth_error b i with
  | Some x, Some y => P x y
  | None, None => True
  | _, _ => False
  end.
Proof. induction 1 as [|x y a b Hp _ IH]; intros [|i]; cbn; auto. apply IH. Qed.

Lemma Forall2_combine_in {A B} (P : A -> B -> Prop) a b :
  Forall2 P a b -> forall x y, In (x, y) (combine a b) -> P x y.
Proof. induction 1 as [|x0 y0 a b Hp _ IH]; intros x y; cbn; [intros []|]. intros [[= <- <-]|H]; auto. Qed.

Lemma NoDup_app_l {A} (a b : list A) : NoDup (a ++ b) -> NoDup a.
Proof. induction a as [|x a IH]; cbn; intro H; [constructor|]. inversion H; subst. constructor; [rewrite in_app_iff in *; tauto | auto]. Qed.

Lemma NoDup_app_r {A} (a b : list A) : NoDup (a ++ b) -> NoDup b.
Proof. induction a as [|x a IH]; cbn; auto. intro H. inversion H; auto. Qed.

Lemma NoDup_app_not_in {A} (a b : list A) x : NoDup (a ++ b) -> In x a -> ~ In x b.
Proof.
  intros H Ha Hb. apply in_split in Ha as (a1 & a2 & ->). rewrite <- app_assoc in H.
  apply NoDup_remove_2 in H. apply H. rewrite !in_app_iff. auto.
Qed.

Lemma NoDup_map_inj {A B} (f : A -> B) l x y :
  NoDup (map f l) -> In x l -> In y l -> f x = f y -> x = y.
Proof.
  induction l as [|a l IH]; cbn [map In]; intros Hn Hx Hy E; [contradiction|].
  apply NoDup_cons_iff in Hn as [Ha Hn].
  destruct Hx as [->|Hx], Hy as [->|Hy]; auto; exfalso; apply Ha, in_map_iff; eauto.
Qed.

(* Facts about a decidable equality given as a boolean test.  The models write
   their membership tests, duplicate checks and function updates out with the
   test of the type at hand; each is an instance of the definitions here by
   conversion, so these lemmas apply to them as they stand. *)
Section Eqb.
  Context {A : Type} (eqb : A -> A -> bool) (eqb_eq : forall x y, eqb x y = true <-> x = y).

  Lemma existsb_eqb_In x l : existsb (eqb x) l = true <-> In x l.
  Proof.
    rewrite existsb_exists. split.
    - intros (y & Hy & E). apply eqb_eq in E. now subst.
    - intro H. exists x. split; [exact H | now apply eqb_eq].
  Qed.

  Lemma existsb_eqb_not_In x l : existsb (eqb x) l = false <-> ~ In x l.
  Proof. rewrite <- existsb_eqb_In. now destruct (existsb (eqb x) l). Qed.

  Fixpoint nodupb_by (l : list A) : bool :=
    match l with [] => true | x :: t => negb (existsb (eqb x) t) && nodupb_by t end.

  Lemma nodupb_by_NoDup l : nodupb_by l = true <-> NoDup l.
  Proof.
    induction l as [|x l IH]; cbn [nodupb_by]; [split; [constructor | reflexivity]|].
    rewrite andb_true_iff, negb_true_iff, existsb_eqb_not_In, IH, NoDup_cons_iff. reflexivity.
  Qed.

  Definition fupd {B} (f : A -> B) (k : A) (v : B) : A -> B := fun x => if eqb x k then v else f x.

  Lemma fupd_same {B} (f : A -> B) k v : fupd f k v k = v.
  Proof. unfold fupd. now rewrite (proj2 (eqb_eq k k) eq_refl). Qed.

  Lemma fupd_other {B} (f : A -> B) k v x : x <> k -> fupd f k v x = f x.
  Proof. unfold fupd. intro H. destruct (eqb x k) eqn:E; [apply eqb_eq in E; contradiction | reflexivity]. Qed.
End Eqb.
