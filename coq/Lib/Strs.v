(* Lib/Strs.v — the Go string primitives the models use, over [list N]: HasPrefix,
   Index, IndexByte, slicing ([drop], [take]), occurrence of a byte ([mem], [none_of]),
   ToLower / EqualFold, TrimSpace, Split and Join on one separator byte. Each is the
   obvious total function. The lemmas stand in four blocks: prefixes and slices, under
   the first definitions; a byte that does not occur in a text; Split and Join are
   mutually inverse, by a criterion ([unjoin]) that serves other splitters as well;
   TrimSpace. The file imports Lib.Bytes and nothing else of the development. *)
From VR Require Export Lib.Bytes.
Open Scope N_scope.

Fixpoint has_prefix (p s : bytes) : bool :=
  match p, s with
  | [], _ => true
  | x :: p', y :: s' => N.eqb x y && has_prefix p' s'
  | _ :: _, [] => false
  end.

(* strings.Index(s, sub): position of the first occurrence, None = -1 *)
Fixpoint index (sub s : bytes) : option nat :=
  if has_prefix sub s then Some O else
  match s with
  | [] => None
  | _ :: t => match index sub t with Some n => Some (S n) | None => None end
  end.

(* strings.IndexByte *)
Fixpoint index_byte (c : N) (s : bytes) : option nat :=
  match s with
  | [] => None
  | x :: t => if N.eqb x c then Some O else
              match index_byte c t with Some n => Some (S n) | None => None end
  end.

Definition drop {A} := @skipn A.
Definition take {A} := @firstn A.

Definition mem (c : N) (s : bytes) : bool := existsb (N.eqb c) s.
Definition none_of (cs s : bytes) : bool := forallb (fun c => negb (mem c cs)) s.

Lemma has_prefix_app p s : has_prefix p (p ++ s) = true.
Proof. induction p as [|x p IH]; cbn; [reflexivity|]. now rewrite N.eqb_refl, IH. Qed.

Lemma has_prefix_refl s : has_prefix s s = true.
Proof. induction s as [|x s IH]; cbn; [reflexivity | now rewrite N.eqb_refl]. Qed.

Lemma has_prefix_spec p s : has_prefix p s = true <-> exists r, s = p ++ r.
Proof.
  revert s; induction p as [|x p IH]; intros s; cbn.
  - split; [intros _; now exists s | reflexivity].
  - destruct s as [|y s]; [split; [discriminate | intros [r Hr]; discriminate]|].
    rewrite andb_true_iff, N.eqb_eq, IH. split.
    + intros [-> [r ->]]. now exists r.
    + intros [r Hr]. inversion Hr; subst. split; [reflexivity | now exists r].
Qed.

Lemma drop_app_len {A} (a b : list A) : drop (length a) (a ++ b) = b.
Proof. induction a; cbn; auto. Qed.

Lemma take_app_len {A} (a b : list A) : take (length a) (a ++ b) = a.
Proof. induction a; cbn; [reflexivity | now f_equal]. Qed.

(* strings.ToLower / EqualFold, on ASCII letters only *)
Definition to_lower1 (c : N) : N := if (65 <=? c) && (c <=? 90) then c + 32 else c.
Definition to_lower (s : bytes) : bytes := map to_lower1 s.
Definition equal_fold (a b : bytes) : bool := beqb (to_lower a) (to_lower b).

Definition is_space (c : N) : bool :=
  (c =? 32) || (c =? 9) || (c =? 10) || (c =? 11) || (c =? 12) || (c =? 13).

Fixpoint trim_left (s : bytes) : bytes :=
  match s with
  | c :: t => if is_space c then trim_left t else s
  | [] => []
  end.
Definition trim_right (s : bytes) : bytes := rev (trim_left (rev s)).
Definition trim_space (s : bytes) : bytes := trim_right (trim_left s).

(* strings.Split(s, sep) for a single-byte separator *)
Fixpoint split_on_aux (c : N) (cur : bytes) (s : bytes) : list bytes :=
  match s with
  | [] => [rev cur]
  | x :: t => if N.eqb x c then rev cur :: split_on_aux c [] t
              else split_on_aux c (x :: cur) t
  end.
Definition split_on (c : N) (s : bytes) : list bytes := split_on_aux c [] s.

(* strings.Join *)
Fixpoint join (sep : bytes) (l : list bytes) : bytes :=
  match l with
  | [] => []
  | [x] => x
  | x :: t => x ++ sep ++ join sep t
  end.

(* ---- a byte that does not occur in a text ----------------------------------
   Three spellings are in use. [mem c s = false] is what the Split lemmas below are
   stated with ([split_on_keeps] and [split_join] take it, [split_pieces_nosep] yields
   it); [~ In c s] is what [Lists.app_sep_inj] takes; [mem_false_iff] goes between the two.
   [none_of cs s = true] says it of several bytes at once ([index_byte_app] takes it
   with [cs = [c]]). Mind that [none_of_cons] yields [mem x cs = false] for the head
   byte x of the text: byte and text have changed places, and no lemma here turns
   [none_of [c] s = true] into [mem c s = false]. *)
Lemma mem_app c a b : mem c (a ++ b) = mem c a || mem c b.
Proof. apply existsb_app. Qed.

Lemma mem_false_iff c s : mem c s = false <-> ~ In c s.
Proof.
  unfold mem. rewrite <- not_true_iff_false, existsb_exists. split.
  - intros H Hin. apply H. exists c. split; [exact Hin | apply N.eqb_refl].
  - intros H (x & Hx & E). apply N.eqb_eq in E. now subst.
Qed.

(* A text all of whose bytes lie in a class holds none of the bytes outside it;
   which bytes a class leaves out is a computation on those bytes. *)
Lemma none_of_class (P : N -> bool) cs s :
  forallb P s = true -> forallb (fun x => negb (P x)) cs = true -> none_of cs s = true.
Proof.
  unfold none_of. rewrite !forallb_forall. intros Hs Hcs c Hc.
  apply negb_true_iff, mem_false_iff. intro Hin. apply Hcs in Hin. now rewrite (Hs c Hc) in Hin.
Qed.

Lemma none_of_app cs a b : none_of cs (a ++ b) = none_of cs a && none_of cs b.
Proof. apply forallb_app. Qed.

Lemma none_of_cons cs c s : none_of cs (c :: s) = true -> mem c cs = false /\ none_of cs s = true.
Proof. cbn [none_of forallb]. intro H. apply andb_true_iff in H as [H Hs]. now apply negb_true_iff in H. Qed.

Lemma index_byte_app c a b : none_of [c] a = true -> index_byte c (a ++ c :: b) = Some (length a).
Proof.
  induction a as [|x a IH]; cbn [app index_byte length]; intro H.
  - now rewrite N.eqb_refl.
  - apply none_of_cons in H as [Hx Ha]. cbn [mem existsb] in Hx. apply orb_false_iff in Hx as [Hx _].
    rewrite Hx, (IH Ha). reflexivity.
Qed.

(* ---- Split and Join on one separator byte are mutually inverse --------- *)
Lemma split_aux_nonempty c cur s : split_on_aux c cur s <> [].
Proof.
  revert cur. induction s as [|x s IH]; intro cur; cbn [split_on_aux]; [discriminate|].
  destruct (x =? c); [discriminate | apply IH].
Qed.

Lemma join_cons sep x l : l <> [] -> join sep (x :: l) = x ++ sep ++ join sep l.
Proof. destruct l; [congruence | reflexivity]. Qed.

(* c put in front of the first part, and a text put there byte by byte: the steps
   of a splitter that builds its parts from the right *)
Definition hcons (c : N) (l : list bytes) : list bytes :=
  match l with h :: r => (c :: h) :: r | [] => [[c]] end.
Definition prepend (p : bytes) (l : list bytes) : list bytes := fold_right hcons l p.

Lemma prepend_cons p h t : prepend p (h :: t) = (p ++ h) :: t.
Proof. induction p as [|c p IH]; [reflexivity|]. cbn [prepend fold_right app]. fold (prepend p (h :: t)). now rewrite IH. Qed.
Lemma prepend_app p q l : prepend p (prepend q l) = prepend (p ++ q) l.
Proof. symmetry. apply fold_right_app. Qed.
Lemma join_hcons d c l : join [d] (hcons c l) = c :: join [d] l.
Proof. destruct l as [|h [|h2 r]]; reflexivity. Qed.

(* [split] keeps p whole: p goes to the front of the first part and splitting
   resumes behind it as if p had not been there *)
Definition keeps (split : bytes -> list bytes) (p : bytes) : Prop :=
  forall rest, split (p ++ rest) = prepend p (split rest).

Lemma keeps_app split p q : keeps split p -> keeps split q -> keeps split (p ++ q).
Proof. intros Hp Hq rest. now rewrite <- app_assoc, Hp, Hq, prepend_app. Qed.

(* a splitter that keeps each of the parts whole and cuts at the separator
   recovers the parts from their join *)
Lemma unjoin (split : bytes -> list bytes) d parts :
  split [] = [[]] -> (forall s, split (d :: s) = [] :: split s) ->
  Forall (keeps split) parts -> parts <> [] -> split (join [d] parts) = parts.
Proof.
  intros Hnil Hd Hall. induction Hall as [|p rest Hp _ IH]; [congruence|]. intros _.
  destruct rest as [|p2 rest'].
  - cbn [join]. rewrite <- (app_nil_r p) at 1. now rewrite Hp, Hnil, prepend_cons, !app_nil_r.
  - rewrite join_cons by discriminate. cbn [app].
    now rewrite Hp, Hd, IH, prepend_cons, app_nil_r by discriminate.
Qed.

(* a byte appended to the accumulator is a byte put in front of the first part; hence
   ([split_on_keeps]) Split is such a splitter *)
Lemma split_aux_acc c x s : forall cur,
  split_on_aux c (cur ++ [x]) s = hcons x (split_on_aux c cur s).
Proof.
  induction s as [|y s IH]; intro cur; cbn [split_on_aux].
  - now rewrite rev_app_distr.
  - destruct (y =? c); [now rewrite rev_app_distr|]. exact (IH (y :: cur)).
Qed.

Lemma split_on_cons c x s :
  split_on c (x :: s) = if x =? c then [] :: split_on c s else hcons x (split_on c s).
Proof. unfold split_on. cbn [split_on_aux]. destruct (x =? c); [reflexivity|]. exact (split_aux_acc c x s []). Qed.

Lemma join_split c s : join [c] (split_on c s) = s.
Proof.
  induction s as [|x s IH]; [reflexivity|]. rewrite split_on_cons. destruct (N.eqb_spec x c) as [->|_].
  - rewrite join_cons by apply split_aux_nonempty. cbn [app]. now rewrite IH.
  - now rewrite join_hcons, IH.
Qed.

(* a piece without the separator is read whole, up to the next separator *)
Lemma split_on_keeps c p : mem c p = false -> keeps (split_on c) p.
Proof.
  induction p as [|x p IH]; intros H rest; [reflexivity|]. cbn [mem existsb] in H.
  apply orb_false_iff in H as [Hx Hp]. cbn [app]. rewrite split_on_cons, N.eqb_sym, Hx. now rewrite (IH Hp).
Qed.

Lemma split_join c parts :
  parts <> [] -> Forall (fun p => mem c p = false) parts -> split_on c (join [c] parts) = parts.
Proof.
  intros Hne H. apply unjoin; [reflexivity | | | exact Hne].
  - intro s. now rewrite split_on_cons, N.eqb_refl.
  - revert H. apply Forall_impl, split_on_keeps.
Qed.

Lemma split_pieces_nosep c s : Forall (fun p => mem c p = false) (split_on c s).
Proof.
  induction s as [|x s IH]; [now repeat constructor|]. rewrite split_on_cons. destruct (x =? c) eqn:E.
  - now constructor.
  - destruct IH as [|h r Hh Hr]; repeat constructor; try assumption; cbn [mem existsb]; now rewrite N.eqb_sym, E.
Qed.

(* ---- TrimSpace ------------------------------------------------------------ *)
(* a fact about lists, stated here because this file does not import Lib.Lists *)
Lemma forallb_rev {A} (f : A -> bool) l : forallb f (rev l) = forallb f l.
Proof.
  induction l as [|x l IH]; cbn; [reflexivity|].
  rewrite forallb_app, IH. cbn. rewrite andb_true_r. apply andb_comm.
Qed.

Lemma trim_left_app a s :
  trim_left (a ++ s) = if forallb is_space a then trim_left s else trim_left a ++ s.
Proof.
  induction a as [|c a IH]; cbn; [reflexivity|]. destruct (is_space c); cbn; [exact IH | reflexivity].
Qed.

Lemma trim_left_blank w : forallb is_space w = true -> trim_left w = [].
Proof. intro H. rewrite <- (app_nil_r w), trim_left_app, H. reflexivity. Qed.

(* a non-blank byte stops the trimming, from either side *)
Lemma trim_left_stop a x b : is_space x = false ->
  trim_left (a ++ x :: b) = trim_left a ++ x :: b.
Proof.
  intro Hx. rewrite trim_left_app. destruct (forallb is_space a) eqn:E; [|reflexivity].
  rewrite (trim_left_blank a E). cbn. now rewrite Hx.
Qed.

Lemma trim_right_stop a x b : is_space x = false ->
  trim_right (a ++ x :: b) = a ++ x :: trim_right b.
Proof.
  intro Hx. unfold trim_right. rewrite rev_app_distr. cbn [rev]. rewrite <- app_assoc. cbn [app].
  rewrite trim_left_stop by assumption.
  rewrite rev_app_distr. cbn [rev]. rewrite rev_involutive, <- app_assoc. reflexivity.
Qed.

Lemma none_of_trim_left cs a : none_of cs a = true -> none_of cs (trim_left a) = true.
Proof.
  induction a as [|c a IH]; cbn [trim_left]; [reflexivity|]. intro H. destruct (is_space c); [|exact H].
  apply none_of_cons in H as [_ H]. now apply IH.
Qed.

Lemma trim_left_decomp s : exists w, forallb is_space w = true /\ s = w ++ trim_left s.
Proof.
  induction s as [|c s (w & Hw & E)]; [now exists []|]. cbn. destruct (is_space c) eqn:Ec.
  - exists (c :: w). cbn. rewrite Ec, Hw. split; [reflexivity | now f_equal].
  - now exists [].
Qed.

Lemma trim_right_decomp s : exists w, forallb is_space w = true /\ s = trim_right s ++ w.
Proof.
  destruct (trim_left_decomp (rev s)) as (w & Hw & E). exists (rev w). split; [now rewrite forallb_rev|].
  unfold trim_right. rewrite <- rev_app_distr, <- E. symmetry. apply rev_involutive.
Qed.

(* TrimSpace is what is left between the blanks: it ignores blanks around a text,
   leaves a text that has none at its ends as it is, and every text is its trimming
   with blanks around it *)
Lemma trim_space_pad_l w s : forallb is_space w = true -> trim_space (w ++ s) = trim_space s.
Proof. intro H. unfold trim_space. now rewrite trim_left_app, H. Qed.

Lemma trim_space_pad_r s w : forallb is_space w = true -> trim_space (s ++ w) = trim_space s.
Proof.
  intro H. unfold trim_space. rewrite trim_left_app. destruct (forallb is_space s) eqn:E.
  - now rewrite (trim_left_blank w H), (trim_left_blank s E).
  - unfold trim_right. now rewrite rev_app_distr, trim_left_app, forallb_rev, H.
Qed.

Lemma trim_space_core w1 m w2 :
  forallb is_space w1 = true -> forallb is_space w2 = true -> trim_left m = m -> trim_right m = m ->
  trim_space (w1 ++ m ++ w2) = m.
Proof.
  intros H1 H2 Hl Hr. rewrite trim_space_pad_l, trim_space_pad_r by assumption.
  unfold trim_space. now rewrite Hl.
Qed.

Lemma trim_space_decomp s : exists w1 w2,
  forallb is_space w1 = true /\ forallb is_space w2 = true /\ s = w1 ++ trim_space s ++ w2.
Proof.
  destruct (trim_left_decomp s) as (w1 & H1 & E1).
  destruct (trim_right_decomp (trim_left s)) as (w2 & H2 & E2).
  exists w1, w2. repeat split; auto. unfold trim_space. now rewrite <- E2.
Qed.
