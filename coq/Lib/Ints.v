(* Lib/Ints.v — fixed-width integers: little-endian digits in a base, and the
   two's-complement wrap. Each model has its own codec / wrap function; each is
   convertible to an instance of the functions here (or one rewrite away), so the
   lemmas below apply to them by [exact]. *)
From Coq Require Import List NArith ZArith Lia.
Import ListNotations.

Section LE.
  Open Scope N_scope.
  Variable B : N.
  Hypothesis B_nz : B <> 0.

  Fixpoint gle (k : nat) (v : N) : list N :=
    match k with O => [] | S k' => (v mod B) :: gle k' (v / B) end.
  Fixpoint gunle (b : list N) : N :=
    match b with [] => 0 | x :: r => x + B * gunle r end.

  Lemma length_gle k : forall v, length (gle k v) = k.
  Proof. induction k as [|k IH]; intro v; cbn [gle length]; [reflexivity | now rewrite IH]. Qed.

  Lemma gunle_gle k : forall v, gunle (gle k v) = v mod B ^ N.of_nat k.
  Proof.
    induction k as [|k IH]; intro v; cbn [gle gunle].
    - change (N.of_nat 0) with 0. now rewrite N.pow_0_r, N.mod_1_r.
    - rewrite IH, Nat2N.inj_succ, N.pow_succ_r', N.mod_mul_r; [reflexivity | exact B_nz | now apply N.pow_nonzero].
  Qed.

  Lemma gunle_gle_small k v : v < B ^ N.of_nat k -> gunle (gle k v) = v.
  Proof. intro H. rewrite gunle_gle. now apply N.mod_small. Qed.
End LE.

Local Open Scope Z_scope.

(* The signed wrap to a width with modulus [m] and half-modulus [h]: residue, then
   branch. [h] and [m] are variables on purpose. Stated over a number of bits, or over
   literals, the lemmas would apply to a model's function only by a conversion between
   [2 ^ 64] and its literal under the [if]; there the scrutinee is stuck on [z], the
   two stuck terms are compared with [2 ^ 64] unevaluated in every branch, and neither
   the unifier nor the kernel finishes. With [h] and [m] instantiated by the model's
   own terms the conversion is an unfolding. *)
Definition swrap (h m z : Z) : Z := let r := z mod m in if r <? h then r else r - m.

(* on one period around the signed range; below zero the residue is z + m, in the upper half *)
Lemma swrap_eq h m z : 0 < h -> m = 2 * h -> - h <= z < m ->
  swrap h m z = if z <? h then z else z - m.
Proof.
  intros Hh -> [L U]. unfold swrap. cbv zeta.
  destruct (Z.lt_ge_cases z 0) as [Neg|Pos].
  - rewrite <- (Z.mod_add z 1), Z.mul_1_l, Z.mod_small by lia.
    rewrite (proj2 (Z.ltb_ge _ _)), (proj2 (Z.ltb_lt z _)) by lia. lia.
  - now rewrite Z.mod_small by lia.
Qed.

Lemma swrap_id h m z : 0 < h -> m = 2 * h -> - h <= z < h -> swrap h m z = z.
Proof.
  intros Hh Hm [L U]. rewrite swrap_eq by lia. now rewrite (proj2 (Z.ltb_lt z h)).
Qed.
