(* Lib/Frames.v — abstract view of a response: a list of IPC streams, each a
   schema label and a list of frames (batches). This is the projection the Go
   harness (rpcutil.go: ParseStreams / classify) produces from real bytes. With it:
   the boolean equalities of frames and streams, [count] (how many elements of a list
   pass a test: the specifications count data and exception frames with it), and
   [kv_sort], which puts metadata pairs in the key order a frame carries them in. *)
From VR Require Export Lib.Strs.
Open Scope N_scope.

Definition kvlist := list (bytes * bytes).

Inductive frame :=
| FData (rows : N) (vals : list Z) (umeta : kvlist)   (* data batch: first int64 column, user metadata sorted by key *)
| FLog (level msg reqid : bytes) (extras : kvlist)      (* client log batch; extras sorted by key *)
| FExc (etype msg reqid kind : bytes)                   (* EXCEPTION batch *)
| FToken                                                (* state-token sentinel batch *)
| FPtr.                                                 (* shm / external pointer batch *)

Record stream := { st_schema : bytes; st_frames : list frame }.

Definition kv_eqb (a b : kvlist) : bool := list_eqb (pair_eqb beqb beqb) a b.

Definition frame_eqb (a b : frame) : bool :=
  match a, b with
  | FData r v m, FData r' v' m' => N.eqb r r' && list_eqb Z.eqb v v' && kv_eqb m m'
  | FLog l m r e, FLog l' m' r' e' => beqb l l' && beqb m m' && beqb r r' && kv_eqb e e'
  | FExc t m r k, FExc t' m' r' k' => beqb t t' && beqb m m' && beqb r r' && beqb k k'
  | FToken, FToken => true
  | FPtr, FPtr => true
  | _, _ => false
  end.

Definition stream_eqb (a b : stream) : bool :=
  beqb (st_schema a) (st_schema b) && list_eqb frame_eqb (st_frames a) (st_frames b).

Definition is_data (f : frame) : bool := match f with FData _ _ _ => true | _ => false end.
Definition is_log (f : frame) : bool := match f with FLog _ _ _ _ => true | _ => false end.
Definition is_exc (f : frame) : bool := match f with FExc _ _ _ _ => true | _ => false end.

Definition count {A} (p : A -> bool) (l : list A) : nat := length (filter p l).

(* lexicographic order on byte strings, and insertion sort of key/value lists
   (Go's json.Marshal of a map emits keys sorted bytewise) *)
Fixpoint bytes_leb (a b : bytes) : bool :=
  match a, b with
  | [], _ => true
  | _ :: _, [] => false
  | x :: a', y :: b' => if N.ltb x y then true else if N.eqb x y then bytes_leb a' b' else false
  end.

Fixpoint kv_insert (k v : bytes) (l : kvlist) : kvlist :=
  match l with
  | [] => [(k, v)]
  | (k', v') :: t =>
      if beqb k k' then (k, v) :: t            (* map semantics: later write wins *)
      else if bytes_leb k k' then (k, v) :: l
      else (k', v') :: kv_insert k v t
  end.

Definition kv_sort (l : kvlist) : kvlist := fold_left (fun acc kv => kv_insert (fst kv) (snd kv) acc) l [].

Lemma kv_eqb_refl m : kv_eqb m m = true.
Proof. apply list_eqb_refl, pair_eqb_refl; apply beqb_refl. Qed.

Lemma frame_eqb_refl f : frame_eqb f f = true.
Proof.
  destruct f; cbn [frame_eqb];
    rewrite ?N.eqb_refl, ?beqb_refl, ?kv_eqb_refl, ?(list_eqb_refl Z.eqb Z.eqb_refl); reflexivity.
Qed.

Lemma stream_eqb_refl s : stream_eqb s s = true.
Proof. unfold stream_eqb. now rewrite beqb_refl, (list_eqb_refl _ frame_eqb_refl). Qed.

Lemma count_app {A} (p : A -> bool) a b : count p (a ++ b) = (count p a + count p b)%nat.
Proof. unfold count. now rewrite filter_app, app_length. Qed.
